(** For every interleaving of sends, in-order receives and replays, the oracle of Oracle/C37.v
    evaluated on the *model's own* observations is true: an implementation that behaves like the
    model never raises a false alarm, and the oracle demands nothing the theorems do not give. *)
From Coq Require Import List NArith Bool Arith.
From PV Require Import Model.TwoParty Proofs.TwoParty Oracle.C37.
Import ListNotations.

Definition Rel (w : world) (t : track) : Prop :=
  (forall p, t_plains t p = map plain_of (done w p ++ pending w p)) /\
  (forall p, t_ptr t p = List.length (done w p)) /\
  t_clean t = true.

Lemma nth_error_map_app_head {A B} (f : A -> B) (l : list A) (x : A) (r : list A) :
  nth_error (map f (l ++ x :: r)) (List.length l) = Some (f x).
Proof. induction l as [|a l IH]; cbn; [reflexivity|exact IH]. Qed.

Lemma nth_error_map_all {A B} (f : A -> B) (l : list A) :
  nth_error (map f l) (List.length l) = None.
Proof. apply nth_error_None. rewrite map_length. apply le_n. Qed.

Lemma check_step_model ot w t e :
  Inv ot w -> Rel w t -> in_order_event e = true ->
  let '(w', o) := step w e in
  let '(t', ok) := check_step t e o in
  ok = true /\ Rel w' t'.
Proof.
  intros HI HR Hev. pose proof HR as (Hp & Hn & Hc).
  destruct e as [p x|p|p i|p k]; [| | |discriminate]; cbn [step check_step].
  - destruct (send p (wst w p) x) as [[s' m]|er] eqn:Es; [|split; [reflexivity|exact HR]].
    split; [reflexivity|]. split; [|split; [exact Hn|exact Hc]]. cbn [t_plains pending done].
    intros q. destruct (party_cases p q) as [->| ->].
    + rewrite !upd_other'. apply Hp.
    + rewrite !upd_same, Hp, app_assoc, (map_app plain_of (_ ++ _) [m]). cbn [map].
      now rewrite (send_carries_plain _ _ _ _ _ Es).
  - rewrite Hp, Hn. destruct (pending w p) as [|m q] eqn:Ep.
    + rewrite app_nil_r, nth_error_map_all. split; [reflexivity|exact HR].
    + destruct (Inv_recv ot w p m q HI Ep) as (s' & g' & -> & _). rewrite nth_error_map_app_head.
      split; [rewrite N.eqb_refl; apply orb_true_r|].
      split; [|split; [|exact Hc]]; cbn [t_plains t_ptr pending done]; intros q0;
        destruct (party_cases p q0) as [->| ->]; rewrite ?upd_same, ?upd_other.
      * rewrite Hp, Ep, <- app_assoc. reflexivity.
      * apply Hp.
      * rewrite app_length, Nat.add_1_r. reflexivity.
      * apply Hn.
  - rewrite Hn. destruct (nth_error (done w p) i) as [m|] eqn:En.
    + destruct (replay_err ot w p m HI (nth_error_In _ _ En)) as [er ->].
      rewrite (proj2 (Nat.ltb_lt _ _)) by (apply nth_error_Some; congruence).
      split; [reflexivity|exact HR].
    + apply nth_error_None in En. rewrite (proj2 (Nat.ltb_ge _ _) En). split; [reflexivity|exact HR].
Qed.

Lemma check_from_model ot evs : forall w t,
  Inv ot w -> Rel w t -> forallb in_order_event evs = true ->
  check_from t evs (snd (run w evs)) = true.
Proof.
  induction evs as [|e evs IH]; intros w t HI HR Hev; cbn [run snd check_from]; [reflexivity|].
  cbn [forallb] in Hev. apply andb_prop in Hev. destruct Hev as [He Hev].
  pose proof (check_step_model ot w t e HI HR He) as Hs.
  pose proof (step_inv ot w e HI He) as HI1.
  destruct (step w e) as [w1 o]. cbn [fst] in HI1.
  specialize (IH w1).
  destruct (run w1 evs) as [w2 os] eqn:Er. cbn [snd check_from] in *.
  destruct (check_step t e o) as [t1 ok]. destruct Hs as [-> HR1].
  cbn [andb]. exact (IH t1 HI1 HR1 Hev).
Qed.

Theorem model_passes_oracle ot sym evs :
  forallb in_order_event evs = true ->
  check evs (snd (run (init_world ot sym) evs)) = true.
Proof.
  intros Hev. unfold check. apply (check_from_model ot); [apply init_inv| |exact Hev].
  split; [|split]; cbn; auto.
Qed.
