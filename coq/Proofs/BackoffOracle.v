(** Soundness of the C28 oracle for the bounds part of the property: an accepted observation has
    every observed delay between the initial value and the maximum. *)
From Coq Require Import List ZArith Lia.
From PV Require Import Model.Backoff Oracle.C28.
Import ListNotations.
Local Open Scope N_scope.

Lemma in_bounds_b_sound (c : config) (v : N) :
  in_bounds_b c v = true -> initial_value c <= v <= max_value c.
Proof.
  unfold in_bounds_b. intros H. apply andb_prop in H. destruct H as [H1 H2].
  apply N.leb_le in H1. apply N.leb_le in H2. lia.
Qed.

Lemma check_ops_bounds (c : config) (ops : list op) : forall (v ra e : N) (obs : list (N * N)),
  check_ops c v ra e ops obs = true ->
  Forall (fun p => initial_value c <= fst p <= max_value c) obs.
Proof.
  induction ops as [|o r IH]; intros v ra e obs H.
  - destruct obs; [constructor|discriminate].
  - destruct obs as [|[v' ra'] obs']; [discriminate|].
    cbn [check_ops] in H. apply andb_prop in H. destruct H as [Hb H].
    constructor; [apply in_bounds_b_sound; exact Hb|].
    (* every branch of [check_ops] ends in the recursive call, behind one more test *)
    destruct o as [| |d|delta]; [destruct (ra <=? e)| | |];
      apply andb_prop in H; destruct H as [_ H]; exact (IH _ _ _ _ H).
Qed.

Theorem check_sound_bounds (c : config) (ops : list op) (obs_cfg : list N) (init : N * N) (obs : list (N * N)) :
  check c ops obs_cfg init obs = true ->
  Forall (fun p => initial_value c <= fst p <= max_value c) (init :: obs).
Proof.
  unfold check. intros H.
  apply andb_prop in H. destruct H as [H Hops].
  apply andb_prop in H. destruct H as [_ Hi].
  constructor; [apply in_bounds_b_sound; exact Hi|].
  exact (check_ops_bounds _ _ _ _ _ _ Hops).
Qed.
