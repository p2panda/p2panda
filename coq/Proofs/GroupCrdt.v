(** C31, first part: without access conditions the merge of two member states ([combine]) takes
    the greater in a total order, so [gmerge] is associative, commutative and idempotent up to
    equality of lookups, and merging a set of states does not depend on the iteration order. *)
From Coq Require Import List NArith Bool Permutation.
From PV Require Import Lib.ListFacts Lib.AListC31 Model.GroupCrdt.
Import ListNotations.

Lemma member_eqb_spec (a b : member) : reflect (a = b) (member_eqb a b).
Proof.
  destruct a as [ga ia], b as [gb ib]. unfold member_eqb. cbn [fst snd].
  destruct (Bool.eqb_spec ga gb) as [->|Hg]; cbn [andb].
  - destruct (N.eqb_spec ia ib) as [->|Hi]; constructor; congruence.
  - constructor; congruence.
Qed.

Lemma key_eqb_spec (a b : key) : reflect (a = b) (key_eqb a b).
Proof.
  destruct a as [ga ma], b as [gb mb]. unfold key_eqb. cbn [fst snd].
  destruct (N.eqb_spec ga gb) as [->|Hg]; cbn [andb].
  - destruct (member_eqb_spec ma mb) as [->|Hm]; constructor; congruence.
  - constructor; congruence.
Qed.

Lemma glookup_gset k' k v s :
  glookup k' (gset k v s) = if key_eqb k' k then Some v else glookup k' s.
Proof. apply lookup_set. exact key_eqb_spec. Qed.

Lemma wf_gset k v (s : gstate) : wf s -> wf (gset k v s).
Proof. apply wf_set. exact key_eqb_spec. Qed.

Definition nc (a : access) : Prop := cond a = None.
Definition mnc (v : mstate) : Prop := nc (acc v).

Lemma acc_lt_nc a b : nc a -> nc b -> acc_lt a b = N.ltb (lvl_n (lvl a)) (lvl_n (lvl b)).
Proof.
  unfold nc, acc_lt, acc_cmp, lvl_cmp, N.ltb. intros -> ->. reflexivity.
Qed.

Lemma acc_le_nc a b : nc a -> nc b -> acc_le a b = N.leb (lvl_n (lvl a)) (lvl_n (lvl b)).
Proof.
  unfold nc, acc_le, acc_cmp, lvl_cmp, N.leb. intros -> ->.
  destruct (lvl_n (lvl a) ?= lvl_n (lvl b))%N; reflexivity.
Qed.

Lemma lvl_n_inj l1 l2 : lvl_n l1 = lvl_n l2 -> l1 = l2.
Proof. destruct l1, l2; cbn; intros H; try reflexivity; discriminate. Qed.

Lemma nc_eq a b : nc a -> nc b -> lvl_n (lvl a) = lvl_n (lvl b) -> a = b.
Proof.
  destruct a as [ca la], b as [cb lb]. unfold nc. cbn [cond lvl]. intros -> -> H.
  apply lvl_n_inj in H. subst. reflexivity.
Qed.

Definition lvl_of (v : mstate) : N := lvl_n (lvl (acc v)).

Definition better (v1 v2 : mstate) : bool :=
  N.ltb (mc v2) (mc v1) ||
  (N.eqb (mc v1) (mc v2) &&
   (N.ltb (ac v2) (ac v1) || (N.eqb (ac v1) (ac v2) && N.ltb (lvl_of v1) (lvl_of v2)))).

(** [v1] is above [v2] in the lexicographic order on the two counters and then the level, the
    LOWER level being above: state.rs [merge], "If the access counters are the same, take the lower
    of the two access levels". *)
Definition beats (v1 v2 : mstate) : Prop :=
  (mc v2 < mc v1 \/ (mc v1 = mc v2 /\ (ac v2 < ac v1 \/ (ac v1 = ac v2 /\ lvl_of v1 < lvl_of v2))))%N.

Lemma reflect_or P Q a b : reflect P a -> reflect Q b -> reflect (P \/ Q) (a || b).
Proof. intros [p|p] [q|q]; constructor; auto. intros [H|H]; auto. Qed.

Lemma reflect_and P Q a b : reflect P a -> reflect Q b -> reflect (P /\ Q) (a && b).
Proof. intros [p|p] [q|q]; constructor; auto; intros [H1 H2]; auto. Qed.

Lemma better_spec v1 v2 : reflect (beats v1 v2) (better v1 v2).
Proof.
  apply reflect_or; [apply N.ltb_spec0|]. apply reflect_and; [apply N.eqb_spec|].
  apply reflect_or; [apply N.ltb_spec0|]. apply reflect_and; [apply N.eqb_spec|apply N.ltb_spec0].
Qed.

(** One level of a lexicographic order is transitive if the next is. *)
Lemma lex_trans (a b c : N) (P Q S : Prop) :
  (P -> Q -> S) ->
  (a < b \/ (b = a /\ P))%N -> (b < c \/ (c = b /\ Q))%N -> (a < c \/ (c = a /\ S))%N.
Proof.
  intros H [A|[-> p]] [B|[-> q]].
  - left. exact (N.lt_trans _ _ _ A B).
  - left. exact A.
  - left. exact B.
  - right. split; [reflexivity|exact (H p q)].
Qed.

Lemma beats_trans v1 v2 v3 : beats v1 v2 -> beats v2 v3 -> beats v1 v3.
Proof.
  intros H12 H23. revert H23 H12. unfold beats. apply lex_trans. apply lex_trans.
  intros A B. exact (N.lt_trans _ _ _ B A).
Qed.

Lemma beats_irrefl v : ~ beats v v.
Proof. intros [A|[_ [A|[_ A]]]]; exact (N.lt_irrefl _ A). Qed.

Lemma lex_total (a b : N) (P Q R : Prop) :
  P \/ Q \/ R -> ((b < a \/ (a = b /\ P)) \/ (a < b \/ (b = a /\ Q)) \/ (a = b /\ R))%N.
Proof.
  intros H. destruct (N.lt_trichotomy a b) as [A|[A|A]]; [right; left; left; exact A| |left; left; exact A].
  destruct H as [p|[q|r]].
  - left. right. split; [exact A|exact p].
  - right. left. right. split; [symmetry; exact A|exact q].
  - right. right. split; [exact A|exact r].
Qed.

Lemma beats_total v1 v2 :
  beats v1 v2 \/ beats v2 v1 \/ (mc v1 = mc v2 /\ ac v1 = ac v2 /\ lvl_of v1 = lvl_of v2).
Proof.
  unfold beats. apply lex_total. apply lex_total.
  destruct (N.lt_trichotomy (lvl_of v1) (lvl_of v2)) as [C|[C|C]]; auto.
Qed.

Lemma mstate_eta v : {| mc := mc v; acc := acc v; ac := ac v |} = v.
Proof. destruct v; reflexivity. Qed.

(** Both sides branch on the same five comparisons. *)
Lemma combine_better v1 v2 :
  mnc v1 -> mnc v2 -> combine v1 v2 = if better v1 v2 then v1 else v2.
Proof.
  intros H1 H2. unfold better, combine, lvl_of.
  destruct (mc v2 <? mc v1)%N; cbn [orb mc ac acc].
  { rewrite N.eqb_refl, N.ltb_irrefl, N.eqb_refl, acc_lt_nc, N.ltb_irrefl by assumption.
    apply mstate_eta. }
  destruct (N.eqb_spec (mc v1) (mc v2)) as [Em|_]; cbn [andb]; [|reflexivity].
  destruct (ac v2 <? ac v1)%N; cbn [orb mc ac acc].
  { rewrite N.eqb_refl, acc_lt_nc, N.ltb_irrefl by assumption. rewrite <- Em. apply mstate_eta. }
  destruct (N.eqb_spec (ac v1) (ac v2)) as [Ea|_]; cbn [andb]; [|reflexivity].
  rewrite acc_lt_nc by assumption.
  destruct (lvl_n (lvl (acc v1)) <? lvl_n (lvl (acc v2)))%N; [|reflexivity].
  rewrite <- Em, <- Ea. apply mstate_eta.
Qed.

Lemma mstate_ext v1 v2 :
  mnc v1 -> mnc v2 -> mc v1 = mc v2 -> ac v1 = ac v2 -> lvl_of v1 = lvl_of v2 -> v1 = v2.
Proof.
  destruct v1 as [m1 a1 c1], v2 as [m2 a2 c2]. unfold mnc, lvl_of. cbn [mc acc ac].
  intros N1 N2 -> -> Hl. f_equal. apply nc_eq; assumption.
Qed.

Lemma better_trans v1 v2 v3 (b : bool) : better v1 v2 = b -> better v2 v3 = b -> better v1 v3 = b.
Proof.
  destruct (better_spec v1 v2) as [E12|E12], (better_spec v2 v3) as [E23|E23],
           (better_spec v1 v3) as [E13|E13]; intros <- E; try reflexivity; try discriminate E.
  - destruct (E13 (beats_trans _ _ _ E12 E23)).
  - destruct (beats_total v1 v2) as [H|[H|(A & B & C)]].
    + destruct (E12 H).
    + destruct (E23 (beats_trans _ _ _ H E13)).
    + destruct E23. unfold beats in *. rewrite <- A, <- B, <- C. exact E13.
Qed.

Lemma combine_mnc v1 v2 : mnc v1 -> mnc v2 -> mnc (combine v1 v2).
Proof. intros H1 H2. rewrite combine_better by assumption. destruct (better v1 v2); assumption. Qed.

Lemma combine_comm v1 v2 : mnc v1 -> mnc v2 -> combine v1 v2 = combine v2 v1.
Proof.
  intros N1 N2. rewrite !combine_better by assumption.
  destruct (better_spec v1 v2) as [E1|E1], (better_spec v2 v1) as [E2|E2]; try reflexivity.
  - destruct (beats_irrefl v1 (beats_trans _ _ _ E1 E2)).
  - destruct (beats_total v1 v2) as [H|[H|(A & B & C)]]; [destruct (E1 H)|destruct (E2 H)|].
    symmetry. apply mstate_ext; assumption.
Qed.

Lemma combine_assoc v1 v2 v3 :
  mnc v1 -> mnc v2 -> mnc v3 -> combine v1 (combine v2 v3) = combine (combine v1 v2) v3.
Proof.
  intros N1 N2 N3.
  rewrite (combine_better v1 (combine v2 v3)), (combine_better (combine v1 v2) v3)
    by (try apply combine_mnc; assumption).
  rewrite (combine_better v2 v3), (combine_better v1 v2) by assumption.
  destruct (better v2 v3) eqn:E23, (better v1 v2) eqn:E12; rewrite ?E23, ?E12; try reflexivity;
    rewrite (better_trans _ _ _ _ E12 E23); reflexivity.
Qed.

Lemma combine_idem v : mnc v -> combine v v = v.
Proof. intros H. rewrite combine_better by assumption. destruct (better v v); reflexivity. Qed.

Definition ocomb (a b : option mstate) : option mstate :=
  match a, b with
  | Some x, Some y => Some (combine x y)
  | Some x, None => Some x
  | None, y => y
  end.

Lemma wf_gmerge s1 s2 : wf s2 -> wf (gmerge s1 s2).
Proof.
  unfold gmerge. revert s2. induction s1 as [|e r IH]; intros s2 H; cbn [fold_left]; [exact H|].
  apply IH. destruct (glookup (fst e) s2); apply wf_gset; exact H.
Qed.

Lemma glookup_cons k k1 v1 (r : gstate) :
  glookup k ((k1, v1) :: r) = if key_eqb k k1 then Some v1 else glookup k r.
Proof. reflexivity. Qed.

Lemma glookup_gmerge k s1 s2 :
  wf s1 -> glookup k (gmerge s1 s2) = ocomb (glookup k s1) (glookup k s2).
Proof.
  unfold gmerge. revert s2. induction s1 as [|[k1 v1] r IH]; intros s2 W; cbn [fold_left fst snd].
  - reflexivity.
  - apply NoDup_cons_iff in W. destruct W as [Hn Hr].
    assert (E : glookup k1 r = None) by (apply (notin_lookup_none key_eqb key_eqb_spec); exact Hn).
    rewrite IH by exact Hr. rewrite glookup_cons.
    destruct (glookup k1 s2) eqn:E2; rewrite glookup_gset;
      destruct (key_eqb_spec k k1) as [->|_]; try reflexivity; rewrite E, E2; reflexivity.
Qed.

Definition geq (s s' : gstate) : Prop := forall k, glookup k s = glookup k s'.
Definition gnc (s : gstate) : Prop := forall k v, glookup k s = Some v -> mnc v.
Definition onc (o : option mstate) : Prop := forall v, o = Some v -> mnc v.

Lemma geq_refl s : geq s s.
Proof. intros k; reflexivity. Qed.
Lemma geq_sym s s' : geq s s' -> geq s' s.
Proof. intros H k; symmetry; apply H. Qed.
Lemma geq_trans s1 s2 s3 : geq s1 s2 -> geq s2 s3 -> geq s1 s3.
Proof. intros H1 H2 k. exact (eq_trans (H1 k) (H2 k)). Qed.

Lemma gnc_geq s s' : geq s s' -> gnc s -> gnc s'.
Proof. intros E H k v Hk. apply (H k). rewrite (E k). exact Hk. Qed.

Lemma gnc_nil : gnc [].
Proof. intros k v H. discriminate. Qed.

Lemma gnc_forall s : Forall (fun e => mnc (snd e)) s -> gnc s.
Proof.
  intros H k v Hk. apply (lookup_in key_eqb key_eqb_spec) in Hk.
  exact (proj1 (Forall_forall _ _) H (k, v) Hk).
Qed.

Lemma wf_check (s : gstate) : nodupb key_eqb (map fst s) = true -> wf s.
Proof. apply (nodupb_sound key_eqb key_eqb_spec). Qed.

Lemma geq_rev s : wf s -> geq s (rev s).
Proof. intros W k. apply (perm_lookup key_eqb key_eqb_spec); [exact W|apply Permutation_rev]. Qed.

Lemma onc_glookup k s : gnc s -> onc (glookup k s).
Proof. intros H v Hv. exact (H k v Hv). Qed.

Lemma ocomb_onc a b : onc a -> onc b -> onc (ocomb a b).
Proof.
  intros Ha Hb v. destruct a as [x|], b as [y|]; cbn [ocomb]; intros [= <-].
  - apply combine_mnc; [apply Ha|apply Hb]; reflexivity.
  - apply Ha; reflexivity.
  - apply Hb; reflexivity.
Qed.

Lemma ocomb_comm a b : onc a -> onc b -> ocomb a b = ocomb b a.
Proof.
  intros Ha Hb. destruct a as [x|], b as [y|]; cbn [ocomb]; try reflexivity.
  f_equal. apply combine_comm; [apply Ha|apply Hb]; reflexivity.
Qed.

Lemma ocomb_assoc a b c : onc a -> onc b -> onc c -> ocomb a (ocomb b c) = ocomb (ocomb a b) c.
Proof.
  intros Ha Hb Hc. destruct a as [x|], b as [y|], c as [z|]; cbn [ocomb]; try reflexivity.
  f_equal. apply combine_assoc; [apply Ha|apply Hb|apply Hc]; reflexivity.
Qed.

Lemma ocomb_idem a : onc a -> ocomb a a = a.
Proof. intros Ha. destruct a as [x|]; cbn [ocomb]; [|reflexivity]. f_equal. apply combine_idem. apply Ha; reflexivity. Qed.

Lemma gnc_gmerge s1 s2 : wf s1 -> gnc s1 -> gnc s2 -> gnc (gmerge s1 s2).
Proof.
  intros W H1 H2 k v Hk. rewrite glookup_gmerge in Hk by exact W.
  revert v Hk. apply ocomb_onc; apply onc_glookup; assumption.
Qed.

Lemma gmerge_cong s1 s1' s2 s2' :
  wf s1 -> wf s1' -> geq s1 s1' -> geq s2 s2' -> geq (gmerge s1 s2) (gmerge s1' s2').
Proof. intros W W' E1 E2 k. rewrite !glookup_gmerge by assumption. rewrite (E1 k), (E2 k). reflexivity. Qed.

Theorem gmerge_comm s1 s2 :
  wf s1 -> wf s2 -> gnc s1 -> gnc s2 -> geq (gmerge s1 s2) (gmerge s2 s1).
Proof.
  intros W1 W2 N1 N2 k. rewrite !glookup_gmerge by assumption.
  apply ocomb_comm; apply onc_glookup; assumption.
Qed.

Theorem gmerge_assoc s1 s2 s3 :
  wf s1 -> wf s2 -> wf s3 -> gnc s1 -> gnc s2 -> gnc s3 ->
  geq (gmerge s1 (gmerge s2 s3)) (gmerge (gmerge s1 s2) s3).
Proof.
  intros W1 W2 W3 N1 N2 N3 k.
  rewrite !glookup_gmerge by (try apply wf_gmerge; assumption).
  apply ocomb_assoc; apply onc_glookup; assumption.
Qed.

Theorem gmerge_idem s : wf s -> gnc s -> geq (gmerge s s) s.
Proof.
  intros W N k. rewrite glookup_gmerge by assumption. apply ocomb_idem. apply onc_glookup; assumption.
Qed.

Example gmerge_hyps_satisfiable :
  let s := [((100, (false, 0)), {| mc := 1; acc := {| cond := None; lvl := Manage |}; ac := 0 |});
            ((100, (false, 1)), {| mc := 3; acc := {| cond := None; lvl := Read |}; ac := 2 |})]%N in
  wf s /\ gnc s.
Proof.
  intros s. split.
  - apply wf_check. reflexivity.
  - apply gnc_forall. repeat constructor.
Qed.

Definition olist (k : key) (l : list gstate) : list (option mstate) := map (glookup k) l.
Definition ofold (l : list (option mstate)) (init : option mstate) : option mstate :=
  fold_left (fun c o => ocomb o c) l init.

Lemma glookup_fold_merge k l : forall init,
  Forall wf l ->
  glookup k (fold_left (fun cur s => gmerge s cur) l init) = ofold (olist k l) (glookup k init).
Proof.
  induction l as [|s r IH]; intros init W; cbn [fold_left olist map ofold].
  - reflexivity.
  - apply Forall_cons_iff in W. destruct W as [Ws Wr].
    rewrite (IH _ Wr), (glookup_gmerge _ _ _ Ws). reflexivity.
Qed.

Lemma glookup_merge_list k l : Forall wf l -> glookup k (merge_list l) = ofold (olist k l) None.
Proof. intros W. unfold merge_list. rewrite glookup_fold_merge by exact W. reflexivity. Qed.

Lemma wf_fold_merge l : forall init, wf init -> wf (fold_left (fun cur s => gmerge s cur) l init).
Proof.
  induction l as [|s r IH]; intros init W; cbn [fold_left]; [exact W|].
  apply IH. apply wf_gmerge. exact W.
Qed.

Lemma wf_merge_list l : wf (merge_list l).
Proof. apply wf_fold_merge. apply wf_nil. Qed.

Lemma ofold_onc l : forall init, Forall onc l -> onc init -> onc (ofold l init).
Proof.
  induction l as [|o r IH]; intros init Hl Hi; cbn [ofold fold_left]; [exact Hi|].
  apply Forall_cons_iff in Hl. destruct Hl as [Ho Hr]. apply IH; [exact Hr|]. apply ocomb_onc; assumption.
Qed.

Lemma olist_onc k l : Forall gnc l -> Forall onc (olist k l).
Proof.
  intros Hn. apply Forall_map. apply (Forall_impl _ (fun s Hs => onc_glookup k s Hs) Hn).
Qed.

Lemma gnc_merge_list l : Forall wf l -> Forall gnc l -> gnc (merge_list l).
Proof.
  intros W Hn k v Hk. rewrite glookup_merge_list in Hk by exact W.
  revert v Hk. apply ofold_onc; [apply olist_onc; exact Hn|intros v E; discriminate].
Qed.

Lemma ofold_perm l l' :
  Permutation l l' -> Forall onc l -> forall init, onc init -> ofold l init = ofold l' init.
Proof.
  apply (fold_left_perm (fun c o => ocomb o c) onc onc).
  - intros c o Hc Ho. apply ocomb_onc; assumption.
  - intros c x y Hc Hx Hy. rewrite !ocomb_assoc, (ocomb_comm y x) by assumption. reflexivity.
Qed.

(** [merge_states] over two iteration orders of one set of (extensionally equal) states: [l2'] is
    [l1] in the second order, [l2] holds the second replica's states, equal to those of [l2'] one by
    one only up to [geq]. *)
Theorem merge_states_perm_invariant l1 l2 l2' :
  Permutation l1 l2' -> Forall2 geq l2' l2 ->
  Forall wf l1 -> Forall wf l2 -> Forall gnc l1 ->
  geq (merge_list l1) (merge_list l2).
Proof.
  intros HP HE W1 W2 N1 k.
  rewrite !glookup_merge_list by assumption.
  assert (E : olist k l2' = olist k l2).
  { clear -HE. induction HE as [|a b ra rb Hab Hr IH]; cbn [olist map]; [reflexivity|].
    unfold olist in IH. rewrite IH, (Hab k). reflexivity. }
  rewrite <- E. apply ofold_perm.
  - unfold olist. apply Permutation_map. exact HP.
  - apply olist_onc. exact N1.
  - intros v Hv; discriminate.
Qed.
