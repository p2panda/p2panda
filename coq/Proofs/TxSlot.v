(** Proofs about the slot-mutex refinement (Model/TxSlot.v).  The theorems are about the code as
    it is ([v = false]), for every configuration and every trace; the seeded variant ([v = true],
    try_lock in drop) has a witness of its failure.
    The invariant [SInv] says that the semaphore permit is in exactly one place ([permits s = 1]), what
    the slot looks like to whoever has it ([pc_slot]), and which keys the slot, the taken
    transactions and the database hold.  [eff] lists what a step does to a state that satisfies it
    ([sstep_eff]; the assert and the panics of the API are the branches that are left out), and
    [eff_inv] takes the clauses of [SInv] one by one.
    Trusted assumptions: none beyond what Model/Tx.v / Model/TxSlot.v list. *)
From Coq Require Import List Arith NArith Bool Lia.
From PV Require Import Lib.ListFacts Model.Tx Model.TxSlot.
Import ListNotations.

Definition is_panic (p : pc) : bool := match p with PDone OPanic => true | _ => false end.
Definition empty (o : option (list key)) : bool := match o with None => true | Some _ => false end.
Definition busy (h : hpc) : bool := match h with HIdle _ => false | _ => true end.

(** The slot [o] as a transaction at [p] has to find it; the assert of [begin] and the panics of
    [commit]/[rollback] are the outcome that must not be there. *)
Definition pc_slot (p : pc) (o : option (list key)) : bool :=
  match p with
  | PGranted | PCommitting _ | PRollingBack _ => empty o
  | PHold _ => negb (empty o)
  | PDone OPanic => false
  | _ => true
  end.

Definition permits (s : sstate) : nat :=
  Nat.b2n (sem s) + Nat.b2n (active_pc (pT s)) + Nat.b2n (active_rb (rT s)) + Nat.b2n (active_pc (pN s)).

Lemma owner_cases s : permits s = 1 ->
  sem s = true \/ active_pc (pT s) = true \/ active_rb (rT s) = true \/ active_pc (pN s) = true.
Proof.
  unfold permits. destruct (sem s), (active_pc (pT s)), (active_rb (rT s)), (active_pc (pN s)); cbn; auto; discriminate.
Qed.

Lemma live_N_idle s : permits s = 1 -> t_live s = true -> active_pc (pN s) = false.
Proof.
  unfold permits, t_live. destruct (sem s), (active_pc (pT s)), (active_rb (rT s)), (active_pc (pN s)); cbn; congruence.
Qed.

Lemma empty_None o : empty o = true -> o = None.
Proof. destruct o; [discriminate | reflexivity]. Qed.

Lemma pc_slot_idle p o o' : Nat.b2n (active_pc p) = 0 -> pc_slot p o = true -> pc_slot p o' = true.
Proof. destruct p; cbn; congruence. Qed.

Lemma pc_slot_active p o : pc_slot p o = true -> active_pc p = true -> o = None \/ exists k, p = PHold k.
Proof. destruct p; cbn; eauto using empty_None; discriminate. Qed.

Lemma aborted_idle p : aborted p = true -> active_pc p = false.
Proof. destruct p; cbn; congruence. Qed.

Inductive released (s : sstate) : sstate -> Prop :=
| rel_hand : pN s = PWait -> released s (w_pN s PGranted)
| rel_free : released s (w_sem s true).

Lemma srelease_released s : released s (srelease s).
Proof. unfold srelease. destruct (pN s) eqn:E; constructor; exact E. Qed.

Lemma nth_error_lt {A} (l : list A) k w : nth_error l k = Some w -> k < length l.
Proof. intros H. apply nth_error_Some. congruence. Qed.

Lemma incl_snoc (p : list key) w l : incl p l -> In w l -> incl (p ++ [w]) l.
Proof. intros H1 H2 x Hx. apply in_app_or in Hx. destruct Hx as [Hx|[Hx|[]]]; [auto|subst; auto]. Qed.

Ltac branches :=
  repeat match goal with |- context [match ?x with _ => _ end] => destruct x eqn:? end.

Section Slot.
Variable c : scfg.
(** Every key T's transaction may write: T's own statements and the helper's. *)
Definition TW : list key := ow c ++ hw c.

Record SInv (s : sstate) : Prop := {
  i_one : permits s = 1;
  i_empty : sem s = true \/ rT s = RbRolling -> sslot s = None;
  i_T : pc_slot (pT s) (sslot s) = true;
  i_N : pc_slot (pN s) (sslot s) = true;
  (* N's program always ends with a commit *)
  i_nrb : forall p, pN s <> PRollingBack p;
  i_mtx : mtx s = busy (hP s);
  (* the helper starts a statement only on T's permit: none is in flight while N's transaction is open *)
  i_mtxN : forall k, pN s = PHold k -> mtx s = false;
  (* the open transaction of T (or what T left in the slot) holds only T's / the helper's keys *)
  i_slotT : forall p, sslot s = Some p -> t_live s = true -> incl p TW;
  i_takenT : forall p, pT s = PCommitting p \/ pT s = PRollingBack p -> incl p TW;
  i_slotN : forall k, pN s = PHold k -> sslot s = Some (firstn k (nw c));
  i_takenN : forall p, pN s = PCommitting p -> p = nw c;
  i_db : forall w, In w (sdb s) ->
         (pT s = PDone OCommitted /\ In w TW) \/ (pN s = PDone OCommitted /\ In w (nw c));
  (* [h_measure] is a truncated difference: inside a statement it decreases only below [length (hw c)] *)
  i_hk : forall k, hP s = HLocked k \/ hP s = HExec k -> k < length (hw c)
}.

Inductive sreachable : sstate -> Prop :=
| sreach_init : sreachable sinit
| sreach_step s l s' : sreachable s -> sstep false c s l = Some s' -> sreachable s'.

Lemma sinv_init : SInv sinit.
Proof.
  constructor; cbn; try reflexivity; try (intros; congruence);
    try (intros ? [H|H]; discriminate H); try (intros ? []).
Qed.

(** What a step of [sstep false] does, with what the invariant needs to know of the state it
    starts from.  [eT_drop]: every way of T to let go of a [TransactionPermit] that is not
    committed ([drop_permit]); [eT_end]: the ways out of [begin] and [rollback], which release the
    semaphore themselves.  Only [eN_open] keeps the guard [mtx s = false]: [i_mtxN] needs it. *)
Inductive eff (s : sstate) : sstate -> Prop :=
| eT_acq : pT s = PInit -> sem s = true -> eff s (w_pT (w_sem s false) PGranted)
| eT_open : pT s = PGranted -> eff s (w_pT (w_slot s (Some [])) (PHold 0))
| eT_write k w p (Hnth : nth_error (ow c) k = Some w) : pT s = PHold k -> sslot s = Some p ->
    eff s (w_pT (w_slot s (Some (p ++ [w]))) (PHold (S k)))
| eT_take k p q (Hq : q = PCommitting p \/ q = PRollingBack p) : pT s = PHold k -> sslot s = Some p ->
    eff s (w_pT (w_slot s None) q)
| eT_drop o (Hact : active_pc (pT s) = true) : is_panic (PDone o) = false ->
    eff s (w_rT (w_pT s (PDone o)) RbStart)
| eT_commit p s' : pT s = PCommitting p ->
    released (w_db (w_pT s (PDone OCommitted)) (sdb s ++ p)) s' -> eff s s'
| eT_end o s' : released (w_pT s (PDone o)) s' -> forall Hact : active_pc (pT s) = true,
    sslot s = None -> is_panic (PDone o) = false -> eff s s'
| eT_cancel : pT s = PInit -> eff s (w_pT s (PDone OCancelled))
| eR_start : rT s = RbStart -> eff s (w_rT (w_slot s None) RbRolling)
| eR_end s' : rT s = RbRolling -> released (w_rT s RbDone) s' -> eff s s'
| eH_lock k w (Hnth : nth_error (hw c) k = Some w) (Hlive : negb (mtx s) && t_live s = true) :
    hP s = HIdle k ->
    eff s (w_hP (w_mtx s true) (HLocked k))
| eH_exec k w p (Hnth : nth_error (hw c) k = Some w) : hP s = HLocked k -> sslot s = Some p ->
    eff s (w_hP (w_slot s (Some (p ++ [w]))) (HExec k))
| eH_unlock k (Hh : hP s = HLocked k \/ hP s = HExec k) : eff s (w_hP (w_mtx s false) (HIdle (S k)))
| eN_acq : pN s = PInit -> sem s = true -> eff s (w_pN (w_sem s false) PGranted)
| eN_wait : pN s = PInit -> eff s (w_pN s PWait)
| eN_open : pN s = PGranted -> mtx s = false -> eff s (w_pN (w_slot s (Some [])) (PHold 0))
| eN_write k w p (Hnth : nth_error (nw c) k = Some w) : pN s = PHold k -> sslot s = Some p ->
    eff s (w_pN (w_slot s (Some (p ++ [w]))) (PHold (S k)))
| eN_take k p (Hnth : nth_error (nw c) k = None) : pN s = PHold k -> sslot s = Some p ->
    eff s (w_pN (w_slot s None) (PCommitting p))
| eN_commit p s' : pN s = PCommitting p ->
    released (w_db (w_pN s (PDone OCommitted)) (sdb s ++ p)) s' -> eff s s'.

Lemma active_at s p : pT s = p -> active_pc p = true -> active_pc (pT s) = true.
Proof. intros <-. trivial. Qed.

Lemma sstep_eff s l s' : SInv s -> sstep false c s l = Some s' -> eff s s'.
Proof.
  intros I. pose proof (i_T _ I) as HT. pose proof (i_N _ I) as HN.
  destruct l; cbn -[srelease]; branches; try discriminate; intros [= <-].
  (* [pc_slot] rules out the assert of [begin] and the panics of [commit]/[rollback] *)
  all: cbn in HT, HN; try discriminate.
  all: try solve [eauto using eff, srelease_released].
  all: try solve [apply eT_drop; eauto using active_at].
  (* T is inside [begin] or [rollback] *)
  all: destruct (sslot s) eqn:?; [discriminate HT | eapply eT_end; eauto using srelease_released, active_at].
Qed.

(** Split on the step, then rewrite the goal with what the step knows of [s].  The clauses of the
    invariant that a case needs are put in the goal beforehand, so that they are rewritten too. *)
Ltac cases E :=
  destruct E; try match goal with R : released _ _ |- _ => destruct R end;
  cbn in *; repeat match goal with G : _ = _ |- _ => rewrite G end; cbn.

Lemma eff_inv s s' : SInv s -> eff s s' -> SInv s'.
Proof.
  intros I E. constructor.
  - generalize (i_one _ I). unfold permits. cases E; intros P; try lia.
    destruct Hq as [-> | ->]; exact P.
  - (* the rollback task empties the slot itself and the permit goes back only from a task that
       sees an empty slot; then no other task is there to touch the slot ([lia] on the count [P]) *)
    generalize (i_empty _ I) (i_T _ I) (i_N _ I) (i_one _ I). unfold permits.
    cases E; intros F FT FN P Hs; (* eH_exec *) try discriminate (F Hs);
      destruct Hs as [Hs|Hs]; try discriminate; auto using empty_None; rewrite Hs in P; cbn in P; lia.
  - (* T's own steps by computation; the rollback task and N change the slot only while T is idle *)
    generalize (i_empty _ I) (i_T _ I) (i_one _ I). unfold permits.
    cases E; intros F FT P; trivial; try (eapply pc_slot_idle; [lia | eassumption]);
      (* eT_drop, eT_end *) try (destruct o; discriminate || reflexivity).
    + (* eT_acq *) rewrite F by (left; reflexivity). reflexivity.
    + (* eT_take *) destruct Hq as [-> | ->]; reflexivity.
  - (* as for T; N gets the permit only from a task that sees an empty slot *)
    generalize (i_empty _ I) (i_T _ I) (i_N _ I) (i_one _ I). unfold permits.
    cases E; intros F FT FN P; trivial; try (eapply pc_slot_idle; [lia | eassumption]);
      try discriminate.
    + (* eR_end, N queued *) rewrite F by (right; reflexivity). reflexivity.
    + (* eN_acq *) rewrite F by (left; reflexivity). reflexivity.
  - generalize (i_nrb _ I). cases E; intros F; trivial; discriminate.
  - generalize (i_mtx _ I). cases E; trivial.
  - generalize (i_mtx _ I) (i_mtxN _ I).
    cases E; intros F FN k' Hk; trivial; try discriminate; try exact (FN _ Hk).
    + (* eH_lock *) destruct (andb_prop _ _ Hlive) as [_ L]. apply (live_N_idle _ (i_one _ I)) in L.
      rewrite Hk in L. discriminate L.
    + (* eN_write *) exact (FN _ eq_refl).
  - generalize (i_slotT _ I) (i_empty _ I) (i_one _ I). unfold t_live, permits.
    cases E; intros F Fs P p' Hp Hl; try discriminate; auto; try injection Hp as <-;
      (* eR_end, eN_open, eN_write: T's permit is not live *)
      try (destruct (active_pc (pT s)), (active_rb (rT s)); cbn in *; discriminate || lia).
    + (* eT_acq *) rewrite Fs in Hp by (left; reflexivity). discriminate Hp.
    + (* eT_open *) apply incl_nil_l.
    + (* eT_write *) apply incl_snoc; [auto | apply in_or_app; left; exact (nth_error_In _ _ Hnth)].
    + (* eH_exec *) apply incl_snoc; [auto | apply in_or_app; right; exact (nth_error_In _ _ Hnth)].
  - generalize (i_slotT _ I) (i_takenT _ I). unfold t_live.
    cases E; intros F FT p' Hp; try (destruct Hp; discriminate); eauto.
    (* eT_take *) replace p' with p by (destruct Hq, Hp; congruence). auto.
  - (* N's statements are N's own steps; T, the rollback task and the helper touch the slot
       only while N is idle ([lia] on [P]) resp. while the mutex is held *)
    generalize (i_slotN _ I) (i_mtx _ I) (i_mtxN _ I) (i_one _ I). unfold permits.
    cases E; intros F Fm FmN P k' Hk; try discriminate; auto; try (rewrite Hk in P; cbn in P; lia).
    + (* eH_exec *) specialize (FmN _ Hk). congruence.
    + (* eN_open *) injection Hk as <-. reflexivity.
    + (* eN_write *) injection Hk as <-. injection (F _ eq_refl) as ->.
      rewrite (firstn_snoc_nth _ _ _ Hnth). reflexivity.
  - generalize (i_slotN _ I) (i_takenN _ I).
    cases E; intros F FN p' Hp; try discriminate; eauto.
    (* eN_take *) injection Hp as <-. injection (F _ eq_refl) as ->.
    apply firstn_all2, nth_error_None, Hnth.
  - (* rows are added by the two commits only; a row that was there stays accounted for, since a
       committed transaction does not move *)
    generalize (i_db _ I) (i_takenT _ I) (i_takenN _ I).
    cases E; intros F FT FN x Hx; try discriminate; try (apply in_app_or in Hx; destruct Hx as [Hx|Hx]).
    all: try (destruct (F x Hx) as [[A ?]|[A ?]]; try discriminate A; try (rewrite A in *; discriminate);
              auto; fail).
    (* eT_commit *) 1-2: left; split; [reflexivity | exact (FT _ (or_introl eq_refl) _ Hx)].
    (* eN_commit *) right; split; [reflexivity | rewrite <- (FN _ eq_refl); exact Hx].
  - generalize (i_hk _ I).
    cases E; intros F k' Hk; auto; try (destruct Hk; discriminate).
    (* eH_lock, eH_exec *)
    all: replace k' with k by (destruct Hk; congruence); exact (nth_error_lt _ _ _ Hnth).
Qed.

Lemma sstep_inv s l s' : SInv s -> sstep false c s l = Some s' -> SInv s'.
Proof. intros I Hs. exact (eff_inv _ _ I (sstep_eff _ _ _ I Hs)). Qed.

Theorem sinv_reachable s : sreachable s -> SInv s.
Proof.
  induction 1 as [|s l s' _ IH Hs]; [exact sinv_init | exact (sstep_inv _ _ _ IH Hs)].
Qed.

(** When the aborted transaction's permit is released (T ended without commit and its rollback
    task is not pending any more), the slot holds nothing of T: it is empty, or it holds exactly
    the statements of the following transaction; once the permit is available again the slot is
    empty; and none of T's writes (its own or the helper's) is in the database. *)
Theorem aborted_tx_is_rolled_back_before_permit_release s :
  sreachable s -> aborted (pT s) = true -> active_rb (rT s) = false ->
  (sslot s = None \/ exists k, pN s = PHold k /\ sslot s = Some (firstn k (nw c)))
  /\ (sem s = true -> sslot s = None)
  /\ (forall w, In w TW -> ~ In w (nw c) -> ~ In w (sdb s)).
Proof.
  intros Hre Hab Hrb. pose proof (sinv_reachable _ Hre) as I.
  split; [|split].
  - (* the permit is in the semaphore or with N *)
    destruct (owner_cases _ (i_one _ I)) as [S|[A|[A|A]]].
    + left. apply (i_empty _ I (or_introl S)).
    + rewrite (aborted_idle _ Hab) in A. discriminate A.
    + congruence.
    + destruct (pc_slot_active _ _ (i_N _ I) A) as [E|[k E]]; [left; exact E|].
      right. exists k. split; [exact E | apply (i_slotN _ I), E].
  - intros S. apply (i_empty _ I (or_introl S)).
  - intros w Hw Hn' Hdb. destruct (i_db _ I w Hdb) as [[E _]|[_ Hin]].
    + rewrite E in Hab. discriminate Hab.
    + contradiction.
Qed.

(** The following transaction's [begin], once it owns the semaphore permit, finds the slot empty:
    the assert in [begin] holds (and as soon as no helper statement is in flight the step is
    enabled and opens the transaction). *)
Theorem next_begin_finds_empty_slot s :
  sreachable s -> pN s = PGranted ->
  sslot s = None /\
  (mtx s = false -> exists s', sstep false c s LN = Some s' /\ pN s' = PHold 0).
Proof.
  intros Hre HN. pose proof (i_N _ (sinv_reachable _ Hre)) as H. rewrite HN in H.
  apply empty_None in H. split; [exact H|].
  intros Hm. unfold sstep. rewrite HN, Hm, H. eexists; split; reflexivity.
Qed.

(** The assert in [begin] and the panics of [commit]/[rollback] are unreachable for both
    transactions. *)
Theorem slot_no_panic s : sreachable s -> pT s <> PDone OPanic /\ pN s <> PDone OPanic.
Proof.
  intros Hre. pose proof (sinv_reachable _ Hre) as I.
  split; intros E; [pose proof (i_T _ I) as H | pose proof (i_N _ I) as H]; rewrite E in H; discriminate H.
Qed.

(** Committed rows come only from committed transactions (with keys of T and N disjoint: an
    aborted or still running transaction has no row in the database). *)
Theorem slot_rows_only_from_committed s w :
  sreachable s -> In w (sdb s) ->
  (pT s = PDone OCommitted /\ In w TW) \/ (pN s = PDone OCommitted /\ In w (nw c)).
Proof. intros Hre. exact (i_db _ (sinv_reachable _ Hre) w). Qed.

Lemma LH_enabled v s : busy (hP s) = true -> exists s', sstep v c s LH = Some s'.
Proof. unfold sstep. intros A. branches; try discriminate; eauto. Qed.
Lemma LT_enabled v s : mtx s = false -> active_pc (pT s) = true -> exists s', sstep v c s LT = Some s'.
Proof. unfold sstep. intros -> A. branches; try discriminate; eauto. Qed.
Lemma LR_enabled v s : mtx s = false -> active_rb (rT s) = true -> exists s', sstep v c s LR = Some s'.
Proof. unfold sstep. intros -> A. branches; try discriminate; eauto. Qed.
Lemma LN_enabled v s : mtx s = false -> active_pc (pN s) = true -> (forall p, pN s <> PRollingBack p) ->
  exists s', sstep v c s LN = Some s'.
Proof. unfold sstep. intros -> A N. branches; try discriminate; eauto. destruct (N _ eq_refl). Qed.

(** No permanent block: while the permit is taken some step that is not a cancellation is
    enabled (the helper's if it holds the slot mutex, else the permit owner's). *)
Theorem slot_progress s :
  sreachable s -> sem s = false ->
  exists l s', is_scancel l = false /\ sstep false c s l = Some s'.
Proof.
  intros Hre Hsem. pose proof (sinv_reachable _ Hre) as I.
  destruct (mtx s) eqn:Em.
  - rewrite (i_mtx _ I) in Em. destruct (LH_enabled false _ Em) as [s' Hs]. exists LH; eauto.
  - destruct (owner_cases _ (i_one _ I)) as [S|[A|[A|A]]]; [congruence | | |].
    + destruct (LT_enabled false _ Em A) as [s' Hs]. exists LT; eauto.
    + destruct (LR_enabled false _ Em A) as [s' Hs]. exists LR; eauto.
    + destruct (LN_enabled false _ Em A (i_nrb _ I)) as [s' Hs]. exists LN; eauto.
Qed.

Lemma active_measure len p : active_pc p = true -> 4 <= pc_measure len p.
Proof. destruct p; cbn; try discriminate; lia. Qed.

Lemma eff_decreases s s' : SInv s -> eff s s' -> smeasure c s' < smeasure c s.
Proof.
  intros I E. generalize (i_hk _ I). unfold smeasure. cases E; intros Hk; try discriminate.
  all: repeat match goal with H : nth_error _ _ = Some _ |- _ => apply nth_error_lt in H end.
  all: try (pose proof (Hk _ (or_introl eq_refl))); try lia.
  - (* eT_take *) destruct Hq as [-> | ->]; cbn; lia.
  - (* eT_drop *) apply (active_measure (length (ow c))) in Hact. lia.
  - (* eT_end *) apply (active_measure (length (ow c))) in Hact. lia.
  - (* eH_unlock *) pose proof (Hk _ Hh). destruct Hh as [Hh|Hh]; rewrite Hh; cbn; lia.
Qed.

Theorem slot_step_decreases s l s' :
  sreachable s -> sstep false c s l = Some s' -> smeasure c s' < smeasure c s.
Proof.
  intros Hre Hs. pose proof (sinv_reachable _ Hre) as I. exact (eff_decreases _ _ I (sstep_eff _ _ _ I Hs)).
Qed.

End Slot.

(** The seeded variant (C10-1): [TransactionPermit::drop] takes the slot with [try_lock].
    Regression lemma about the VARIANT model ([v = true]), not a finding about the code: with a
    helper statement in flight at the drop, the rollback is skipped, the permit is released with
    T's transaction still in the slot, and the following [begin] hits its assert. *)
Definition c_w : scfg := {| ow := [1%N]; ofin := FDrop; hw := [5%N]; nw := [2%N] |}.
Definition tr_w : list slabel := [LT; LT; LT; LH; LT; LH; LH; LR; LR; LN; LN].

Lemma slot_try_lock_refuted :
  exists (c : scfg) (tr : list slabel) (s : sstate),
    srun true c sinit tr = Some s /\
    aborted (pT s) = true /\ active_rb (rT s) = false /\
    sslot s = Some [1%N; 5%N] /\ pN s = PDone OPanic.
Proof. exists c_w, tr_w. eexists. vm_compute. repeat split. Qed.

(** ... while the same trace on the code as it is ends well: the rollback task gets the slot
    mutex only after the helper's statement and empties the slot, and N begins on an empty slot. *)
Example ex_slot_same_trace_real :
  exists s, srun false c_w sinit tr_w = Some s /\ sslot s = Some [] /\ pN s = PHold 0 /\ sdb s = [].
Proof. eexists. vm_compute. repeat split. Qed.

Lemma srun_reachable c tr : forall s s', sreachable c s -> srun false c s tr = Some s' -> sreachable c s'.
Proof.
  induction tr as [|l r IH]; intros s s' Hr H; cbn in H.
  - inversion H; subst; exact Hr.
  - destruct (sstep false c s l) eqn:E; [|discriminate]. eapply IH; [|exact H].
    eapply sreach_step; eauto.
Qed.

(** Non-vacuity: the hypotheses of the main theorems are satisfiable by a reachable state with a
    helper statement in flight at the drop. *)
Example ex_slot_aborted_released :
  exists s, sreachable c_w s /\ aborted (pT s) = true /\ active_rb (rT s) = false /\
            hP s = HIdle 1 /\ sem s = true.
Proof.
  eexists. split.
  - apply (srun_reachable _ [LT; LT; LT; LH; LT; LH; LH; LR; LR] _ _ (sreach_init _)). vm_compute. reflexivity.
  - repeat split.
Qed.

Definition c_k : scfg := {| ow := [1%N]; ofin := FCommit; hw := [5%N]; nw := [2%N] |}.
Example ex_slot_next_granted :
  exists s, sreachable c_k s /\ pN s = PGranted /\ mtx s = true.
Proof.
  eexists. split.
  - apply (srun_reachable _ [LT; LT; LN; LT; LT; LH; LT] _ _ (sreach_init _)). vm_compute. reflexivity.
  - repeat split.
Qed.
