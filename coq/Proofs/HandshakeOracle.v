(** Soundness of the C25 oracle (Oracle/C25.v) and the fact that the model itself passes it. *)
From Coq Require Import List Arith Bool String Lia.
From PV Require Import Model.Handshake Proofs.Handshake Oracle.C25.
Import ListNotations.

Lemma expected_some_ok : forall r items sf evo o,
  expected r items sf evo = Some o -> result_of (run_side r (mkenv items sf evo)) = Some (Ok o).
Proof.
  intros [t|] items sf evo o H; cbn in H.
  - destruct items as [|[[t'|]|] rest]; try discriminate H.
    destruct (negb (sink_faultyb 5 sf) && evo) eqn:E; [|discriminate H]. injection H as <-.
    apply andb_true_iff in E. destruct E as [E1 ->]. apply negb_true_iff in E1.
    apply initiator_ok_iff. eauto.
  - destruct items as [|[[t'|]|] rest]; try discriminate H.
    destruct rest as [|[[t2|]|] rest]; try discriminate H.
    destruct (negb (sink_faultyb 3 sf) && evo) eqn:E; [|discriminate H]. injection H as <-.
    apply andb_true_iff in E. destruct E as [E1 ->]. apply negb_true_iff in E1.
    apply acceptor_ok_iff. eauto 7.
Qed.

Lemma expected_none_not_clean : forall r items sf evo,
  expected r items sf evo = None -> ~ clean r items sf evo.
Proof.
  intros r items sf evo H Hc. destruct r as [t|]; cbn in *.
  - destruct Hc as ((rest & ->) & Hs & ->). change (sink_faultyb 5 sf) with (sink_faulty 5 sf) in H.
    rewrite Hs in H. discriminate H.
  - destruct Hc as ((t' & rest & ->) & Hs & ->). change (sink_faultyb 3 sf) with (sink_faulty 3 sf) in H.
    rewrite Hs in H. discriminate H.
Qed.

Lemma opt_eqb_eq : forall a b, opt_eqb a b = true <-> a = b.
Proof.
  intros [x|] [y|]; cbn; try (split; congruence). rewrite String.eqb_eq. split; congruence.
Qed.

(** [n]: how often the stream reported closure ([none_polls]). *)
Theorem check_single_sound : forall r items sf evo res n,
  check_single r items sf evo res n = true ->
  n <= 1 /\
  ((clean r items sf evo /\ exists o, expected r items sf evo = Some o /\ res = IOk o) \/
   (~ clean r items sf evo /\ res = IFail)).
Proof.
  intros r items sf evo res n H. unfold check_single in H. apply andb_true_iff in H. destruct H as [Hn H].
  apply Nat.leb_le in Hn. split; [exact Hn|].
  destruct (expected r items sf evo) as [o|] eqn:E.
  - left. split; [eapply ok_gives_clean, expected_some_ok, E|].
    destruct res as [o'| |]; try discriminate H. apply opt_eqb_eq in H. subst o'. eauto.
  - right. split; [apply expected_none_not_clean; exact E|]. destruct res; try discriminate H. reflexivity.
Qed.

Lemma none_polls_le : forall tr,
  (forall pre post, tr = pre ++ (ARecv, RItem None) :: post -> post = []) -> none_polls tr <= 1.
Proof.
  induction tr as [|y tr IH]; intros H; [cbn; lia|].
  assert (IH' : none_polls tr <= 1).
  { apply IH. intros pre post E. apply (H (y :: pre) post). rewrite E. reflexivity. }
  destruct y as [[] [|[|]]]; try exact IH'.
  rewrite (H [] tr eq_refl). cbn. lia.
Qed.

Theorem model_passes_oracle : forall (r : role string) items sf evo,
  check_single r items sf evo
    (ires_of (result_of (run_side r (mkenv items sf evo))))
    (none_polls (trace (obs_of (run_side r (mkenv items sf evo))))) = true.
Proof.
  intros r items sf evo. unfold check_single. apply andb_true_iff. split.
  - apply Nat.leb_le, none_polls_le. intros pre post E. eapply no_wait_after_close, E.
  - destruct (expected r items sf evo) as [o|] eqn:E.
    + rewrite (expected_some_ok _ _ _ _ _ E). apply opt_eqb_eq. reflexivity.
    + destruct (fault_gives_error _ _ _ _ _ (expected_none_not_clean _ _ _ _ E)) as [e ->]. reflexivity.
Qed.
