(** Soundness of the C16 oracle on the parts that are not plain comparisons. *)
From Coq Require Import List NArith Bool Sorted.
From PV Require Import Model.Timestamp Model.Ephemeral Proofs.Ephemeral Proofs.C18Oracle Oracle.C16.
Import ListNotations.
Local Open Scope N_scope.

Lemma check_pub_sound (t0 : N) (script : list (N * N)) (outs : list (hts * N * bool)) (uniq complete : bool) :
  check_pub t0 script outs uniq complete = true ->
  complete = true /\ uniq = true /\ length outs = length script /\
  StronglySorted hlt (hnow t0 :: map (fun o => fst (fst o)) outs) /\
  Forall (fun o => snd o = true) outs.
Proof.
  unfold check_pub. intros H.
  (* the conjunct left aside compares the bodies with the script; the statement says nothing of them *)
  apply andb_prop in H as [H F]. apply andb_prop in H as [H _].
  apply andb_prop in H as [H S]. apply andb_prop in H as [C U].
  apply check_seq_sound in S. destruct S as [L S]. rewrite !map_length in L.
  repeat split; try assumption. apply Forall_forall. exact (proj1 (forallb_forall _ _) F).
Qed.

Lemma obs_eqb_eq (a b : obs) : obs_eqb a b = true -> a = b.
Proof.
  destruct a as [[p t] x], b as [[p' t'] x']. unfold obs_eqb. intros H.
  apply andb_prop in H as [H C]. apply andb_prop in H as [A B].
  apply N.eqb_eq in A, B, C. congruence.
Qed.

Lemma check_forge_some (signer : N) (f1 f2 : fields N) (sigmut : bool) (o : obs) :
  check_forge signer f1 f2 sigmut (Some o) =
  spec_authentic (signer, f1, f2, sigmut) && obs_eqb o (spec_obs (signer, f1, f2, sigmut)).
Proof. destruct o as [[p t] b]. reflexivity. Qed.

Lemma check_forge_sound (signer : N) (f1 f2 : fields N) (sigmut : bool) (p t b : N) :
  check_forge signer f1 f2 sigmut (Some (p, t, b)) = true ->
  sigmut = false /\ f1 = f2 /\ signer = author f2 /\ ver f2 = MESSAGE_VERSION /\
  p = author f2 /\ t = time f2 /\ b = body f2.
Proof.
  rewrite check_forge_some. unfold spec_authentic. intros H.
  apply andb_prop in H as [H O]. apply andb_prop in H as [H K].
  apply andb_prop in H as [H F]. apply andb_prop in H as [S V].
  apply negb_true_iff in S. apply N.eqb_eq in V, K. apply fields_eqb_eq in F.
  apply obs_eqb_eq in O. injection O as -> -> ->. repeat split; assumption.
Qed.

Lemma subseq_obs_sound (auth ys : list obs) : subseq_obs auth ys = true -> incl ys auth.
Proof.
  revert ys. induction auth as [|a auth IH]; intros [|y ys]; cbn [subseq_obs];
    try discriminate; try (intros _; apply incl_nil_l).
  destruct (obs_eqb y a) eqn:E; intros H; apply IH in H.
  - apply obs_eqb_eq in E. subst y. apply incl_cons; [left; reflexivity|apply incl_tl; exact H].
  - apply incl_tl. exact H.
Qed.

Lemma check_bulk_sound (specs : list seq_spec) (ys : list obs) :
  check_bulk specs ys = true ->
  Forall (fun y => exists s, In s specs /\ spec_authentic s = true /\ y = spec_obs s) ys.
Proof.
  intros H. apply subseq_obs_sound in H. apply Forall_forall. intros y Hy.
  apply H, in_map_iff in Hy. destruct Hy as [s [A B]]. apply filter_In in B.
  exists s. destruct B. auto.
Qed.

Lemma check_step_sound (specs : list seq_spec) (ys : list (list obs)) :
  check_step specs ys = true ->
  Forall2 (fun s g => g = [] \/ (g = [spec_obs s] /\ spec_authentic s = true)) specs ys.
Proof.
  revert ys. induction specs as [|[[[signer f1] f2] sigmut] specs IH]; intros [|g ys];
    cbn [check_step]; try discriminate; [constructor|].
  intros H. apply andb_prop in H as [A B]. constructor; [|exact (IH _ B)].
  destruct g as [|o [|o' g]]; [left; reflexivity| |discriminate].
  rewrite check_forge_some in A. apply andb_prop in A as [A O].
  apply obs_eqb_eq in O. subst o. right. split; [reflexivity|exact A].
Qed.
