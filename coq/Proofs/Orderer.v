(** The theorems of C11 about whole runs from the empty store: what is released is grounded (from
    safety), what is grounded is released after a drain (from the quiescent invariant), hence the
    released set depends on the delivered set only; fuel; soundness of the oracle. *)
From Coq Require Import List Arith NArith Bool Permutation.
From PV Require Import Model.Orderer Proofs.OrdererBase Proofs.OrdererSafety Proofs.OrdererLive Oracle.C11.
Import ListNotations.

Definition good_perm (perm : perm_t) : Prop := forall n l, Permutation (perm n l) l.

Lemma good_perm_id : good_perm id_perm.
Proof. intros n l. apply Permutation_refl. Qed.

Lemma grounded_le del del' x : deliveries_le del del' -> grounded del x -> grounded del' x.
Proof.
  intros Hle H. induction H as [x ds Hin _ IH].
  destruct (Hle x ds Hin) as [ds' [Hin' Heq]]. apply (G_intro del' x ds' Hin').
  intros d Hd. apply IH. apply Heq. exact Hd.
Qed.

Lemma deliveries_le_incl del del' : (forall e, In e del -> In e del') -> deliveries_le del del'.
Proof. intros H x ds Hin. exists ds. split; [apply H; exact Hin | reflexivity]. Qed.

Lemma Q1_grounded del s x : Q1 del s -> grounded del x -> is_ready s x = true.
Proof.
  intros HQ H. induction H as [x ds Hin _ IH].
  destruct (is_ready s x) eqn:E; [reflexivity|]. destruct (HQ (x, ds)). split; auto.
Qed.

Lemma released_grounded tr x : safe_trace tr -> In (ERel x) tr -> grounded (dels tr) x.
Proof.
  intros Hs. enough (H : forall pre post, tr = pre ++ post -> forall y, In (ERel y) pre -> grounded (dels tr) y).
  { apply (H tr []). symmetry. apply app_nil_r. }
  intros pre. induction pre as [|e pre IH] using rev_ind; intros post E y Hy; [destruct Hy|].
  rewrite <- app_assoc in E. apply in_app_iff in Hy. destruct Hy as [Hy|[->|[]]].
  - exact (IH _ E y Hy).
  - destruct (Hs pre y post E) as [ds [Hds Hall]]. apply (G_intro _ y ds).
    + apply dels_In. rewrite E. apply in_app_iff. left. exact Hds.
    + intros d Hd. exact (IH _ E d (Hall d Hd)).
Qed.

Lemma run_app perm fuel : forall a b s,
  run perm fuel s (a ++ b) =
  (fst (run perm fuel (fst (run perm fuel s a)) b),
   snd (run perm fuel s a) ++ snd (run perm fuel (fst (run perm fuel s a)) b)).
Proof.
  induction a as [|o a IH]; intros b s.
  - cbn [app run fst snd]. destruct (run perm fuel s b); reflexivity.
  - cbn [app run]. destruct (step perm fuel s o) as [s1 o1]. rewrite IH.
    destruct (run perm fuel s1 a) as [s2 o2]. cbn [fst snd].
    destruct (run perm fuel s2 b) as [s3 o3]. cbn [fst snd]. rewrite app_assoc. reflexivity.
Qed.

Lemma dels_map_rel l : dels (map ERel l) = [].
Proof. induction l as [|a l IH]; [reflexivity | exact IH]. Qed.

Lemma dels_events_run perm fuel : forall ops s,
  dels (events_of ops (snd (run perm fuel s ops))) = delivered_of ops.
Proof.
  induction ops as [|o ops IH]; intros s; [reflexivity|].
  destruct (run_cons perm fuel o ops s) as [_ ->]. rewrite dels_app, IH.
  change (delivered_of (o :: ops))
    with (match o with Deliver x ds => [(x, ds)] | _ => [] end ++ delivered_of ops). f_equal.
  destruct o as [x ds| |]; cbn [step].
  - reflexivity.
  - destruct (take_next_ready s) as [s' [y|]]; reflexivity.
  - destruct (drain _ s) as [s' l]. cbn [snd events_of out_events]. rewrite app_nil_r. apply dels_map_rel.
Qed.

Lemma delivered_of_snoc_drain ops : delivered_of (ops ++ [Drain]) = delivered_of ops.
Proof. unfold delivered_of. rewrite flat_map_app. apply app_nil_r. Qed.

Lemma run_drain_empties perm fuel ops s r :
  In r (ready_tbl (fst (run perm fuel s (ops ++ [Drain])))) -> r_inq r = false.
Proof.
  rewrite run_app. cbn [fst run step]. set (s1 := fst (run perm fuel s ops)).
  pose proof (drain_all_empties s1 r) as Hd. destruct (drain _ s1) as [s2 l]. exact Hd.
Qed.

Section Main.
Variable perm : perm_t.
Hypothesis Hperm : good_perm perm.
Variable fuel : nat.

Let pincl : forall n l e, In e (perm n l) -> In e l := perm_In perm Hperm.

Lemma released_are_grounded ops x :
  In (ERel x) (trace_of perm fuel ops) -> grounded (delivered_of ops) x.
Proof.
  intros Hx. pose proof (released_grounded _ x (release_after_deps perm pincl fuel ops) Hx) as Hg.
  unfold trace_of in Hg. rewrite dels_events_run in Hg. exact Hg.
Qed.

Theorem blocked_stay_blocked : forall ops x,
  ~ grounded (delivered_of ops) x -> ~ In (ERel x) (trace_of perm fuel ops).
Proof. intros ops x Hn Hx. exact (Hn (released_are_grounded ops x Hx)). Qed.

Lemma eventual_release_from tr s ops x :
  QI tr s -> oof (fst (run perm fuel s (ops ++ [Drain]))) = false ->
  grounded (dels tr ++ delivered_of ops) x ->
  In (ERel x) (tr ++ events_of (ops ++ [Drain]) (snd (run perm fuel s (ops ++ [Drain])))).
Proof.
  intros HQ Hoof Hg.
  destruct (run_QI perm Hperm fuel (ops ++ [Drain]) tr s HQ Hoof) as [[[_ [_ H3]] _] [H1 _]].
  rewrite dels_app, dels_events_run, delivered_of_snoc_drain in H1.
  pose proof (Q1_grounded _ _ x H1 Hg) as Hr. apply is_ready_row in Hr. destruct Hr as [r [Hr <-]].
  (* ready, and out of the queue after the drain: released *)
  apply rels_In, (H3 r Hr), (run_drain_empties perm fuel ops s r Hr).
Qed.

Theorem eventual_release : forall ops x,
  no_oof perm fuel (ops ++ [Drain]) ->
  grounded (delivered_of ops) x -> In (ERel x) (trace_of perm fuel (ops ++ [Drain])).
Proof. intros ops x Hoof Hg. exact (eventual_release_from [] empty ops x QI_empty Hoof Hg). Qed.

Theorem released_iff_grounded : forall ops x,
  no_oof perm fuel (ops ++ [Drain]) ->
  (In (ERel x) (trace_of perm fuel (ops ++ [Drain])) <-> grounded (delivered_of ops) x).
Proof.
  intros ops x Hoof. split; [|apply eventual_release, Hoof].
  intros Hx. rewrite <- delivered_of_snoc_drain. exact (released_are_grounded _ x Hx).
Qed.

End Main.

(** fuel: any rank function on the delivered graph bounds the recursion depth *)
Theorem fuel_sufficient : forall perm fuel ops (rk : id -> nat),
  good_perm perm ->
  (forall x ds, In (x, ds) (delivered_of ops) -> rk x < fuel /\ forall d, In d ds -> rk d < rk x) ->
  no_oof perm fuel ops.
Proof.
  intros perm fuel ops rk Hperm Hrk. unfold no_oof.
  pose proof (perm_In perm Hperm) as pincl. set (DEL := delivered_of ops) in Hrk.
  (* as long as the deliveries so far are among those ranked, the flag is down *)
  refine (proj2 (run_invariant_InvT perm pincl fuel (fun tr s => incl (dels tr) DEL -> oof s = false)
                   _ _ ops [] empty InvT_empty (fun _ => eq_refl)) _).
  - intros tr s x ds HT Ho Hin. apply (process_no_oof perm pincl DEL rk fuel Hrk tr s x ds HT Hin), Ho.
    intros e He. apply Hin. rewrite dels_app. apply in_app_iff. left. exact He.
  - intros tr s s' x _ Ho E. rewrite dels_snoc_rel. intros Hin.
    rewrite <- (Ho Hin), <- (take_oof s), E. reflexivity.
  - cbn [app]. rewrite dels_events_run. apply incl_refl.
Qed.

(** the released set is a function of the delivered *set* (dependency lists read as sets):
    delivery order, repeated deliveries, repeated dependency entries, interleaving of [next]
    calls and HashSet iteration order do not matter *)
Theorem released_set_independent : forall perm1 perm2 fuel1 fuel2 ops1 ops2 x,
  good_perm perm1 -> good_perm perm2 ->
  no_oof perm1 fuel1 (ops1 ++ [Drain]) -> no_oof perm2 fuel2 (ops2 ++ [Drain]) ->
  same_deliveries (delivered_of ops1) (delivered_of ops2) ->
  (In (ERel x) (trace_of perm1 fuel1 (ops1 ++ [Drain])) <->
   In (ERel x) (trace_of perm2 fuel2 (ops2 ++ [Drain]))).
Proof.
  intros perm1 perm2 fuel1 fuel2 ops1 ops2 x H1 H2 Ho1 Ho2 [Hle Hge].
  rewrite (released_iff_grounded perm1 H1 fuel1 ops1 x Ho1), (released_iff_grounded perm2 H2 fuel2 ops2 x Ho2).
  split; apply grounded_le; assumption.
Qed.

Lemma delivered_of_In ops x ds : In (x, ds) (delivered_of ops) <-> In (Deliver x ds) ops.
Proof.
  unfold delivered_of. rewrite in_flat_map. split.
  - intros [[y dy| |] [Ho Hin]]; try destruct Hin as [[= -> ->]|[]]; [exact Ho | destruct Hin ..].
  - intros H. exists (Deliver x ds). split; [exact H | left; reflexivity].
Qed.

Lemma dedup_same_deliveries ops : same_deliveries (delivered_of ops) (delivered_of (map dedup_op ops)).
Proof.
  split; intros x ds Hin; apply delivered_of_In in Hin.
  - exists (nodupN ds). split; [|intros d; symmetry; apply nodupN_In].
    apply delivered_of_In. exact (in_map dedup_op _ _ Hin).
  - apply in_map_iff in Hin. destruct Hin as [[y dy| |] [[= -> <-] Ho]].
    exists dy. split; [apply delivered_of_In, Ho | intros d; apply nodupN_In].
Qed.

Lemma map_dedup_snoc ops : map dedup_op (ops ++ [Drain]) = map dedup_op ops ++ [Drain].
Proof. rewrite map_app. reflexivity. Qed.

Theorem deps_as_set : forall perm1 perm2 fuel1 fuel2 ops x,
  good_perm perm1 -> good_perm perm2 ->
  no_oof perm1 fuel1 (ops ++ [Drain]) -> no_oof perm2 fuel2 (map dedup_op ops ++ [Drain]) ->
  (In (ERel x) (trace_of perm1 fuel1 (ops ++ [Drain])) <->
   In (ERel x) (trace_of perm2 fuel2 (map dedup_op ops ++ [Drain]))).
Proof.
  intros perm1 perm2 fuel1 fuel2 ops x H1 H2 Ho1 Ho2.
  apply released_set_independent; try assumption. apply dedup_same_deliveries.
Qed.

(** non-vacuity: a diamond with a repeated and a missing dependency, delivered out of order *)
Definition ex_ops : list op :=
  [Deliver 3 [1; 2; 1]; Deliver 5 [4]; Deliver 2 [0]; Next; Deliver 1 [0; 0]; Deliver 0 []; Next; Deliver 0 []]%N.

Example ex_no_oof : no_oof id_perm 5 (ex_ops ++ [Drain]).
Proof. reflexivity. Qed.

Example ex_rank :
  forall x ds, In (x, ds) (delivered_of ex_ops) ->
    N.to_nat x < 6 /\ forall d, In d ds -> N.to_nat d < N.to_nat x.
Proof.
  assert (H : forallb (fun e => Nat.ltb (N.to_nat (fst e)) 6 &&
                               forallb (fun d => Nat.ltb (N.to_nat d) (N.to_nat (fst e))) (snd e))
                      (delivered_of ex_ops) = true) by reflexivity.
  intros x ds Hin. apply (proj1 (forallb_forall _ _) H), andb_true_iff in Hin. cbn [fst snd] in Hin.
  destruct Hin as [Hx Hds]. split; [apply Nat.ltb_lt, Hx|].
  intros d Hd. apply Nat.ltb_lt, (proj1 (forallb_forall _ _) Hds d Hd).
Qed.

Example ex_grounded : grounded (delivered_of ex_ops) 3%N.
Proof.
  assert (G0 : grounded (delivered_of ex_ops) 0%N).
  { apply (G_intro _ 0%N []); [do 4 right; left; reflexivity|]. intros d []. }
  assert (G1 : grounded (delivered_of ex_ops) 1%N).
  { apply (G_intro _ 1%N [0%N; 0%N]); [do 3 right; left; reflexivity|].
    intros d [H|[H|[]]]; subst; exact G0. }
  assert (G2 : grounded (delivered_of ex_ops) 2%N).
  { apply (G_intro _ 2%N [0%N]); [do 2 right; left; reflexivity|]. intros d [H|[]]; subst; exact G0. }
  apply (G_intro _ 3%N [1%N; 2%N; 1%N]); [left; reflexivity|].
  intros d [H|[H|[H|[]]]]; subst; assumption.
Qed.

Example ex_trace :
  trace_of id_perm 5 (ex_ops ++ [Drain]) =
  [EDel 3 [1; 2; 1]; EDel 5 [4]; EDel 2 [0]; EDel 1 [0; 0]; EDel 0 []; ERel 0; EDel 0 [];
   ERel 2; ERel 1; ERel 3; ERel 0]%N.
Proof. reflexivity. Qed.

Lemma rel_ok_sound tr x :
  rel_ok (dels tr) (rels tr) x = true ->
  exists ds, In (EDel x ds) tr /\ forall d, In d ds -> In (ERel d) tr.
Proof.
  unfold rel_ok. intros H. apply existsb_exists in H. destruct H as [[y ds] [Hin H]].
  cbn [fst snd] in H. apply andb_true_iff in H. destruct H as [E Hall]. apply N.eqb_eq in E. subst y.
  exists ds. split; [apply dels_In; exact Hin|].
  intros d Hd. rewrite forallb_forall in Hall. apply rels_In. apply memN_In. exact (Hall d Hd).
Qed.

Lemma rel_seq_sound : forall l tr rel',
  safe_trace tr -> rel_seq (dels tr) (rels tr) l = Some rel' ->
  safe_trace (tr ++ map ERel l) /\ rel' = rels (tr ++ map ERel l) /\ dels (tr ++ map ERel l) = dels tr.
Proof.
  induction l as [|x l IH]; intros tr rel' Hs H.
  - cbn [rel_seq] in H. inversion H. cbn [map]. rewrite app_nil_r. auto.
  - cbn [rel_seq] in H. destruct (rel_ok (dels tr) (rels tr) x) eqn:Eok; [|discriminate].
    pose proof (safe_snoc_rel tr x Hs (rel_ok_sound tr x Eok)) as Hs'.
    rewrite <- rels_snoc_rel, <- (dels_snoc_rel tr x) in H.
    destruct (IH _ _ Hs' H) as [A [B C]].
    cbn [map]. change (tr ++ ERel x :: map ERel l) with (tr ++ [ERel x] ++ map ERel l).
    rewrite app_assoc. split; [exact A|]. split; [exact B|]. rewrite C. apply dels_snoc_rel.
Qed.

Lemma check_go_sound : forall ops outs tr,
  safe_trace tr -> check_go ops outs (dels tr) (rels tr) = true -> safe_trace (tr ++ events_of ops outs).
Proof.
  induction ops as [|o ops IH]; intros outs tr Hs H.
  - cbn [events_of]. rewrite app_nil_r. exact Hs.
  - destruct o as [x ds| |]; cbn [check_go events_of] in *.
    + rewrite <- dels_snoc_del, <- (rels_snoc_del tr x ds) in H.
      specialize (IH outs _ (safe_snoc_del tr x ds Hs) H). rewrite <- app_assoc in IH. exact IH.
    + destruct outs as [|[[y|]|l] outs']; try discriminate.
      * apply andb_true_iff in H. destruct H as [Hok H]. cbn [out_events].
        rewrite <- rels_snoc_rel, <- (dels_snoc_rel tr y) in H.
        specialize (IH outs' _ (safe_snoc_rel tr y Hs (rel_ok_sound tr y Hok)) H).
        rewrite <- app_assoc in IH. exact IH.
      * apply andb_true_iff in H. destruct H as [_ H]. cbn [out_events app]. exact (IH outs' tr Hs H).
    + destruct outs as [|[o|l] outs']; try discriminate.
      destruct (rel_seq (dels tr) (rels tr) l) as [rel'|] eqn:Er; [|discriminate].
      apply andb_true_iff in H. destruct H as [_ H]. cbn [out_events].
      destruct (rel_seq_sound l tr rel' Hs Er) as [A [B C]]. subst rel'. rewrite <- C in H.
      specialize (IH outs' _ A H). rewrite <- app_assoc in IH. exact IH.
Qed.

Theorem check_sound : forall ops outs, check ops outs = true -> safe_trace (events_of ops outs).
Proof. intros ops outs H. exact (check_go_sound ops outs [] safe_nil H). Qed.
