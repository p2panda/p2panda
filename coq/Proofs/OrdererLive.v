(** Liveness of the causal orderer model: after every completed [process] call no delivered item
    whose dependencies are all ready is left behind, for every HashSet iteration order -- provided
    the recursion did not run out of fuel ([oof] flag), which it does not when the delivered graph
    has a rank function below the fuel ([pp_no_oof], [process_no_oof]; Orderer.fuel_sufficient). *)
From Coq Require Import List Bool Lia Permutation.
From PV Require Import Model.Orderer Proofs.OrdererBase Proofs.OrdererSafety.
Import ListNotations.

Definition viol (del : list entry) (s : store) (e : entry) : Prop :=
  In e del /\ is_ready s (fst e) = false /\ forall d, In d (snd e) -> is_ready s d = true.

Definition Q1 (del : list entry) (s : store) : Prop := forall v, ~ viol del s v.

Definition rows_under (s : store) (k x : id) (ds : list id) : Prop :=
  In k ds /\ forall p, In p ds -> In (mkP k x p (x, sortN ds)) (pending_tbl s).

(** an item that is not ready is registered under each of its dependencies that is not ready *)
Definition Q2 (del : list entry) (s : store) : Prop :=
  forall x ds, In (x, ds) del -> is_ready s x = false ->
    forall d, In d ds -> is_ready s d = false -> rows_under s d x ds.

Definition ready_mono (s s' : store) : Prop := forall x, is_ready s x = true -> is_ready s' x = true.

Lemma ready_mono_refl s : ready_mono s s.
Proof. intros x H. exact H. Qed.
Lemma ready_mono_trans a b c : ready_mono a b -> ready_mono b c -> ready_mono a c.
Proof. intros H1 H2 x H. apply H2, H1, H. Qed.

Lemma not_ready_mono s s' x : ready_mono s s' -> is_ready s' x = false -> is_ready s x = false.
Proof.
  intros Hm H. destruct (is_ready s x) eqn:E; [|reflexivity]. apply Hm in E. congruence.
Qed.

Lemma mark_ready_mono s x : ready_mono s (mark_ready s x).
Proof. intros y H. apply mark_ready_is_ready. left. exact H. Qed.

Lemma Q1_same del s s' : (forall x, is_ready s' x = is_ready s x) -> Q1 del s -> Q1 del s'.
Proof.
  intros E H v [A [B C]]. apply (H v). split; [exact A|]. split; [rewrite <- E; exact B|].
  intros d Hd. rewrite <- E. exact (C d Hd).
Qed.

Lemma Q2_same del s s' :
  (forall x, is_ready s' x = is_ready s x) -> pending_tbl s' = pending_tbl s -> Q2 del s -> Q2 del s'.
Proof.
  intros E Ep H x ds Hin Hx d Hd Hdn. unfold rows_under. rewrite Ep. rewrite E in Hx, Hdn.
  exact (H x ds Hin Hx d Hd Hdn).
Qed.

Lemma Q2_mark_ready del s x : Q2 del s -> Q2 del (mark_ready s x).
Proof.
  intros H y ds Hin Hy d Hd Hdn. unfold rows_under. rewrite mark_ready_pending.
  apply (H y ds Hin); [|exact Hd|]; apply (not_ready_mono _ _ _ (mark_ready_mono s x)); assumption.
Qed.

Lemma viol_app del del' s v : viol (del ++ del') s v -> viol del s v \/ viol del' s v.
Proof. intros [Hin H]. apply in_app_iff in Hin. destruct Hin; [left | right]; split; assumption. Qed.

Lemma Q2_app del del' s : Q2 del s -> Q2 del' s -> Q2 (del ++ del') s.
Proof. intros H H' x ds Hin. apply in_app_iff in Hin. destruct Hin; [apply H | apply H']; assumption. Qed.

Lemma pp_body_oof_mono perm f :
  (forall s k, oof s = true -> oof (process_pending perm f s k) = true) ->
  forall st e, oof st = true -> oof (pp_body perm f st e) = true.
Proof.
  intros IH st e H. unfold pp_body. destruct (ready st (snd e)); [|exact H].
  apply IH. rewrite mark_ready_oof. exact H.
Qed.

Lemma pp_oof_mono perm : forall f s k, oof s = true -> oof (process_pending perm f s k) = true.
Proof.
  induction f as [|f IH]; intros s k H; [reflexivity|].
  rewrite pp_unfold. destruct (get_next_pending s k) as [es|]; [|exact H].
  cbn [remove_pending set_pending oof]. apply fold_left_inv; [|exact H].
  intros st e _. apply pp_body_oof_mono, IH.
Qed.

Lemma loop_oof_mono perm f l : forall st, oof st = true -> oof (fold_left (pp_body perm f) l st) = true.
Proof.
  apply (fold_left_inv (fun st => oof st = true)). intros st e _. apply pp_body_oof_mono, pp_oof_mono.
Qed.

Lemma process_oof_mono perm fuel s x ds : oof s = true -> oof (process perm fuel s x ds) = true.
Proof.
  intros H. pose proof (pp_body_oof_mono perm fuel (pp_oof_mono perm fuel) s (x, ds) H) as Hb.
  unfold process. unfold pp_body in Hb. cbn [fst snd] in Hb. destruct (ready s ds); [exact Hb | exact H].
Qed.

Section Live.
Variable perm : perm_t.
Hypothesis perm_perm : forall n l, Permutation (perm n l) l.
Variables (del : list entry) (rel : list id).

Lemma perm_In : forall n l e, In e (perm n l) -> In e l.
Proof. intros n l e H. exact (Permutation_in _ (perm_perm n l) H). Qed.
Lemma perm_In_rev : forall n l e, In e l -> In e (perm n l).
Proof. intros n l e H. exact (Permutation_in _ (Permutation_sym (perm_perm n l)) H). Qed.

Lemma oof_false_of_mono {A} (g : A -> store) (a : A) st :
  (oof st = true -> oof (g a) = true) -> oof (g a) = false -> oof st = false.
Proof. intros H1 H2. destruct (oof st); [|reflexivity]. rewrite H1 in H2 by reflexivity. discriminate. Qed.

(** What a stretch of the computation achieves: nothing that was ready is lost, no item is newly
    left behind, and none of the entries in [X] is left behind at all. *)
Definition progress (X : entry -> Prop) (s s' : store) : Prop :=
  ready_mono s s' /\ forall v, viol del s' v -> viol del s v /\ ~ X v.

Lemma progress_refl X s : (forall v, viol del s v -> ~ X v) -> progress X s s.
Proof. intros H. split; [apply ready_mono_refl|]. intros v Hv. split; [exact Hv | exact (H v Hv)]. Qed.

Lemma progress_trans X Y a b c :
  progress X a b -> progress Y b c -> progress (fun v => X v \/ Y v) a c.
Proof.
  intros [M1 V1] [M2 V2]. split; [exact (ready_mono_trans _ _ _ M1 M2)|].
  intros v Hv. destruct (V2 v Hv) as [Hb HY]. destruct (V1 v Hb) as [Ha HX].
  split; [exact Ha|]. intros [F|F]; auto.
Qed.

Lemma progress_weaken (X Y : entry -> Prop) a b : (forall v, Y v -> X v) -> progress X a b -> progress Y a b.
Proof.
  intros H [M V]. split; [exact M|]. intros v Hv. destruct (V v Hv) as [Ha HX].
  split; [exact Ha|]. intros F. exact (HX (H v F)).
Qed.

Definition stands_for (e v : entry) : Prop := fst v = fst e /\ forall p, In p (snd e) <-> In p (snd v).

(** the statement proved by induction on the fuel: processing the key [k] takes care of
    everything registered under [k]; [k] being ready is what lets the final [remove_pending] keep [Q2] *)
Definition pp_live_at (f : nat) : Prop :=
  forall s k, Inv del rel s -> Q2 del s -> is_ready s k = true ->
    oof (process_pending perm f s k) = false ->
    Q2 del (process_pending perm f s k) /\
    progress (fun v => rows_under s k (fst v) (snd v)) s (process_pending perm f s k).

Lemma body_live f : pp_live_at f ->
  forall st e, Inv del rel st -> Q2 del st -> good del e -> oof (pp_body perm f st e) = false ->
    Inv del rel (pp_body perm f st e) /\ Q2 del (pp_body perm f st e) /\
    progress (stands_for e) st (pp_body perm f st e).
Proof.
  intros IH st e HI HQ Hg Hoof. unfold pp_body in *.
  destruct (ready st (snd e)) eqn:Er.
  - pose proof (Inv_mark_good del rel st e HI Hg Er) as HI1.
    set (c := fst e) in *. set (s1 := mark_ready st c) in *.
    assert (Hc1 : is_ready s1 c = true) by (apply mark_ready_is_ready; right; reflexivity).
    destruct (IH s1 c HI1 (Q2_mark_ready del st c HQ) Hc1 Hoof) as [HQ2 [Hm Hv]].
    split; [apply pp_Inv; [exact perm_In | exact HI1]|]. split; [exact HQ2|].
    split; [exact (ready_mono_trans _ _ _ (mark_ready_mono st c) Hm)|].
    intros [y dy] Hv2. destruct (Hv _ Hv2) as [[Hin [Hn1 Hr1]] Hnr]. cbn [fst snd] in *.
    pose proof (not_ready_mono _ _ _ (mark_ready_mono st c) Hn1) as Hn0.
    split; [split; [exact Hin|]; split; [exact Hn0|] |].
    + intros d Hd. destruct (proj1 (mark_ready_is_ready st c d) (Hr1 d Hd)) as [H| ->]; [exact H|].
      (* [c] itself: had it not been ready before, [y] was registered under it and is done *)
      destruct (is_ready st c) eqn:Ec; [reflexivity|]. destruct Hnr.
      destruct (HQ y dy Hin Hn0 c Hd Ec) as [A B]. split; [exact A|].
      unfold s1. rewrite mark_ready_pending. exact B.
    + intros [Ef _]. cbn [fst] in Ef. fold c in Ef. rewrite Ef, Hc1 in Hn1. discriminate.
  - split; [exact HI|]. split; [exact HQ|]. apply progress_refl. intros v [_ [_ Hr]] [_ Es].
    rewrite (proj2 (ready_spec st (snd e) (proj1 (proj1 HI)))) in Er; [discriminate|].
    intros d Hd. apply Hr, Es, Hd.
Qed.

Lemma loop_live f : pp_live_at f ->
  forall l st, Inv del rel st -> Q2 del st -> (forall e, In e l -> good del e) ->
    oof (fold_left (pp_body perm f) l st) = false ->
    Inv del rel (fold_left (pp_body perm f) l st) /\ Q2 del (fold_left (pp_body perm f) l st) /\
    progress (fun v => exists e, In e l /\ stands_for e v) st (fold_left (pp_body perm f) l st).
Proof.
  intros IH l. induction l as [|e l IHl]; intros st HI HQ Hgood Hoof; cbn [fold_left] in *.
  - split; [exact HI|]. split; [exact HQ|]. apply progress_refl. intros v _ [e [[] _]].
  - pose proof (oof_false_of_mono (fun t => t) _ _ (loop_oof_mono perm f l _) Hoof) as Hoof1.
    destruct (body_live f IH st e HI HQ (Hgood e (or_introl eq_refl)) Hoof1) as [HI1 [HQ1 Hp1]].
    destruct (IHl _ HI1 HQ1 (fun e' He' => Hgood e' (or_intror He')) Hoof) as [HI2 [HQ2 Hp2]].
    split; [exact HI2|]. split; [exact HQ2|].
    refine (progress_weaken _ _ _ _ _ (progress_trans _ _ _ _ _ Hp1 Hp2)).
    intros v [e' [[<-|He'] Hs]]; [left; exact Hs | right; exists e'; auto].
Qed.

Lemma pp_live : forall f, pp_live_at f.
Proof.
  induction f as [|f IH]; intros s k HI HQ Hk Hoof; [discriminate Hoof|].
  rewrite pp_unfold in *. destruct (get_next_pending s k) as [es|] eqn:Eg.
  - set (l := perm (tick s) es) in *.
    assert (Hgood : forall e, In e l -> good del e).
    { intros e He. exact (proj1 (gnp_good del s k es e (proj2 HI) Eg (perm_In _ _ _ He))). }
    (* [bump] and [remove_pending] leave the ready table alone: [is_ready] computes to the same *)
    destruct (loop_live f IH l (bump s (length es)) (Inv_ext del rel s _ eq_refl eq_refl HI) HQ Hgood Hoof)
      as [_ [HQ1 [Hm1 Hv1]]].
    set (s1 := fold_left (pp_body perm f) l (bump s (length es))) in *. split.
    + intros y ds Hin Hy d Hd Hdn. destruct (HQ1 y ds Hin Hy d Hd Hdn) as [A B]. split; [exact A|].
      intros p Hp. apply remove_pending_In. split; [exact (B p Hp)|]. cbn [p_id]. intros ->.
      exact (eq_true_false_abs _ (Hm1 k Hk) Hdn).
    + split; [exact Hm1|]. intros v Hv. destruct (Hv1 v Hv) as [Hs Hn]. split; [exact Hs|].
      intros [Hkin Hrows]. apply Hn.
      set (row := mkP k (fst v) k (fst v, sortN (snd v))).
      assert (Hrow : In row (pending_tbl s)) by exact (Hrows k Hkin).
      exists (fst v, group_parents (pending_tbl s) (fst v) (fst v, sortN (snd v))). split.
      * apply perm_In_rev, (gnp_Some_In s k es _ Eg). exists row. auto.
      * split; [reflexivity|]. exact (InvP_group del s row (snd v) (proj2 HI) eq_refl Hrows).
  - split; [exact HQ|]. apply progress_refl. intros v _ [Hkin Hrows].
    exact (gnp_None s k Eg _ (Hrows k Hkin) eq_refl).
Qed.

End Live.

Section Fuel.
Variable perm : perm_t.
Hypothesis perm_incl : forall n l e, In e (perm n l) -> In e l.
Variable del : list entry.
Variable rk : id -> nat.
Variable B : nat.
Hypothesis Hrk : forall x ds, In (x, ds) del -> rk x < B /\ forall d, In d ds -> rk d < rk x.

(** a key is processed at a depth below [B - rk k]: what it releases lists it, so has a larger rank *)
Lemma pp_no_oof : forall f rel s k,
  Inv del rel s -> oof s = false -> rk k < B -> B - rk k <= f ->
  oof (process_pending perm f s k) = false.
Proof.
  induction f as [|f IH]; intros rel s k HI Ho Hk Hf; [lia|].
  rewrite pp_unfold. destruct (get_next_pending s k) as [es|] eqn:Eg; [|exact Ho].
  cbn [remove_pending set_pending oof]. set (l := perm (tick s) es). set (s0 := bump s (length es)).
  apply (proj2 (A := Inv del rel (fold_left (pp_body perm f) l s0))).
  apply (fold_left_inv (fun st => Inv del rel st /\ oof st = false));
    [|split; [exact (Inv_ext del rel s s0 eq_refl eq_refl HI) | exact Ho]].
  intros st e He [HIst Host]. unfold pp_body. destruct (ready st (snd e)) eqn:Er; [|auto].
  destruct (gnp_good del s k es e (proj2 HI) Eg (perm_incl _ _ _ He)) as [Hg Hkin].
  pose proof (Inv_mark_good del rel st e HIst Hg Er) as HI1.
  split; [exact (pp_Inv perm perm_incl del rel f _ _ HI1)|].
  destruct Hg as [ds [Hds Heq]]. destruct (Hrk (fst e) ds Hds) as [Hb Hlt].
  specialize (Hlt k (proj1 (Heq k) Hkin)).
  apply (IH rel); [exact HI1 | rewrite mark_ready_oof; exact Host | exact Hb | lia].
Qed.

Lemma process_no_oof tr s x ds :
  InvT tr s -> incl (dels (tr ++ [EDel x ds])) del -> oof s = false ->
  oof (process perm B s x ds) = false.
Proof.
  intros HT Hincl Ho. rewrite dels_snoc_del in Hincl. destruct (InvT_deliver tr s x ds HT) as [Hin HI].
  unfold process. destruct (ready s ds) eqn:Er; [|exact Ho].
  apply (pp_no_oof B (rels tr)); [|rewrite mark_ready_oof; exact Ho | apply (Hrk x ds), Hincl, Hin | lia].
  apply (Inv_mark_good del (rels tr) s (x, ds)); [|exact (good_self del x ds (Hincl _ Hin)) | exact Er].
  exact (Inv_mono _ _ _ _ s Hincl (incl_refl _) HI).
Qed.

End Fuel.

(** holds between [process] calls, not inside [process_pending]: there [progress] takes over *)
Definition QI (tr : list event) (s : store) : Prop :=
  InvT tr s /\ Q1 (dels tr) s /\ Q2 (dels tr) s.

Lemma QI_empty : QI [] empty.
Proof. split; [apply InvT_empty|]. split; [intros v [[] _] | intros x ds []]. Qed.

Section RunLive.
Variable perm : perm_t.
Hypothesis perm_perm : forall n l, Permutation (perm n l) l.
Variable fuel : nat.

Let pincl := perm_In perm perm_perm.

Lemma process_QI tr s x ds :
  QI tr s -> oof (process perm fuel s x ds) = false -> QI (tr ++ [EDel x ds]) (process perm fuel s x ds).
Proof.
  intros [HT [H1 H2]] Hoof. split; [apply process_InvT; [exact pincl | exact HT]|].
  rewrite dels_snoc_del. destruct (InvT_deliver tr s x ds HT) as [Hin HI].
  set (del' := dels tr ++ [(x, ds)]) in *. pose proof (proj1 (proj1 HI)) as Hpk.
  unfold process in *. destruct (ready s ds) eqn:Er.
  - pose proof (proj1 (ready_spec s ds Hpk) Er) as Hall.
    assert (HQ : Q2 del' s).
    { apply Q2_app; [exact H2|]. intros y dy [[= <- <-]|[]] _ d Hd Hdn. rewrite (Hall d Hd) in Hdn. discriminate. }
    (* the call is the loop body of [process_pending] on the entry [(x, ds)] *)
    pose proof (body_live perm perm_perm del' (rels tr) fuel (pp_live perm perm_perm del' (rels tr) fuel)
                          s (x, ds) HI HQ (good_self del' x ds Hin)) as Hbl.
    unfold pp_body in Hbl. cbn [fst snd] in Hbl. rewrite Er in Hbl.
    destruct (Hbl Hoof) as [_ [HQ' [_ Hv]]]. split; [|exact HQ'].
    intros v Hviol. destruct (Hv v Hviol) as [Hs Hn].
    destruct (viol_app _ _ s v Hs) as [Hs'|[[<-|[]] _]]; [exact (H1 v Hs') | apply Hn; split; reflexivity].
  - (* [mark_pending] leaves the ready table alone *)
    split.
    + intros v Hv. destruct (viol_app _ _ _ v Hv) as [Hv'|[[<-|[]] [_ Hr]]]; [exact (H1 v Hv')|].
      rewrite (proj2 (ready_spec s ds Hpk)) in Er; [discriminate | exact Hr].
    + apply Q2_app.
      * intros y dy Hy Hny d Hd Hdn. split; [exact Hd|]. intros p Hp. apply mark_pending_In. left.
        exact (proj2 (H2 y dy Hy Hny d Hd Hdn) p Hp).
      * intros y dy [[= <- <-]|[]] _ d Hd Hdn. split; [exact Hd|]. intros p Hp. apply mark_pending_In.
        right. exists d, p. auto.
Qed.

Lemma take_QI tr s s' x : QI tr s -> take_next_ready s = (s', Some x) -> QI (tr ++ [ERel x]) s'.
Proof.
  intros [HT [H1 H2]] E. split; [exact (proj1 (take_InvT tr s s' x HT E))|].
  pose proof (take_is_ready s) as Er. pose proof (take_pending s) as Ep. rewrite E in Er, Ep.
  rewrite dels_snoc_rel. split; [exact (Q1_same _ s s' Er H1) | exact (Q2_same _ s s' Er Ep H2)].
Qed.

Lemma run_QI ops tr s :
  QI tr s -> oof (fst (run perm fuel s ops)) = false ->
  QI (tr ++ events_of ops (snd (run perm fuel s ops))) (fst (run perm fuel s ops)).
Proof.
  intros HQ. apply (run_invariant perm fuel (fun tr s => oof s = false -> QI tr s)); [| |auto].
  - intros tr' s' x ds H Ho. apply process_QI; [|exact Ho].
    exact (H (oof_false_of_mono (fun t => t) _ s' (process_oof_mono perm fuel s' x ds) Ho)).
  - intros tr' s1 s2 x H E Ho. apply (take_QI tr' s1); [|exact E].
    apply H. rewrite <- (take_oof s1), E. exact Ho.
Qed.

End RunLive.
