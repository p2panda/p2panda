(** C19 received_exact: every operation the peer sent is forwarded to the application exactly
    once, in the order sent -- the de-duplication buffer never drops a first occurrence, given
    that operation ids are pairwise distinct over what the two sides send. *)
From Coq Require Import List Arith NArith Bool Lia.
From PV Require Import Lib.ListFacts Model.Dedup Model.LogSync Proofs.Dedup Proofs.LogSyncC20
  Proofs.LogSyncOps Proofs.LogSyncNode Proofs.LogSyncJoint.
Import ListNotations.

Definition id3 (x : N * N * row) : N := r_id (snd x).
Definition ids (ms : list msg) : list N := map id3 (ops_of ms).

Lemma ids_app m1 m2 : ids (m1 ++ m2) = ids m1 ++ ids m2.
Proof. unfold ids. rewrite ops_of_app, map_app. reflexivity. Qed.

Lemma ev_ops_app o1 o2 : ev_ops (o1 ++ o2) = ev_ops o1 ++ ev_ops o2.
Proof.
  induction o1 as [|o o1 IH]; [reflexivity|].
  destruct o as [m|e|e]; cbn [app ev_ops]; try exact IH. destruct e; cbn [ev_ops]; rewrite ?IH; reflexivity.
Qed.

Lemma insert_new b x : ~ In x (items b) -> snd (insert b x) = true.
Proof.
  intros H. rewrite insert_fresh. destruct (memN x (items b)) eqn:M; [|reflexivity].
  destruct H. apply memN_true_in. exact M.
Qed.

Lemma dd_insert_all_items ws : forall d y,
  In y (items (dd_insert_all d ws)) -> In y (map r_id ws) \/ In y (items d).
Proof.
  unfold dd_insert_all. induction ws as [|w ws IH]; intros d y H; [right; exact H|].
  cbn [fold_left] in H. destruct (IH _ _ H) as [H1|H1]; [left; right; exact H1|].
  destruct (insert_only _ _ _ H1) as [H2| ->]; [right; exact H2|left; left; reflexivity].
Qed.

Lemma ev_ops_op_msgs a l ws : ev_ops (op_msgs a l ws) = [].
Proof. induction ws; [reflexivity|exact IHws]. Qed.

Lemma ids_op_msgs a l ws : ids (sent (op_msgs a l ws)) = map r_id ws.
Proof.
  rewrite sent_op_msgs. unfold ids. induction ws as [|w ws IH]; [reflexivity|]. cbn. f_equal. exact IH.
Qed.

(** Events are the consumed operations; the buffer knows only ids seen or sent.  Sent ones too:
    the code inserts the hash of every operation it sends ([dedup.insert(hash)] after
    [sink.send]), which is why ids have to be distinct across the two scripts and not only
    within one. *)
Definition dinv (n : node) : Prop :=
  ev_ops (n_hist n) = ops_of (n_cons n) /\
  (forall x, In x (items (dd (n_st n))) -> In x (ids (n_cons n)) \/ In x (ids (sent (n_hist n)))).

Lemma move_tick_dd s i s' o r :
  move s i s' o -> i = Tick r ->
  ev_ops o = [] /\ (forall x, In x (items (dd s')) -> In x (items (dd s)) \/ In x (ids (sent o))).
Proof.
  destruct 1; intros Ei; try discriminate Ei; cbn [dd failed set_ph]; auto.
  (* MRange *) split; [apply ev_ops_op_msgs|]. intros x H.
  rewrite ids_op_msgs. destruct (dd_insert_all_items _ _ _ H); auto.
Qed.

Lemma dinv_tick r n n' : dinv n -> node_tick true r n = Some n' -> dinv n'.
Proof.
  intros [E D] T. apply node_tick_some in T. destruct T as [_ [_ [_ ->]]].
  destruct (move_tick_dd _ _ _ _ r (step_move (n_st n) (Tick r)) eq_refl) as [Ev Dd].
  cbn [step] in Ev, Dd. unfold dinv. cbn [n_st n_hist n_cons]. rewrite ev_ops_app, Ev, app_nil_r. split; [exact E|].
  intros x H. rewrite sent_app, ids_app. destruct (Dd x H) as [H1|H1].
  - destruct (D x H1); [left; assumption|right; apply in_or_app; left; assumption].
  - right. apply in_or_app. right. exact H1.
Qed.

Lemma move_read_dd s i s' o m :
  move s i s' o -> i = Recv m -> can_recv s = true -> ph s' <> PFailed ->
  (forall a l w, m = Operation a l w -> ~ In (r_id w) (items (dd s))) ->
  ev_ops o = ops_of [m] /\
  (forall x, In x (items (dd s')) -> In x (items (dd s)) \/ In x (ids [m])).
Proof.
  destruct 1; intros Ei Cr NF Fresh; try discriminate Ei.
  - (* MIdle *) rewrite (H0 m Ei) in Cr. discriminate.
  - (* MFail *) destruct NF. reflexivity.
  - (* MGotHave *) injection Ei as <-. cbn; auto.
  - (* MGotPreSync *) injection Ei as <-. cbn; auto.
  - (* MGotNothing *) injection Ei as <-. cbn; auto.
  - (* MGotOp *) injection Ei as <-. cbn [dd].
    rewrite (insert_new d (r_id w) (Fresh a l w eq_refl)). split; [reflexivity|].
    intros x H. destruct (insert_only _ _ _ H) as [H1| ->]; [left; exact H1|right; left; reflexivity].
  - (* MGotDone *) injection Ei as <-. cbn; auto.
Qed.

Lemma dinv_recv n m p k :
  dinv n -> can_recv (n_st n) = true -> ph (fst (recv (n_st n) m)) <> PFailed ->
  (forall a l w, m = Operation a l w ->
                 ~ In (r_id w) (ids (n_cons n)) /\ ~ In (r_id w) (ids (sent (n_hist n)))) ->
  dinv (mknode (fst (recv (n_st n) m)) p k (n_hist n ++ snd (recv (n_st n) m)) (n_cons n ++ [m])).
Proof.
  intros [E D] Cr NF Fresh.
  destruct (move_read_dd _ _ _ _ m (step_move (n_st n) (Recv m)) eq_refl Cr NF) as [Ev Dd].
  { intros a l w Em H. destruct (Fresh a l w Em). destruct (D _ H); contradiction. }
  cbn [step] in Ev, Dd. unfold dinv. cbn [n_st n_hist n_cons].
  rewrite ev_ops_app, sent_app, recv_sends_nothing, app_nil_r, ops_of_app, ids_app, E, Ev.
  split; [reflexivity|].
  intros x H. destruct (Dd x H) as [H1|H1].
  - destruct (D x H1); [left; apply in_or_app; left|right]; assumption.
  - left. apply in_or_app. right. exact H1.
Qed.

Lemma fresh_next (sc_rcv sc_snd cons sent_so_far suf suf' : list msg) a l w :
  NoDup (ids sc_snd) -> (forall x, In x (ids sc_rcv) -> In x (ids sc_snd) -> False) ->
  cons ++ Operation a l w :: suf = sc_snd -> sent_so_far ++ suf' = sc_rcv ->
  ~ In (r_id w) (ids cons) /\ ~ In (r_id w) (ids sent_so_far).
Proof.
  intros ND Dj <- <-. rewrite ids_app in ND. split; intros Hin.
  - apply NoDup_remove_2 in ND. apply ND, in_or_app. left. exact Hin.
  - apply (Dj (r_id w)); rewrite ids_app; apply in_or_app; [left; exact Hin|right; left; reflexivity].
Qed.

Lemma dinv_deliver cbuf r_x logs_x h_y r_y logs_y h_x (x y : node) m q p k :
  let sc_x := script r_x logs_x h_y in
  let sc_y := script r_y logs_y h_x in
  NoDup (ids sc_x) -> (forall i, In i (ids sc_y) -> In i (ids sc_x) -> False) ->
  h_x = local_heights r_x logs_x ->
  ninv r_x logs_x h_y sc_y x -> ninv r_y logs_y h_x sc_x y ->
  link cbuf x y (m :: q) -> dinv y -> can_recv (n_st y) = true ->
  dinv (mknode (fst (recv (n_st y) m)) p k (n_hist y ++ snd (recv (n_st y) m)) (n_cons y ++ [m])).
Proof.
  intros sc_x sc_y ND Dj Hx Nx Ny Lk Dy Cr.
  destruct (link_next cbuf _ _ _ _ x y m q Nx Lk) as [sx Px].
  destruct (ninv_sent_prefix _ _ _ _ y Ny) as [sy Py].
  apply (dinv_recv y m p k Dy Cr).
  - (* reading the next message of the peer's script is never fatal *)
    assert (Hd : exists rest, sc_x = Have h_x :: rest) by (rewrite Hx; apply script_head).
    exact (ninv_not_failed _ _ _ _ _
             (ninv_recv r_y logs_y h_x sc_x (script_complete _ _ _) Hd y m sx p k Ny Cr Px)).
  - intros a l w ->. exact (fresh_next sc_y sc_x _ _ sx sy a l w ND Dj Px Py).
Qed.

Section Recv.
  Variables rA rB : replica.
  Variables logsA logsB : list (N * list N).
  Variable cbuf : option nat.

  Notation scA := (scA rA rB logsA logsB).
  Notation scB := (scB rA rB logsA logsB).
  Notation hA := (hA rA logsA).
  Notation hB := (hB rB logsB).
  Notation J := (J rA rB logsA logsB cbuf).

  Hypothesis ids_distinct : NoDup (ids scA ++ ids scB).

  Definition D2 (y : sys) : Prop := dinv (sa y) /\ dinv (sb y).

  Lemma dinv_unpark n : dinv n -> dinv (unpark n).
  Proof. intros H. exact H. Qed.

  Lemma D2_step y l y' : J y -> D2 y -> sys_step true cbuf rA rB y l = Some y' -> D2 y'.
  Proof.
    intros [NA [NB [LAB LBA]]] [DA DB]. revert l y'.
    apply NoDup_app_iff in ids_distinct. destruct ids_distinct as [ND1 [ND2 Dj]].
    apply sys_step_cases; intros n'.
    - intros T. split; [exact (dinv_tick _ _ _ DA T)|exact DB].
    - intros T. split; [exact DA|exact (dinv_tick _ _ _ DB T)].
    - intros q' T. apply node_push_some in T. destruct T as [m [p [_ [_ [_ ->]]]]]. split; assumption.
    - intros q' T. apply node_push_some in T. destruct T as [m [p [_ [_ [_ ->]]]]]. split; assumption.
    - intros q' T. apply node_recv_some in T. destruct T as [m [Q [_ [_ [Cr ->]]]]].
      rewrite Q in LBA. split; [|exact (dinv_unpark _ DB)].
      exact (dinv_deliver cbuf rB logsB hA rA logsA hB (sb y) (sa y) m q' _ _ ND2 Dj eq_refl NB NA LBA DA Cr).
    - intros q' T. apply node_recv_some in T. destruct T as [m [Q [_ [_ [Cr ->]]]]].
      rewrite Q in LAB. split; [exact (dinv_unpark _ DA)|].
      exact (dinv_deliver cbuf rA logsA hB rB logsB hA (sa y) (sb y) m q' _ _ ND1
               (fun i HB HA => Dj i HA HB) eq_refl NA NB LAB DB Cr).
  Qed.

  (** At the end of any run: each side sent its script, and the application of each side was
      handed exactly the operations of the other side's script, once each, in order. *)
  Theorem received_exact cap ls y :
    exec true cbuf rA rB (sys0 logsA logsB cap) ls = Some y -> finished y = true ->
    sent (n_hist (sa y)) = scA /\ sent (n_hist (sb y)) = scB /\
    ev_ops (n_hist (sa y)) = ops_of scB /\ ev_ops (n_hist (sb y)) = ops_of scA.
  Proof.
    intros E F.
    assert (D0 : D2 (sys0 logsA logsB cap)) by (split; split; cbn; auto; intros x []).
    destruct (exec_invariant true cbuf rA rB (fun y => J y /\ D2 y)) with (2 := conj (J_init rA rB logsA logsB cbuf cap) D0) (3 := E)
      as [Jy [[EA _] [EB _]]].
    { intros y0 l y1 [Jy0 Dy0] S. split; [exact (J_step _ _ _ _ _ _ _ _ Jy0 S)|exact (D2_step _ _ _ Jy0 Dy0 S)]. }
    destruct (joint_final rA rB logsA logsB cbuf y Jy F) as [SA [CA [SB CB]]].
    rewrite EA, EB, CA, CB. auto.
  Qed.
End Recv.
