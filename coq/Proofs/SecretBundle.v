(** The secret bundle (C36).  [find_latest] is a left fold whose accumulator, read as a secret, is
    the lexicographic maximum of what it has seen; hence it depends on the set of entries only.
    The state operations are then followed through their effect on that set. *)
From Coq Require Import List NArith Bool Lia Permutation.
From PV Require Import Model.SecretBundle.
Import ListNotations.
Local Open Scope N_scope.

Lemma lex_le_trans a b c : lex_le a b -> lex_le b c -> lex_le a c.
Proof. unfold lex_le. lia. Qed.

Lemma lex_le_refl a : lex_le a a.
Proof. right. split; [reflexivity|apply N.le_refl]. Qed.

Lemma lex_lt_le a b : lex_lt a b -> lex_le a b.
Proof. unfold lex_lt, lex_le. lia. Qed.

Lemma lex_le_antisym a b : lex_le a b -> lex_le b a -> a = b.
Proof.
  destruct a as [i t], b as [j u]. unfold lex_le, sid, sts. cbn [fst snd]. intros H1 H2.
  f_equal; lia.
Qed.

(** The loop's accumulator read as a secret; before the first update it is the all-zero one
    ([unwrap_or([0; 32])], timestamp 0). *)
Definition top (acc : N * option N) : secret :=
  (match snd acc with Some i => i | None => 0 end, fst acc).

Lemma fl_step_cases acc i t :
  (lex_lt (top acc) (i, t) /\ fl_step acc (i, t) = (t, Some i)) \/
  (lex_le (i, t) (top acc) /\ fl_step acc (i, t) = acc).
Proof.
  destruct acc as [lt lid]. unfold fl_step, top, lex_lt, lex_le, sid, sts. cbn [fst snd].
  destruct (N.ltb_spec lt t); [left; split; [lia|reflexivity]|].
  destruct (N.eqb_spec lt t); [|right; split; [lia|reflexivity]].
  destruct (N.ltb_spec (match lid with Some c => c | None => 0 end) i);
    [left|right]; (split; [lia|reflexivity]).
Qed.

Definition FInv (seen : list secret) (acc : N * option N) : Prop :=
  (forall e, In e seen -> lex_le e (top acc)) /\
  match snd acc with None => fst acc = 0 | Some i => In (i, fst acc) seen end.

Lemma fl_step_inv seen acc s : FInv seen acc -> FInv (seen ++ [s]) (fl_step acc s).
Proof.
  intros [HM HI]. destruct s as [i t].
  destruct (fl_step_cases acc i t) as [[L ->]|[L ->]]; split.
  - intros e He. apply in_app_or in He. destruct He as [He|[<-|[]]].
    + exact (lex_le_trans _ _ _ (HM e He) (lex_lt_le _ _ L)).
    + apply lex_le_refl.
  - apply in_or_app. right. now left.
  - intros e He. apply in_app_or in He. destruct He as [He|[<-|[]]]; [exact (HM e He)|exact L].
  - destruct (snd acc); [apply in_or_app; now left|exact HI].
Qed.

Lemma find_latest_inv l : FInv l (fold_left fl_step l (0, None)).
Proof.
  induction l as [|s l IH] using rev_ind.
  - split; [intros e []|reflexivity].
  - rewrite fold_left_app. now apply fl_step_inv.
Qed.

Theorem latest_is_lex_max l i :
  find_latest l = Some i ->
  exists t, In (i, t) l /\ forall e, In e l -> lex_le e (i, t).
Proof.
  unfold find_latest. intros H. destruct (find_latest_inv l) as [HM HI]. unfold top in HM.
  rewrite H in *. eauto.
Qed.

Definition zero_secret (s : secret) : Prop := sid s = 0 /\ sts s = 0.

(** [None] only for a bundle whose every entry is the all-zero id with timestamp 0 (a SHA-256
    preimage of 0^32); in particular for the empty bundle. *)
Theorem latest_none l : find_latest l = None -> forall e, In e l -> zero_secret e.
Proof.
  unfold find_latest. intros H e He. destruct (find_latest_inv l) as [HM HI]. unfold top in HM.
  rewrite H in *. specialize (HM e He). rewrite HI in HM. unfold lex_le in HM. cbn [sid sts fst snd] in HM.
  unfold zero_secret. lia.
Qed.

Lemma all_zero_none l : (forall e, In e l -> zero_secret e) -> find_latest l = None.
Proof.
  unfold find_latest. intros HZ.
  assert (G : forall l acc, (forall e, In e l -> zero_secret e) -> acc = (0, None) ->
              fold_left fl_step l acc = (0, None)).
  { clear. induction l as [|s l IH]; intros acc HZ ->; [reflexivity|].
    cbn [fold_left]. apply IH; [intros e He; apply HZ; now right|].
    destruct (HZ s (or_introl eq_refl)) as [Hi Ht]. unfold fl_step. rewrite Hi, Ht. reflexivity. }
  now rewrite (G l (0, None) HZ eq_refl).
Qed.

Lemma find_latest_max l e :
  In e l -> (forall x, In x l -> lex_le x e) -> 0 < sts e -> find_latest l = Some (sid e).
Proof.
  intros He HM Ht. destruct (find_latest l) as [j|] eqn:E.
  - apply latest_is_lex_max in E. destruct E as (u & HI & HM').
    now rewrite <- (lex_le_antisym _ _ (HM _ HI) (HM' _ He)).
  - destruct (latest_none _ E _ He) as [_ Hz]. lia.
Qed.

Theorem find_latest_set_ext l l' :
  (forall e, In e l <-> In e l') -> find_latest l = find_latest l'.
Proof.
  intros HS.
  destruct (find_latest l) as [i|] eqn:E1; destruct (find_latest l') as [j|] eqn:E2.
  - apply latest_is_lex_max in E1. apply latest_is_lex_max in E2.
    destruct E1 as (t & I1 & M1). destruct E2 as (u & I2 & M2).
    assert (H : (i, t) = (j, u)).
    { apply lex_le_antisym; [apply M2, HS, I1|apply M1, HS, I2]. }
    now injection H as -> _.
  - pose proof (latest_none _ E2) as Z.
    rewrite all_zero_none in E1; [discriminate|]. intros e He. apply Z, HS, He.
  - pose proof (latest_none _ E1) as Z.
    rewrite all_zero_none in E2; [discriminate|]. intros e He. apply Z, HS, He.
  - reflexivity.
Qed.

Theorem find_latest_perm l l' : Permutation l l' -> find_latest l = find_latest l'.
Proof.
  intros HP. apply find_latest_set_ext. intros e. split; intros H.
  - eapply Permutation_in; eauto.
  - eapply Permutation_in; [apply Permutation_sym|]; eauto.
Qed.

Lemma In_remove_id m i e : In e (remove_id m i) <-> In e m /\ sid e <> i.
Proof.
  unfold remove_id. rewrite filter_In. split; intros [H1 H2]; split; auto.
  - intros E. rewrite E, N.eqb_refl in H2. discriminate.
  - apply negb_true_iff. now apply N.eqb_neq.
Qed.

Lemma In_map_insert m s e : In e (map_insert m s) <-> e = s \/ (In e m /\ sid e <> sid s).
Proof.
  unfold map_insert. cbn [In]. rewrite In_remove_id. split; intros [H|H]; auto.
Qed.

Lemma NoDup_remove_id m i : NoDup (map sid m) -> NoDup (map sid (remove_id m i)).
Proof.
  induction m as [|e m IH]; intros H; [constructor|].
  cbn [map] in H. inversion H as [|? ? Hn Hd]; subst.
  unfold remove_id. cbn [filter]. fold (remove_id m i).
  destruct (negb (sid e =? i)); [|auto].
  cbn [map]. constructor; [|auto].
  intros HI. apply Hn. apply in_map_iff in HI. destruct HI as (x & Ex & Hx).
  apply In_remove_id in Hx. apply in_map_iff. exists x. tauto.
Qed.

Lemma NoDup_map_insert m s : NoDup (map sid m) -> NoDup (map sid (map_insert m s)).
Proof.
  intros H. unfold map_insert. cbn [map]. constructor; [|now apply NoDup_remove_id].
  intros HI. apply in_map_iff in HI. destruct HI as (x & Ex & Hx).
  apply In_remove_id in Hx. tauto.
Qed.

Lemma NoDup_fold_insert : forall l m, NoDup (map sid m) -> NoDup (map sid (fold_left map_insert l m)).
Proof.
  induction l as [|s l IH]; intros m H; [exact H|]. cbn [fold_left]. apply IH. now apply NoDup_map_insert.
Qed.

Lemma lookup_In m : NoDup (map sid m) -> forall e, In e m -> lookup m (sid e) = Some e.
Proof.
  induction m as [|x m IH]; intros H e He; [destruct He|].
  cbn [map] in H. inversion H as [|? ? Hn Hd]; subst. cbn [lookup].
  destruct He as [->|He]; [now rewrite N.eqb_refl|].
  destruct (N.eqb_spec (sid x) (sid e)) as [E|E].
  - exfalso. apply Hn. rewrite E. now apply in_map.
  - now apply IH.
Qed.

(** [L] stands for everything that is ever inserted: consistency is asked of it once, and each
    step only needs its entries to lie in [L]. *)
Lemma content_insert L m s :
  consistent L -> (forall e, In e m -> In e L) -> In s L ->
  forall e, In e (map_insert m s) <-> e = s \/ In e m.
Proof.
  intros HC Hm Hs e. rewrite In_map_insert. split.
  - intros [H|[H _]]; auto.
  - intros [H|H]; [auto|].
    destruct (N.eq_dec (sid e) (sid s)) as [E|E]; [left; apply HC; auto|right; auto].
Qed.

Lemma content_fold_insert L : consistent L -> forall l m,
  (forall e, In e l -> In e L) -> (forall e, In e m -> In e L) ->
  forall e, In e (fold_left map_insert l m) <-> In e l \/ In e m.
Proof.
  intros HC. induction l as [|s l IH]; intros m Hl Hm e.
  - cbn [fold_left In]. tauto.
  - cbn [fold_left]. rewrite IH.
    + rewrite (content_insert L m s HC Hm (Hl s (or_introl eq_refl))). cbn [In]. split.
      * intros [H|[H|H]]; auto.
      * intros [[H|H]|H]; auto.
    + intros x Hx. apply Hl. now right.
    + intros x Hx. apply (content_insert L m s HC Hm (Hl s (or_introl eq_refl))) in Hx.
      destruct Hx as [->|Hx]; [apply Hl; now left|now apply Hm].
Qed.

Lemma consistent_NoDup l : NoDup (map sid l) -> consistent l.
Proof.
  intros Hn a b Ha Hb E. pose proof (lookup_In l Hn a Ha) as La.
  rewrite E, (lookup_In l Hn b Hb) in La. now injection La.
Qed.

Lemma consistent_incl l l' : (forall x, In x l' -> In x l) -> consistent l -> consistent l'.
Proof. intros Hi HC a b Ha Hb. apply HC; auto. Qed.

Section StateProofs.
  Variable order : list secret -> list secret.
  (** The only thing assumed about the hash map's iteration: it visits exactly the entries. *)
  Hypothesis order_set : forall l e, In e (order l) <-> In e l.

  Definition wf (y : state) : Prop :=
    latest y = find_latest (order (secrets y)) /\ NoDup (map sid (secrets y)).

  Lemma wf_mk m : NoDup (map sid m) -> wf (mk order m).
  Proof. intros H. split; [reflexivity|exact H]. Qed.

  Lemma order_nil : order [] = [].
  Proof.
    destruct (order []) as [|e l] eqn:E; [reflexivity|].
    exfalso. apply (order_set [] e). rewrite E. now left.
  Qed.

  Lemma wf_init : wf init.
  Proof. split; [cbn [init latest secrets]; now rewrite order_nil|constructor]. Qed.

  Lemma wf_insert y s : wf y -> wf (insert order y s).
  Proof. intros [_ H]. apply wf_mk. now apply NoDup_map_insert. Qed.

  Lemma wf_remove y i : wf y -> wf (fst (remove order y i)).
  Proof. intros [_ H]. apply wf_mk. now apply NoDup_remove_id. Qed.

  Lemma wf_extend y o : wf y -> wf (extend order y o).
  Proof. intros [_ H]. apply wf_mk. now apply NoDup_fold_insert. Qed.

  Lemma wf_from l : wf (from_secrets order l).
  Proof. apply wf_mk. apply NoDup_fold_insert. constructor. Qed.

  Lemma wf_eval e : wf (eval order e).
  Proof.
    induction e as [|l|b IH s|a IHa b IHb]; cbn [eval].
    - apply wf_init. - apply wf_from. - now apply wf_insert. - now apply wf_extend.
  Qed.

  Theorem state_latest_is_lex_max y i :
    wf y -> latest y = Some i ->
    exists t, In (i, t) (secrets y) /\ forall e, In e (secrets y) -> lex_le e (i, t).
  Proof.
    intros [HL _] H. rewrite HL in H. apply latest_is_lex_max in H. destruct H as (t & HI & HM).
    exists t. split; [now apply order_set|]. intros e He. apply HM. now apply order_set.
  Qed.

  Theorem state_latest_none y :
    wf y -> latest y = None -> forall e, In e (secrets y) -> zero_secret e.
  Proof.
    intros [HL _] H e He. rewrite HL in H. eapply latest_none; eauto. now apply order_set.
  Qed.

  Lemma ts_le_latest y e : wf y -> In e (secrets y) -> sts e <= latest_ts y.
  Proof.
    intros Hw He. unfold latest_ts. destruct (latest y) as [i|] eqn:E.
    - destruct (state_latest_is_lex_max y i Hw E) as (t & HI & HM).
      destruct Hw as [_ Hn]. rewrite (lookup_In _ Hn (i, t) HI : lookup (secrets y) i = Some (i, t)).
      specialize (HM e He). unfold lex_le, sts, sid in *. cbn [fst snd] in *. lia.
    - destruct (state_latest_none y Hw E e He) as [_ ->]. lia.
  Qed.

  Theorem generated_strictly_later y now :
    latest_ts y < U64MAX ->
    exists t, generate_ts y now = Some t /\ latest_ts y < t /\ now <= t.
  Proof.
    intros H. unfold generate_ts.
    destruct (N.leb_spec now (latest_ts y)) as [L|L].
    - destruct (N.eqb_spec (latest_ts y) U64MAX) as [E|E]; [lia|].
      eexists. split; [reflexivity|lia].
    - eexists. split; [reflexivity|lia].
  Qed.

  Theorem generate_overflow y now :
    latest_ts y = U64MAX -> now <= U64MAX -> generate_ts y now = None.
  Proof.
    intros H Hn. unfold generate_ts. rewrite H.
    destruct (N.leb_spec now U64MAX) as [L|L]; [|lia]. now rewrite N.eqb_refl.
  Qed.

  (** [i] ranges over every id the random bytes may hash to that is not already there. *)
  Theorem generated_becomes_latest y now t i :
    wf y -> generate_ts y now = Some t -> ~ In i (map sid (secrets y)) ->
    (forall e, In e (secrets y) -> lex_lt e (i, t)) /\
    latest (insert order y (i, t)) = Some i.
  Proof.
    intros Hw Hg Hi.
    assert (Ht : latest_ts y < t).
    { unfold generate_ts in Hg. destruct (N.leb_spec now (latest_ts y)) as [L|L].
      - destruct (latest_ts y =? U64MAX); [discriminate|]. injection Hg as <-. lia.
      - injection Hg as <-. exact L. }
    assert (Hlt : forall e, In e (secrets y) -> lex_lt e (i, t)).
    { intros e He. pose proof (ts_le_latest y e Hw He). left. unfold sts in *. cbn [snd]. lia. }
    split; [exact Hlt|]. apply (find_latest_max _ (i, t)).
    - apply order_set, In_map_insert. now left.
    - intros x Hx. apply (proj1 (order_set _ _)), In_map_insert in Hx.
      destruct Hx as [->|[Hx _]]; [apply lex_le_refl|apply lex_lt_le, Hlt, Hx].
    - cbn [sts snd]. lia.
  Qed.

  Lemma content_eval L : consistent L -> forall e,
    (forall x, In x (leaves e) -> In x L) ->
    forall x, In x (secrets (eval order e)) <-> In x (leaves e).
  Proof.
    intros HC. induction e as [|l|b IH s|a IHa b IHb]; intros HL x; cbn [eval leaves] in *.
    - cbn [init secrets]. tauto.
    - cbn [from_secrets mk secrets]. rewrite (content_fold_insert L HC l []); auto.
      + cbn [In]. tauto.
      + intros ? [].
    - cbn [insert mk secrets].
      assert (Hb : forall x, In x (leaves b) -> In x L) by (intros; apply HL, in_or_app; auto).
      assert (Hs : In s L) by (apply HL, in_or_app; right; now left).
      rewrite (content_insert L _ s HC); auto.
      + rewrite IH by exact Hb. rewrite in_app_iff. cbn [In]. split; [intros [->|H]|intros [H|[->|[]]]]; auto.
      + intros e He. apply Hb. now apply IH.
    - cbn [extend mk secrets].
      assert (Ha : forall x, In x (leaves a) -> In x L) by (intros; apply HL, in_or_app; auto).
      assert (Hb : forall x, In x (leaves b) -> In x L) by (intros; apply HL, in_or_app; auto).
      rewrite (content_fold_insert L HC).
      + rewrite order_set, IHa, IHb by assumption. rewrite in_app_iff. tauto.
      + intros e He. apply (proj1 (order_set _ _)) in He. apply Hb. now apply IHb.
      + intros e He. apply Ha. now apply IHa.
  Qed.
End StateProofs.

Theorem operations_keep_wf :
  forall order, (forall l e, In e (order l) <-> In e l) ->
    wf order init /\
    (forall l, wf order (from_secrets order l)) /\
    (forall y s, wf order y -> wf order (insert order y s)) /\
    (forall y o, wf order y -> wf order (extend order y o)) /\
    (forall y i, wf order y -> wf order (fst (remove order y i))).
Proof.
  intros order H. split; [exact (wf_init order H)|]. split; [exact (wf_from order)|].
  split; [exact (wf_insert order)|]. split; [exact (wf_extend order)|exact (wf_remove order)].
Qed.

(** The latest secret does not depend on the order of insertions, on how bundles were merged,
    nor on the hash maps' iteration orders — for a *set* of secrets (one timestamp per id). *)
Theorem order_independent (order1 order2 : list secret -> list secret) :
  (forall l e, In e (order1 l) <-> In e l) -> (forall l e, In e (order2 l) <-> In e l) ->
  forall e1 e2,
    consistent (leaves e1 ++ leaves e2) ->
    (forall x, In x (leaves e1) <-> In x (leaves e2)) ->
    latest (eval order1 e1) = latest (eval order2 e2).
Proof.
  intros H1 H2 e1 e2 HC HS.
  rewrite (proj1 (wf_eval order1 H1 e1)), (proj1 (wf_eval order2 H2 e2)).
  apply find_latest_set_ext. intros x.
  rewrite H1, H2.
  rewrite (content_eval order1 H1 _ HC e1) by (intros; apply in_or_app; auto).
  rewrite (content_eval order2 H2 _ HC e2) by (intros; apply in_or_app; auto).
  apply HS.
Qed.

(** Without that proviso the claim fails: [HashMap::insert] replaces, so when the same key bytes
    arrive with two different timestamps the *last* one inserted survives. *)
Theorem order_dependent_on_conflicting_duplicates :
  exists e1 e2,
    (forall x, In x (leaves e1) <-> In x (leaves e2)) /\
    latest (eval (fun l => l) e1) <> latest (eval (fun l => l) e2).
Proof.
  exists (BIns (BIns (BIns BInit (1, 5)) (2, 3)) (1, 1)),
         (BIns (BIns (BIns BInit (1, 1)) (2, 3)) (1, 5)).
  split.
  - intros x. cbn [leaves app In]. tauto.
  - vm_compute. discriminate.
Qed.

Example order_independent_example :
  let e1 := BExt (BIns (BIns BInit (7, 234)) (9, 234)) (BFrom [(3, 345); (4, 123)]) in
  let e2 := BIns (BExt (BFrom [(4, 123); (9, 234)]) (BIns BInit (3, 345))) (7, 234) in
  consistent (leaves e1 ++ leaves e2) /\ (forall x, In x (leaves e1) <-> In x (leaves e2)) /\
  latest (eval (fun l => l) e1) = Some 3 /\ latest (eval (@rev secret) e2) = Some 3.
Proof.
  cbv zeta. split; [|split; [|split; vm_compute; reflexivity]].
  - apply (consistent_incl [(7, 234); (9, 234); (3, 345); (4, 123)]).
    + intros x. cbn [leaves app In]. tauto.
    + apply consistent_NoDup. cbn [map sid fst].
      repeat (constructor; [cbn [In]; intuition discriminate|]). constructor.
  - intros x. cbn [leaves app In]. tauto.
Qed.

Example generated_example :
  let y := from_secrets (fun l => l) [(7, 234); (9, 5000)] in
  latest_ts y = 5000 /\ generate_ts y 1000 = Some 5001 /\
  generate_ts y 6000 = Some 6000.
Proof. vm_compute. auto. Qed.

Example generate_overflow_example :
  let y := from_secrets (fun l => l) [(7, U64MAX)] in
  latest_ts y = U64MAX /\ generate_ts y 1700000000 = None.
Proof. vm_compute. auto. Qed.
