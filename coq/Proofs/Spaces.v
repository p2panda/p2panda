(** C39: the dispatch of the spaces manager and its replay guards (Model/Spaces.v).  What [process]
    can do to a state is said once, by two case lemmas.  A message is [settled] when its guard,
    and every check in front of the guard, will answer the same again; [settled] is kept by
    [extends], and every step extends the state: hence quiet re-delivery at any later position. *)
From Coq Require Import List NArith Bool.
From PV Require Import Model.Spaces.
Import ListNotations.

Lemma memN_head x l : memN x (x :: l) = true.
Proof. unfold memN. cbn [existsb]. rewrite N.eqb_refl. reflexivity. Qed.

Lemma memN_cons x y l : memN x l = true -> memN x (y :: l) = true.
Proof. unfold memN. cbn [existsb]. intros ->. apply orb_true_r. Qed.

Lemma eqb2_refl x : eqb2 x x = true.
Proof. unfold eqb2. rewrite !N.eqb_refl. reflexivity. Qed.

Lemma mem2_head x l : mem2 x (x :: l) = true.
Proof. unfold mem2. cbn [existsb]. rewrite eqb2_refl. reflexivity. Qed.

Lemma mem2_cons x y l : mem2 x l = true -> mem2 x (y :: l) = true.
Proof. unfold mem2. cbn [existsb]. intros ->. apply orb_true_r. Qed.

Lemma mem2_app_r x a b : mem2 x b = true -> mem2 x (a ++ b) = true.
Proof. unfold mem2. rewrite existsb_app. intros ->. apply orb_true_r. Qed.

Lemma lookup_app_some {A} k (l l' : list (N * A)) v : lookup k l = Some v -> lookup k (l ++ l') = Some v.
Proof.
  induction l as [|[k' v'] l IH]; cbn [lookup app]; [discriminate|].
  destruct (N.eqb k k'); auto.
Qed.

Lemma lookup_app_none {A} k (l : list (N * A)) v : lookup k l = None -> lookup k (l ++ [(k, v)]) = Some v.
Proof.
  induction l as [|[k' v'] l IH]; cbn [lookup app].
  - rewrite N.eqb_refl. reflexivity.
  - destruct (N.eqb k k'); [discriminate|auto].
Qed.

Theorem route_total : forall k, route k <> TPanic.
Proof. intros [b|a|sp r|sp|sp]; unfold route, route_cfg; cbn; try discriminate. destruct a; cbn; discriminate. Qed.

Theorem route_asis_refuted : exists k, route_asis k = TPanic.
Proof. exists (KSpaceUpdate 0). reflexivity. Qed.

(** Every kind but [SpaceUpdate] was routed to a handler before the repair as well. *)
Theorem route_asis_outside_known : forall k, (forall sp, k <> KSpaceUpdate sp) -> route_asis k <> TPanic.
Proof. intros [b|a|sp r|sp|sp] Hk; unfold route_asis, route_cfg; cbn; try discriminate. exfalso; eapply Hk; reflexivity. Qed.

Section GuardProofs.
  Variables (St M K Ev : Type).
  Variable key : M -> K.
  Variable keqb : K -> K -> bool.
  Hypothesis keqb_refl : forall k, keqb k k = true.
  Variable handler : list K -> St -> M -> option (St * list Ev).

  Notation gstep := (gstep St M K Ev key keqb handler).
  Notation grun := (grun St M K Ev key keqb handler).

  Definition gseen (s : list K * St) (m : M) : bool := existsb (keqb (key m)) (fst s).

  Lemma gstep_seen_quiet s m : gseen s m = true -> gstep s m = (s, []).
  Proof. unfold gseen, Spaces.gstep. intros ->. reflexivity. Qed.

  Lemma gstep_monotone s m m' : gseen s m = true -> gseen (fst (gstep s m')) m = true.
  Proof.
    unfold gseen, Spaces.gstep. intros Hs.
    destruct (existsb (keqb (key m')) (fst s)); [exact Hs|].
    destruct (handler (fst s) (snd s) m') as [[s' ev]|]; [|exact Hs].
    cbn [fst existsb]. rewrite Hs. apply orb_true_r.
  Qed.

  (** Processing a message a second time right away: no change, no events — for ANY handler. *)
  Theorem guarded_idempotent s m : gstep (fst (gstep s m)) m = (fst (gstep s m), []).
  Proof.
    unfold Spaces.gstep at 2 3.
    destruct (existsb (keqb (key m)) (fst s)) eqn:Hs.
    - cbn [fst]. unfold Spaces.gstep. rewrite Hs. reflexivity.
    - destruct (handler (fst s) (snd s) m) as [[s' ev]|] eqn:Hh.
      + cbn [fst]. apply gstep_seen_quiet. unfold gseen. cbn [fst existsb]. rewrite keqb_refl. reflexivity.
      + cbn [fst]. unfold Spaces.gstep. rewrite Hs, Hh. reflexivity.
  Qed.

  Lemma grun_monotone ms : forall s m, gseen s m = true -> gseen (grun s ms) m = true.
  Proof. induction ms as [|m' ms IH]; intros s m Hs; cbn [Spaces.grun]; [exact Hs|]. apply IH, gstep_monotone, Hs. Qed.

  (** ... and at any later position: once recorded, re-delivery after an arbitrary history of
      other deliveries changes nothing and emits nothing. *)
  Theorem guarded_idempotent_later s m ms :
    gseen s m = true -> gstep (grun s ms) m = (grun s ms, []).
  Proof. intros Hs. apply gstep_seen_quiet, grun_monotone, Hs. Qed.

  Lemma gstep_records s m s' ev : handler (fst s) (snd s) m = Some (s', ev) -> gseen (fst (gstep s m)) m = true.
  Proof.
    intros Hh. unfold gseen, Spaces.gstep.
    destruct (existsb (keqb (key m)) (fst s)) eqn:Hs; [exact Hs|].
    rewrite Hh. cbn [fst existsb]. rewrite keqb_refl. reflexivity.
  Qed.
End GuardProofs.

Section ManagerProofs.
  Variable S : Type.
  Variable E : Type.
  Variable H : handlers S E.

  Notation process c := (process S E c H).
  Notation deliver c := (deliver S E c H).
  Notation local := (local S).
  Notation step c := (step S E c H).
  Notation run c := (run S E c H).

  (** Every branch of the dispatch either hands the state back as it was, or persists the result
      of a handler that succeeded. *)
  Lemma process_cases c st m (P : mstate S * outcome E -> Prop) :
    (forall o, P (st, o)) -> (forall s' ev, P (record st m s', Done ev)) -> P (process c st m).
  Proof.
    intros HS HR. unfold Spaces.process, run_handler. destruct (mkind m) as [b|a|sp r|sp|sp].
    - destruct (kb_guard c && _); auto. destruct (negb (kb_valid H m)); auto. destruct (h_identity H st m); auto.
    - destruct (promote_rejects c && _); auto. destruct (memN (mid m) (auth_ops st)); auto.
      destruct (h_group H st m) as [[]|]; destruct (negb (supported a)); auto.
    - destruct (lookup r (stored st)) as [[]|]; auto.
      destruct (promote_rejects c && _); auto. destruct (memN sp (spaces st) || _); auto.
      destruct (memN sp (spaces st) && _); auto.
      destruct (h_member H st m) as [[]|]; destruct (negb (supported a)); auto.
    - destruct (su_rejects c); auto.
    - destruct (memN sp (spaces st)); auto. destruct (app_guard c && _); auto. destruct (h_app H st m) as [[]|]; auto.
  Qed.

  Lemma record_stored (st : mstate S) m s' : stored (record st m s') = stored st.
  Proof. unfold record. destruct (mkind m); reflexivity. Qed.

  Lemma process_not_done_unchanged c st m :
    (forall ev, snd (process c st m) <> Done ev) -> fst (process c st m) = st.
  Proof.
    apply process_cases; [reflexivity|]. intros s' ev Hn. now destruct (Hn ev).
  Qed.

  Lemma process_stored c st m : stored (fst (process c st m)) = stored st.
  Proof. apply process_cases; [reflexivity|]. intros. apply record_stored. Qed.

  (** Monotonicity of everything the guards and the dispatch preconditions read. *)
  Record extends (a b : mstate S) : Prop := {
    ex_auth : forall x, memN x (auth_ops a) = true -> memN x (auth_ops b) = true;
    ex_seen : forall x, mem2 x (space_seen a) = true -> mem2 x (space_seen b) = true;
    ex_spaces : forall x, memN x (spaces a) = true -> memN x (spaces b) = true;
    ex_stored : forall k v, lookup k (stored a) = Some v -> lookup k (stored b) = Some v;
    ex_bundles : forall x, mem2 x (bundles a) = true -> mem2 x (bundles b) = true
  }.

  Lemma extends_refl a : extends a a.
  Proof. constructor; auto. Qed.

  Lemma extends_trans a b c : extends a b -> extends b c -> extends a c.
  Proof. intros [] []. constructor; auto. Qed.

  (** [lookup] returns the first entry and [store_msg] appends only an id that is absent (INSERT OR
      IGNORE), so what is stored under an id never changes. *)
  Lemma store_extends st m : extends st (store_msg st m).
  Proof.
    unfold store_msg. destruct (lookup (mid m) (stored st)) eqn:Hl; [apply extends_refl|].
    constructor; cbn [auth_ops space_seen spaces stored bundles]; auto.
    intros k v Hk. apply lookup_app_some, Hk.
  Qed.

  Lemma record_extends st m s' : extends st (record st m s').
  Proof.
    unfold record. destruct (mkind m) as [b|a|sp r|sp|sp]; try apply extends_refl;
      constructor; cbn [auth_ops space_seen spaces stored bundles]; auto using mem2_cons, memN_cons, mem2_app_r.
    all: intros x Hx; destruct (memN sp (spaces st)); auto using memN_cons.
  Qed.

  Lemma process_extends c st m : extends st (fst (process c st m)).
  Proof.
    apply process_cases; intros; [apply extends_refl|apply record_extends].
  Qed.

  Lemma deliver_extends c st m : extends st (fst (deliver c st m)).
  Proof. unfold Spaces.deliver. eapply extends_trans; [apply store_extends|apply process_extends]. Qed.

  Lemma local_extends st m : extends st (local st m).
  Proof. unfold Spaces.local. eapply extends_trans; [apply store_extends|apply record_extends]. Qed.

  Lemma step_extends c st o : extends st (fst (step c st o)).
  Proof.
    destruct o as [m|m]; cbn [Spaces.step].
    - pose proof (deliver_extends c st m) as He. destruct (Spaces.deliver S E c H st m). exact He.
    - apply local_extends.
  Qed.

  Lemma run_extends c ops : forall st, extends st (run c st ops).
  Proof.
    induction ops as [|o ops IH]; intros st; cbn [Spaces.run]; [apply extends_refl|].
    eapply extends_trans; [apply step_extends|apply IH].
  Qed.

  (** "Already processed": what a successful processing (or local authorship) leaves behind.
      Besides the guard's key this is every check [process] makes before it reaches the guard
      (the action supported, the referenced auth message stored, the space known): the guard
      answers only behind them, and they, like the key, are kept by [extends]. *)
  Definition settled (st : mstate S) (m : msg) : Prop :=
    (exists v, lookup (mid m) (stored st) = Some v) /\
    match mkind m with
    | KKeyBundle b => mem2 (mauthor m, b) (bundles st) = true
    | KAuth a => supported a = true /\ memN (mid m) (auth_ops st) = true
    | KSpaceMembership sp ref =>
        exists a, lookup ref (stored st) = Some (SAuth a) /\ supported a = true /\
                  memN sp (spaces st) = true /\ mem2 (sp, mid m) (space_seen st) = true
    | KSpaceUpdate _ => False
    | KApplication sp => memN sp (spaces st) = true /\ mem2 (sp, mid m) (space_seen st) = true
    end.

  Lemma settled_extends a b m : settled a m -> extends a b -> settled b m.
  Proof.
    intros [[v Hv] Hk] [Ha Hs Hsp Hst Hb]. split; [exists v; auto|].
    destruct (mkind m) as [bb|ac|sp r|sp|sp]; auto.
    - destruct Hk; auto.
    - destruct Hk as (ac & ? & ? & ? & ?). exists ac. auto.
    - destruct Hk; auto.
  Qed.

  Lemma settled_quiet st m : settled st m -> deliver fixed st m = (st, Done []).
  Proof.
    intros [[v Hv] Hk]. unfold Spaces.deliver, store_msg. rewrite Hv.
    unfold Spaces.process. cbn [su_rejects promote_rejects kb_guard app_guard fixed].
    destruct (mkind m) as [bb|ac|sp r|sp|sp].
    - rewrite Hk. reflexivity.
    - destruct Hk as [-> ->]. reflexivity.
    - destruct Hk as (ac & -> & -> & -> & ->). reflexivity.
    - contradiction.
    - destruct Hk as [-> ->]. reflexivity.
  Qed.

  (** What prior state each message kind needs in order to be processed at all (everything else
      is an error of the dispatch, before any handler runs). *)
  Definition dispatchable (st : mstate S) (m : msg) : Prop :=
    match mkind m with
    | KKeyBundle _ => True
    | KAuth a => supported a = true
    | KSpaceMembership sp ref =>
        exists a, lookup ref (stored st) = Some (SAuth a) /\ supported a = true /\
                  (memN sp (spaces st) = true \/ is_create a = true)
    | KSpaceUpdate _ => False
    | KApplication sp => memN sp (spaces st) = true
    end.

  (** The replay guard of the message's handler finds its key. *)
  Definition guarded (st : mstate S) (m : msg) : Prop :=
    match mkind m with
    | KKeyBundle b => mem2 (mauthor m, b) (bundles st) = true
    | KAuth _ => memN (mid m) (auth_ops st) = true
    | KSpaceMembership sp _ | KApplication sp =>
        memN sp (spaces st) = true /\ mem2 (sp, mid m) (space_seen st) = true
    | KSpaceUpdate _ => False
    end.

  (** Three ways out: an error; the preconditions hold, the guard hits and nothing happens; the
      preconditions hold, the handler succeeds and its result is persisted. *)
  Lemma process_fixed_cases st m (P : mstate S * outcome E -> Prop) :
    (forall e, P (st, Err e)) ->
    (dispatchable st m -> guarded st m -> P (st, Done [])) ->
    (dispatchable st m -> forall s' ev, P (record st m s', Done ev)) ->
    P (process fixed st m).
  Proof.
    unfold guarded, dispatchable, Spaces.process, run_handler.
    cbn [su_rejects promote_rejects kb_guard app_guard fixed andb].
    intros HE HG HR. destruct (mkind m) as [b|a|sp r|sp|sp]; auto.
    - destruct (mem2 (mauthor m, b) (bundles st)); auto.
      destruct (negb (kb_valid H m)); auto. destruct (h_identity H st m); auto.
    - destruct (supported a); cbn [negb]; auto.
      destruct (memN (mid m) (auth_ops st)); auto. destruct (h_group H st m) as [[s' ev]|]; auto.
    - destruct (lookup r (stored st)) as [[|a| | |]|]; auto.
      destruct (supported a) eqn:Hs; cbn [negb]; auto.
      destruct (memN sp (spaces st)); cbn [orb andb].
      + destruct (mem2 (sp, mid m) (space_seen st)); eauto 8.
        destruct (h_member H st m) as [[s' ev]|]; eauto 8.
      + destruct (is_create a) eqn:Hc; auto. destruct (h_member H st m) as [[s' ev]|]; eauto 8.
    - destruct (memN sp (spaces st)); auto.
      destruct (mem2 (sp, mid m) (space_seen st)); auto. destruct (h_app H st m) as [[s' ev]|]; auto.
  Qed.

  (** Totality: with the repaired dispatch no message kind or content reaches a panic, whatever
      the state and whatever the handlers answer. *)
  Theorem process_total : forall st m, snd (process fixed st m) <> Panic.
  Proof. intros st m. apply process_fixed_cases; discriminate. Qed.

  Theorem deliver_total : forall st m, snd (deliver fixed st m) <> Panic.
  Proof. intros. apply process_total. Qed.

  Theorem dispatch_preconditions st m ev : snd (process fixed st m) = Done ev -> dispatchable st m.
  Proof.
    apply process_fixed_cases; auto. discriminate.
  Qed.

  Lemma memN_spaces_after sp (l : list N) : memN sp (if memN sp l then l else sp :: l) = true.
  Proof. destruct (memN sp l) eqn:Hm; [exact Hm|apply memN_head]. Qed.

  Lemma record_settled st m s' :
    (exists v, lookup (mid m) (stored st) = Some v) ->
    match mkind m with
    | KKeyBundle _ | KApplication _ => True
    | KAuth a => supported a = true
    | KSpaceMembership _ ref => exists a, lookup ref (stored st) = Some (SAuth a) /\ supported a = true
    | KSpaceUpdate _ => False
    end -> settled (record st m s') m.
  Proof.
    intros Hv Hk. unfold settled. rewrite record_stored. split; [exact Hv|]. unfold record.
    destruct (mkind m) as [bb|ac|sp r|sp|sp]; cbn [auth_ops space_seen spaces stored bundles].
    - apply mem2_head.
    - split; [exact Hk|apply memN_head].
    - destruct Hk as (a & Hl & Hs). exists a. repeat split; auto. apply memN_spaces_after. apply mem2_head.
    - contradiction.
    - split; [apply memN_spaces_after|apply mem2_head].
  Qed.

  Lemma done_settled st m ev :
    (exists v, lookup (mid m) (stored st) = Some v) ->
    snd (process fixed st m) = Done ev -> settled (fst (process fixed st m)) m.
  Proof.
    intros Hst. apply process_fixed_cases; [discriminate| |]; unfold dispatchable; intros Hd.
    - intros Hg _. split; [exact Hst|]. unfold guarded in Hg.
      destruct (mkind m); auto. destruct Hd as (a & ? & ? & _), Hg. eauto 6.
    - intros s' ev' _. apply record_settled; [exact Hst|].
      destruct (mkind m); auto. destruct Hd as (a & ? & ? & _). eauto.
  Qed.

  Lemma store_present (st : mstate S) m : exists v, lookup (mid m) (stored (store_msg st m)) = Some v.
  Proof.
    unfold store_msg. destruct (lookup (mid m) (stored st)) eqn:Hl.
    - eexists; exact Hl.
    - cbn [stored]. eexists. apply lookup_app_none, Hl.
  Qed.

  Lemma store_msg_idem (st : mstate S) m : store_msg (store_msg st m) m = store_msg st m.
  Proof. destruct (store_present st m) as [v Hv]. unfold store_msg at 1. now rewrite Hv. Qed.

  Lemma deliver_done_settled st m ev :
    snd (deliver fixed st m) = Done ev -> settled (fst (deliver fixed st m)) m.
  Proof. unfold Spaces.deliver. apply done_settled, store_present. Qed.

  Lemma local_settled st m :
    match mkind m with
    | KKeyBundle _ => True
    | KAuth a => supported a = true
    | KSpaceMembership _ ref => exists a, lookup ref (stored (store_msg st m)) = Some (SAuth a) /\ supported a = true
    | KSpaceUpdate _ => False
    | KApplication _ => True
    end -> settled (local st m) m.
  Proof. apply record_settled, store_present. Qed.

  (** Second processing right after the first: the state does not change and nothing is emitted;
      the result is success (if the first was) or the same error. *)
  Theorem deliver_twice st m :
    deliver fixed (fst (deliver fixed st m)) m = (fst (deliver fixed st m), quiet (snd (deliver fixed st m))).
  Proof.
    destruct (snd (deliver fixed st m)) as [|e|ev] eqn:Ho.
    - exfalso. eapply deliver_total, Ho.
    - (* error: nothing but the stored operation changed, so the same thing happens again *)
      unfold Spaces.deliver in *.
      assert (Hf : fst (process fixed (store_msg st m) m) = store_msg st m)
        by (apply process_not_done_unchanged; intros ev; rewrite Ho; discriminate).
      rewrite Hf, store_msg_idem, (surjective_pairing (Spaces.process S E fixed H (store_msg st m) m)), Hf, Ho.
      reflexivity.
    - apply settled_quiet. eapply deliver_done_settled, Ho.
  Qed.

  (** Any later state whatsoever, reached by steps that only add to the guard sets (local API
      calls included), is quiet for a settled message. *)
  Theorem settled_later st st' m : settled st m -> extends st st' -> deliver fixed st' m = (st', Done []).
  Proof. intros Hs He. apply settled_quiet. eapply settled_extends; eauto. Qed.

  (** In particular at any later position: after any history of further deliveries and local
      operations, re-delivering a message that was processed successfully returns success
      without events and leaves the state as it is. *)
  Theorem redelivery_later st m ev ops :
    snd (deliver fixed st m) = Done ev ->
    let st2 := run fixed (fst (deliver fixed st m)) ops in
    deliver fixed st2 m = (st2, Done []).
  Proof. intros Hd st2. eapply settled_later; [eapply deliver_done_settled, Hd|apply run_extends]. Qed.

  (** The same for a peer's own messages (authored locally, then received back). *)
  Theorem own_message_later st m ops :
    settled (local st m) m ->
    let st2 := run fixed (local st m) ops in
    deliver fixed st2 m = (st2, Done []).
  Proof. intros Hs st2. eapply settled_later; [exact Hs|apply run_extends]. Qed.

  Definition any_handlers (s : S) (e : E) : handlers S E :=
    {| kb_valid := fun _ => true; ev_kb := fun _ => e; h_identity := fun _ _ => Some s;
       h_group := fun _ _ => Some (s, []); h_member := fun _ _ => Some (s, []); h_app := fun _ _ => Some (s, [e]) |}.
End ManagerProofs.

(** The code as found ([asis]) violates the property. *)
Definition H0 : handlers unit N := any_handlers unit N tt 7%N.

Definition kbm : msg := {| mid := 1; mauthor := 2; mkind := KKeyBundle 3; mdeps := []; mhok := true |}.
Definition sum : msg := {| mid := 1; mauthor := 2; mkind := KSpaceUpdate 3; mdeps := []; mhok := true |}.
Definition crm : msg := {| mid := 1; mauthor := 2; mkind := KAuth ACreate; mdeps := []; mhok := true |}.
Definition ptm : msg := {| mid := 2; mauthor := 2; mkind := KSpaceMembership 5 1; mdeps := []; mhok := true |}.
Definition apm : msg := {| mid := 3; mauthor := 2; mkind := KApplication 5; mdeps := [2%N]; mhok := true |}.
Definition prm : msg := {| mid := 4; mauthor := 2; mkind := KAuth APromote; mdeps := [1%N]; mhok := true |}.

Theorem asis_space_update_panics :
  exists st m, snd (deliver unit N asis H0 st m) = Panic.
Proof. exists (init tt), sum. reflexivity. Qed.

Theorem asis_promote_panics :
  exists st m, snd (deliver unit N asis H0 st m) = Panic.
Proof. exists (init tt), prm. reflexivity. Qed.

Theorem asis_key_bundle_reemits :
  exists st m, snd (deliver unit N asis H0 (fst (deliver unit N asis H0 st m)) m) = Done [7%N].
Proof. exists (init tt), kbm. reflexivity. Qed.

Theorem asis_application_reemits :
  exists st m, snd (deliver unit N asis H0 (fst (deliver unit N asis H0 st m)) m) = Done [7%N].
Proof.
  exists (run unit N asis H0 (init tt) [ODeliver crm; ODeliver ptm]), apm. vm_compute. reflexivity.
Qed.

(** Non-vacuity of the main theorems: a successful first delivery exists (so the hypothesis of
    [redelivery_later] is satisfiable) and it is not a no-op. *)
Example redelivery_hyp_sat :
  snd (deliver unit N fixed H0 (run unit N fixed H0 (init tt) [ODeliver crm; ODeliver ptm]) apm) = Done [7%N].
Proof. vm_compute. reflexivity. Qed.

Example guard_nonvacuous :
  gstep unit N N N (fun m => m) N.eqb (fun _ _ m => Some (tt, [m])) ([], tt) 5%N = (([5%N], tt), [5%N]).
Proof. reflexivity. Qed.
