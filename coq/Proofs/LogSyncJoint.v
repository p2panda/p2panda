(** Two honest sides joined by two FIFO queues (unbounded, or [futures::mpsc::channel(c)]):
    the invariant of every reachable state of the joint system, for every schedule. *)
From Coq Require Import List Arith NArith Bool Lia.
From PV Require Import Model.LogSync Proofs.LogSyncC20 Proofs.LogSyncNode.
Import ListNotations.

Lemma sys_step_cases fixed cbuf ra rb y (P : sys -> Prop) :
  (forall n', node_tick fixed ra (sa y) = Some n' -> P (mksys n' (sb y) (qab y) (qba y))) ->
  (forall n', node_tick fixed rb (sb y) = Some n' -> P (mksys (sa y) n' (qab y) (qba y))) ->
  (forall n' q', node_push cbuf (sa y) (qab y) = Some (n', q') -> P (mksys n' (sb y) q' (qba y))) ->
  (forall n' q', node_push cbuf (sb y) (qba y) = Some (n', q') -> P (mksys (sa y) n' (qab y) q')) ->
  (forall n' q', node_recv (sa y) (qba y) = Some (n', q') -> P (mksys n' (unpark (sb y)) (qab y) q')) ->
  (forall n' q', node_recv (sb y) (qab y) = Some (n', q') -> P (mksys (unpark (sa y)) n' q' (qba y))) ->
  forall l y', sys_step fixed cbuf ra rb y l = Some y' -> P y'.
Proof.
  intros TA TB UA UB RA RB l y' St. destruct l; cbn [sys_step] in St.
  - destruct (node_tick fixed ra (sa y)) as [n'|]; [|discriminate]. injection St as <-. exact (TA n' eq_refl).
  - destruct (node_tick fixed rb (sb y)) as [n'|]; [|discriminate]. injection St as <-. exact (TB n' eq_refl).
  - destruct (node_push cbuf (sa y) (qab y)) as [[n' q']|]; [|discriminate]. injection St as <-. exact (UA n' q' eq_refl).
  - destruct (node_push cbuf (sb y) (qba y)) as [[n' q']|]; [|discriminate]. injection St as <-. exact (UB n' q' eq_refl).
  - destruct (node_recv (sa y) (qba y)) as [[n' q']|]; [|discriminate]. injection St as <-. exact (RA n' q' eq_refl).
  - destruct (node_recv (sb y) (qab y)) as [[n' q']|]; [|discriminate]. injection St as <-. exact (RB n' q' eq_refl).
Qed.

Lemma exec_invariant fixed cbuf ra rb (P : sys -> Prop) :
  (forall y l y', P y -> sys_step fixed cbuf ra rb y l = Some y' -> P y') ->
  forall ls y y', P y -> exec fixed cbuf ra rb y ls = Some y' -> P y'.
Proof.
  intros Step. induction ls as [|l ls IH]; intros y y' Py E; cbn [exec] in E.
  - injection E as <-. exact Py.
  - destruct (sys_step fixed cbuf ra rb y l) as [y1|] eqn:S; [|discriminate].
    exact (IH y1 y' (Step y l y1 Py S) E).
Qed.

Lemma option_map_none {A B} (f : A -> B) o : option_map f o = None -> o = None.
Proof. destruct o; [discriminate|reflexivity]. Qed.

Lemma deadlocked_true fixed cbuf ra rb y :
  deadlocked fixed cbuf ra rb y = true <->
  finished y = false /\
  (node_tick fixed ra (sa y) = None /\ node_push cbuf (sa y) (qab y) = None /\ node_recv (sa y) (qba y) = None) /\
  (node_tick fixed rb (sb y) = None /\ node_push cbuf (sb y) (qba y) = None /\ node_recv (sb y) (qab y) = None).
Proof.
  unfold deadlocked. split.
  - intros D. apply andb_true_iff in D. destruct D as [NF All]. apply negb_true_iff in NF.
    split; [exact NF|].
    assert (No : forall l, In l all_labels -> sys_step fixed cbuf ra rb y l = None).
    { intros l Hl. apply (proj1 (forallb_forall _ _) All) in Hl. unfold enabled in Hl.
      destruct (sys_step fixed cbuf ra rb y l); [discriminate|reflexivity]. }
    repeat split; eapply option_map_none.
    + apply (No LTickA). cbn. tauto.
    + apply (No LPushA). cbn. tauto.
    + apply (No LDelivA). cbn. tauto.
    + apply (No LTickB). cbn. tauto.
    + apply (No LPushB). cbn. tauto.
    + apply (No LDelivB). cbn. tauto.
  - intros [NF [[TA [UA RA]] [TB [UB RB]]]]. rewrite NF. unfold all_labels, enabled. cbn [forallb sys_step].
    rewrite TA, UA, RA, TB, UB, RB. reflexivity.
Qed.

Lemma not_deadlocked fixed cbuf ra rb y :
  deadlocked fixed cbuf ra rb y = false ->
  finished y = true \/ exists l, enabled fixed cbuf ra rb y l = true.
Proof.
  unfold deadlocked. intros D. apply andb_false_iff in D. destruct D as [D|D].
  - left. apply negb_false_iff in D. exact D.
  - right. unfold all_labels in D. cbn [forallb] in D.
    repeat (apply andb_false_iff in D; destruct D as [D|D];
            [apply negb_false_iff in D; eexists; exact D|]).
    discriminate.
Qed.

Section Joint.
  Variables rA rB : replica.
  Variables logsA logsB : list (N * list N).
  Variable cbuf : option nat.

  Definition hA : heights := local_heights rA logsA.
  Definition hB : heights := local_heights rB logsB.
  Definition scA : list msg := script rA logsA hB.
  Definition scB : list msg := script rB logsB hA.

  Definition ninvA : node -> Prop := ninv rA logsA hB scB.
  Definition ninvB : node -> Prop := ninv rB logsB hA scA.

  Lemma scA_word : complete_word scA. Proof. apply script_complete. Qed.
  Lemma scB_word : complete_word scB. Proof. apply script_complete. Qed.
  Lemma scA_head : exists rest, scA = Have hA :: rest. Proof. apply script_head. Qed.
  Lemma scB_head : exists rest, scB = Have hB :: rest. Proof. apply script_head. Qed.

  (** Parking is what a full queue does to its sender; [deadlock_free] needs no more of it. *)
  Definition parked_ok (n : node) (q : list msg) : Prop :=
    n_parked n = true -> match cbuf with Some c => c < length q | None => False end.

  Definition link (x y : node) (q : list msg) : Prop :=
    sent (n_hist x) = n_cons y ++ q ++ n_pend x /\ parked_ok x q.

  Definition J (y : sys) : Prop :=
    ninvA (sa y) /\ ninvB (sb y) /\ link (sa y) (sb y) (qab y) /\ link (sb y) (sa y) (qba y).

  Lemma J_init cap : J (sys0 logsA logsB cap).
  Proof.
    unfold J, sys0. cbn [sa sb qab qba].
    split; [apply ninv_init|]. split; [apply ninv_init|].
    split; (split; [reflexivity|discriminate]).
  Qed.

  Lemma link_tick x y q st' out :
    n_pend x = [] -> link x y q ->
    link (mknode st' (sent out) false (n_hist x ++ out) (n_cons x)) y q.
  Proof.
    intros Pe [L _]. split; [|discriminate]. cbn [n_hist n_pend].
    rewrite sent_app, L, Pe, app_nil_r, app_assoc. reflexivity.
  Qed.

  Lemma link_push x y q m p :
    n_pend x = m :: p -> link x y q ->
    link (mknode (n_st x) p (parks cbuf (q ++ [m])) (n_hist x) (n_cons x)) y (q ++ [m]).
  Proof.
    intros Pe [L _]. split; cbn [n_hist n_pend n_parked].
    - rewrite L, Pe, <- !app_assoc. reflexivity.
    - unfold parked_ok, parks. cbn [n_parked]. destruct cbuf as [c|]; [|discriminate].
      intros H. apply Nat.ltb_lt in H. exact H.
  Qed.

  Lemma link_deliv x y m q st' hist' :
    link x y (m :: q) -> link (unpark x) (mknode st' [] false hist' (n_cons y ++ [m])) q.
  Proof.
    intros [L _]. split; [|discriminate]. cbn [unpark n_hist n_pend n_cons].
    rewrite L, <- app_assoc. reflexivity.
  Qed.

  (** The reader's own outgoing link: reading sends nothing. *)
  Lemma link_recv y x q m st' :
    n_pend y = [] -> link y x q ->
    link (mknode st' [] false (n_hist y ++ snd (recv (n_st y) m)) (n_cons y ++ [m])) (unpark x) q.
  Proof.
    intros Pe [L _]. split; [|discriminate]. cbn [unpark n_hist n_pend n_cons].
    rewrite sent_app, recv_sends_nothing, app_nil_r, L, Pe. reflexivity.
  Qed.

  Lemma link_next r logs h_peer sc_peer x y m q :
    ninv r logs h_peer sc_peer x -> link x y (m :: q) ->
    exists suf, n_cons y ++ m :: suf = script r logs h_peer.
  Proof.
    intros NI [L _]. destruct (ninv_sent_prefix r logs h_peer sc_peer x NI) as [suf0 Pf].
    exists (q ++ n_pend x ++ suf0). rewrite <- Pf, L, <- !app_assoc. reflexivity.
  Qed.

  Lemma J_step y l y' : J y -> sys_step true cbuf rA rB y l = Some y' -> J y'.
  Proof.
    intros [NA [NB [LAB LBA]]]. revert l y'. apply sys_step_cases; intros n'.
    - (* TickA *)
      intros T. apply node_tick_some in T. destruct T as [Pe [_ [En ->]]].
      split; [exact (ninv_tick rA logsA hB scB _ _ _ NA)|]. split; [exact NB|].
      split; [exact (link_tick _ _ _ _ _ Pe LAB)|exact LBA].
    - (* TickB *)
      intros T. apply node_tick_some in T. destruct T as [Pe [_ [En ->]]].
      split; [exact NA|]. split; [exact (ninv_tick rB logsB hA scA _ _ _ NB)|].
      split; [exact LAB|exact (link_tick _ _ _ _ _ Pe LBA)].
    - (* PushA *)
      intros q' T. apply node_push_some in T. destruct T as [m [p [Pe [_ [-> ->]]]]].
      split; [exact NA|]. split; [exact NB|]. split; [exact (link_push _ _ _ _ _ Pe LAB)|exact LBA].
    - (* PushB *)
      intros q' T. apply node_push_some in T. destruct T as [m [p [Pe [_ [-> ->]]]]].
      split; [exact NA|]. split; [exact NB|]. split; [exact LAB|exact (link_push _ _ _ _ _ Pe LBA)].
    - (* DelivA: A consumes the head of qba *)
      intros q' T. apply node_recv_some in T. destruct T as [m [Q [Pe [_ [Cr ->]]]]]. rewrite Q in LBA.
      destruct (link_next rB logsB hA scA _ _ _ _ NB LBA) as [suf E].
      split; [exact (ninv_recv rA logsA hB scB scB_word scB_head _ _ _ _ _ NA Cr E)|]. split; [exact NB|].
      split; [exact (link_recv _ _ _ _ _ Pe LAB)|exact (link_deliv _ _ _ _ _ _ LBA)].
    - (* DelivB *)
      intros q' T. apply node_recv_some in T. destruct T as [m [Q [Pe [_ [Cr ->]]]]]. rewrite Q in LAB.
      destruct (link_next rA logsA hB scB _ _ _ _ NA LAB) as [suf E].
      split; [exact NA|]. split; [exact (ninv_recv rB logsB hA scA scA_word scA_head _ _ _ _ _ NB Cr E)|].
      split; [exact (link_deliv _ _ _ _ _ _ LAB)|exact (link_recv _ _ _ _ _ Pe LBA)].
  Qed.

  Theorem J_reachable cap ls y :
    exec true cbuf rA rB (sys0 logsA logsB cap) ls = Some y -> J y.
  Proof. apply (exec_invariant true cbuf rA rB J J_step). apply J_init. Qed.

  Theorem joint_final y :
    J y -> finished y = true ->
    sent (n_hist (sa y)) = scA /\ n_cons (sa y) = scB /\
    sent (n_hist (sb y)) = scB /\ n_cons (sb y) = scA.
  Proof.
    intros [NA [NB _]] F. unfold finished, is_end in F. apply andb_true_iff in F. destruct F as [FA FB].
    destruct (ph (n_st (sa y))) eqn:PA; try discriminate.
    destruct (ph (n_st (sb y))) eqn:PB; try discriminate.
    destruct (end_facts rA logsA hB scB (sa y) NA PA) as [SA CA].
    destruct (end_facts rB logsB hA scA (sb y) NB PB) as [SB CB].
    auto.
  Qed.
End Joint.
