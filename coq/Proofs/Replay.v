(** Proofs about the replay model (Model/Replay.v, C15): the restart function characterised for
    ANY durable state, then the state after ANY trace, crashes anywhere, through two invariants
    of [dstep] ([assoc_ok], [cursor_ok]). *)
From Coq Require Import List NArith Bool Lia Sorted.
From PV Require Import Model.Replay.
Import ListNotations.

Lemma key_eqb_eq (a b : key) : key_eqb a b = true <-> a = b.
Proof.
  destruct a as [a1 a2], b as [b1 b2]. unfold key_eqb. cbn [fst snd].
  rewrite andb_true_iff, !N.eqb_eq. split.
  - intros [-> ->]. reflexivity.
  - intros H. injection H as -> ->. split; reflexivity.
Qed.

Lemma key_eqb_refl (a : key) : key_eqb a a = true.
Proof. apply key_eqb_eq. reflexivity. Qed.

Lemma key_eqb_neq (a b : key) : key_eqb a b = false <-> a <> b.
Proof.
  split.
  - intros H E. apply key_eqb_eq in E. congruence.
  - intros H. destruct (key_eqb a b) eqn:E; [apply key_eqb_eq in E; contradiction | reflexivity].
Qed.

Lemma key_eqb_sym (a b : key) : key_eqb a b = key_eqb b a.
Proof.
  destruct (key_eqb a b) eqn:E.
  - apply key_eqb_eq in E. subst. symmetry. apply key_eqb_refl.
  - symmetry. apply key_eqb_neq. apply key_eqb_neq in E. congruence.
Qed.

Lemma in_cons_eq {A : Type} (x k : A) (s : list A) : In x (k :: s) <-> x = k \/ In x s.
Proof. cbn [In]. split; (intros [H|H]; [left; symmetry; exact H|right; exact H]). Qed.

(* The step of a sorted insertion that goes past the head [y]. *)
Lemma in_cons_skip {A : Type} (x k y : A) (l l' : list A) :
  (In x l' <-> x = k \/ In x l) -> (In x (y :: l') <-> x = k \/ In x (y :: l)).
Proof.
  intros [H1 H2]. cbn [In]. split.
  - intros [E|Hx]; [right; left; exact E|].
    destruct (H1 Hx) as [E|Hl]; [left; exact E|right; right; exact Hl].
  - intros [E|[E|Hl]]; [right; apply H2; left; exact E|left; exact E|right; apply H2; right; exact Hl].
Qed.

Lemma set_insert_In (k x : key) (s : list key) : In x (set_insert k s) <-> x = k \/ In x s.
Proof.
  induction s as [|y s IH]; cbn [set_insert]; [apply in_cons_eq|].
  destruct (key_eqb k y) eqn:E.
  - apply key_eqb_eq in E. subst y. split; [intros H; right; exact H|].
    intros [->|H]; [left; reflexivity|exact H].
  - destruct (key_ltb k y); [apply in_cons_eq|apply in_cons_skip, IH].
Qed.

Lemma lookup_upsert (k k' : key) (v : N) (m : list (key * N)) :
  lookup k (upsert k' v m) = if key_eqb k k' then Some v else lookup k m.
Proof.
  induction m as [|[k0 v0] m IH]; cbn [upsert lookup].
  - destruct (key_eqb k k'); reflexivity.
  - destruct (key_eqb k' k0) eqn:E0; cbn [lookup].
    + apply key_eqb_eq in E0. subst k0. destruct (key_eqb k k'); reflexivity.
    + destruct (key_eqb k k0) eqn:E1.
      * apply key_eqb_eq in E1. subst k0. rewrite key_eqb_sym, E0. reflexivity.
      * exact IH.
Qed.

Definition omax (o : option N) (n : N) : N := match o with None => n | Some m => N.max m n end.

Lemma lookup_advance (k k' : key) (n : N) (c : list (key * N)) :
  lookup k (advance k' n c) = if key_eqb k k' then Some (omax (lookup k' c) n) else lookup k c.
Proof.
  unfold advance. destruct (lookup k' c) as [cur|] eqn:L; cbn [omax].
  - destruct (N.leb_spec n cur) as [H|H].
    + destruct (key_eqb k k') eqn:E; [|reflexivity].
      apply key_eqb_eq in E. subst k'. rewrite L. f_equal. lia.
    + rewrite lookup_upsert. destruct (key_eqb k k'); [|reflexivity]. f_equal. lia.
  - rewrite lookup_upsert. reflexivity.
Qed.

Definition mstep (k : key) (acc : option N) (r : row) : option N :=
  if key_eqb (rkey r) k then Some (omax acc (r_seq r)) else acc.

Lemma max_seq_fold (rs : list row) (k : key) : max_seq rs k = fold_left (mstep k) rs None.
Proof.
  unfold max_seq. generalize (@None N). induction rs as [|r rs IH]; intro acc; [reflexivity|].
  cbn [fold_left]. rewrite IH. unfold mstep, omax. destruct (key_eqb (rkey r) k); [|reflexivity].
  destruct acc; reflexivity.
Qed.

Lemma max_seq_snoc (rs : list row) (r : row) (k : key) :
  max_seq (rs ++ [r]) k = mstep k (max_seq rs k) r.
Proof. rewrite !max_seq_fold, fold_left_app. reflexivity. Qed.

Lemma max_seq_nil (k : key) : max_seq [] k = None.
Proof. reflexivity. Qed.

Lemma max_seq_spec (rs : list row) (k : key) :
  match max_seq rs k with
  | Some h => (exists a, In a rs /\ rkey a = k /\ r_seq a = h) /\
              forall r, In r rs -> rkey r = k -> (r_seq r <= h)%N
  | None => forall r, In r rs -> rkey r <> k
  end.
Proof.
  induction rs as [|x rs IH] using rev_ind; [intros r []|].
  rewrite max_seq_snoc. unfold mstep. destruct (key_eqb (rkey x) k) eqn:Ek.
  - apply key_eqb_eq in Ek. split.
    + destruct (max_seq rs k) as [m|]; cbn [omax].
      * destruct IH as [(a & Ha & Hk & Hs) _].
        destruct (N.max_spec m (r_seq x)) as [[_ ->]|[_ ->]].
        -- exists x. split; [apply in_or_app; right; left; reflexivity|]. split; [exact Ek|reflexivity].
        -- exists a. split; [apply in_or_app; left; exact Ha|]. split; assumption.
      * exists x. split; [apply in_or_app; right; left; reflexivity|]. split; [exact Ek|reflexivity].
    + intros r Hin Hk. apply in_app_or in Hin. destruct Hin as [Hin|[<-|[]]].
      * destruct (max_seq rs k) as [m|]; cbn [omax]; [|destruct (IH r Hin Hk)].
        destruct IH as [_ IH]. specialize (IH r Hin Hk). lia.
      * destruct (max_seq rs k); cbn [omax]; lia.
  - apply key_eqb_neq in Ek. destruct (max_seq rs k) as [m|].
    + destruct IH as [(a & Ha & Hk) IH]. split.
      * exists a. split; [apply in_or_app; left; exact Ha|exact Hk].
      * intros r Hin Hk'. apply in_app_or in Hin. destruct Hin as [Hin|[<-|[]]]; [apply IH; assumption|contradiction].
    + intros r Hin. apply in_app_or in Hin. destruct Hin as [Hin|[<-|[]]]; [apply IH, Hin|exact Ek].
Qed.

Lemma max_seq_some (rs : list row) (r : row) :
  In r rs -> exists h, max_seq rs (rkey r) = Some h /\ (r_seq r <= h)%N.
Proof.
  intros Hin. pose proof (max_seq_spec rs (rkey r)) as H. destruct (max_seq rs (rkey r)) as [h|].
  - exists h. split; [reflexivity|]. apply H; [exact Hin|reflexivity].
  - destruct (H r Hin eq_refl).
Qed.

Lemma covered_by_spec (acked : list row) (r : row) :
  covered_by acked r = true <->
  exists a, In a acked /\ rkey a = rkey r /\ (r_seq r <= r_seq a)%N.
Proof.
  unfold covered_by. rewrite existsb_exists. split; intros (a & Hin & H); exists a; (split; [exact Hin|]).
  - apply andb_true_iff in H. rewrite key_eqb_eq, N.leb_le in H. exact H.
  - apply andb_true_iff. rewrite key_eqb_eq, N.leb_le. exact H.
Qed.

Lemma covered_by_max (acked : list row) (r : row) :
  covered_by acked r =
  match max_seq acked (rkey r) with Some c => N.leb (r_seq r) c | None => false end.
Proof.
  apply eq_true_iff_eq. rewrite covered_by_spec. pose proof (max_seq_spec acked (rkey r)) as H.
  destruct (max_seq acked (rkey r)) as [c|].
  - destruct H as [(a & Hin & Hk & <-) Hub]. rewrite N.leb_le. split.
    + intros (a' & Hin' & Hk' & Hle). specialize (Hub a' Hin' Hk'). lia.
    + intros Hle. exists a. auto.
  - split; [|discriminate]. intros (a & Hin & Hk & _). destruct (H a Hin Hk).
Qed.

Lemma insert_seq_In (r x : row) (l : list row) : In x (insert_seq r l) <-> x = r \/ In x l.
Proof.
  induction l as [|y l IH]; cbn [insert_seq]; [apply in_cons_eq|].
  destruct (N.leb (r_seq r) (r_seq y)); [apply in_cons_eq|apply in_cons_skip, IH].
Qed.

Lemma sort_seq_In (x : row) (l : list row) : In x (sort_seq l) <-> In x l.
Proof.
  induction l as [|y l IH]; cbn [sort_seq fold_right]; [reflexivity|].
  change (fold_right insert_seq [] l) with (sort_seq l).
  rewrite insert_seq_In, IH. symmetry. apply in_cons_eq.
Qed.

Definition seq_le (a b : row) : Prop := (r_seq a <= r_seq b)%N.

Lemma insert_seq_sorted (r : row) (l : list row) :
  Sorted seq_le l -> Sorted seq_le (insert_seq r l).
Proof.
  induction l as [|y l IH]; intros Hs; cbn [insert_seq].
  - constructor; constructor.
  - destruct (N.leb_spec (r_seq r) (r_seq y)) as [H|H].
    + constructor; [exact Hs|]. constructor. exact H.
    + inversion Hs as [|? ? Hs' Hhd]; subst. constructor; [apply IH; exact Hs'|].
      destruct l as [|z l]; cbn [insert_seq].
      * constructor. unfold seq_le. lia.
      * destruct (N.leb (r_seq r) (r_seq z)).
        -- constructor. unfold seq_le. lia.
        -- constructor. inversion Hhd; subst. assumption.
Qed.

Lemma sort_seq_sorted (l : list row) : Sorted seq_le (sort_seq l).
Proof.
  induction l as [|y l IH]; cbn [sort_seq fold_right]; [constructor|].
  apply insert_seq_sorted. exact IH.
Qed.

Lemma get_log_entries_In (rs : list row) (k : key) (a : option N) (u : N) (r : row) :
  In r (get_log_entries rs k a u) <-> In r rs /\ rkey r = k /\ in_range a u (r_seq r) = true.
Proof.
  unfold get_log_entries. rewrite sort_seq_In, filter_In, andb_true_iff, key_eqb_eq. reflexivity.
Qed.

Lemma get_log_entries_sorted (rs : list row) (k : key) (a : option N) (u : N) :
  Sorted seq_le (get_log_entries rs k a u).
Proof. apply sort_seq_sorted. Qed.

Lemma local_heights_In (d : durable) (k : key) (h : N) :
  In (k, h) (local_heights d) <-> In k (assoc d) /\ max_seq (rows d) k = Some h.
Proof.
  unfold local_heights. rewrite in_flat_map. split.
  - intros [k' [Hk Hin]]. destruct (max_seq (rows d) k') as [h'|] eqn:E; [|destruct Hin].
    destruct Hin as [Heq|[]]. injection Heq as -> ->. split; assumption.
  - intros [Hk Hm]. exists k. split; [exact Hk|]. rewrite Hm. left. reflexivity.
Qed.

Lemma compare_In (local remote : list (key * N)) (k : key) (a : option N) (u : N) :
  In (k, (a, u)) (compare local remote) <->
  In (k, u) local /\ a = lookup k remote /\ match a with Some c => (c < u)%N | None => True end.
Proof.
  unfold compare. rewrite in_flat_map. split.
  - intros [[k' h] [Hl Hin]]. destruct (lookup k' remote) as [c|] eqn:L.
    + destruct (N.ltb_spec c h) as [Hlt|Hge]; [|destruct Hin].
      destruct Hin as [Heq|[]]. injection Heq as -> <- ->. rewrite L. auto.
    + destruct Hin as [Heq|[]]. injection Heq as -> <- ->. rewrite L. auto.
  - intros (Hl & -> & Hm). exists (k, u). split; [exact Hl|].
    destruct (lookup k remote) as [c|]; [apply N.ltb_lt in Hm; rewrite Hm|]; left; reflexivity.
Qed.

(* The lower end of a range taken from the cursor is the test [above_cursor]. *)
Lemma in_range_cursor (d : durable) (r : row) (u : N) :
  in_range (lookup (rkey r) (cursor d)) u (r_seq r) = above_cursor d r && N.leb (r_seq r) u.
Proof. reflexivity. Qed.

(** No invariant is needed: this holds for whatever a crash left in the tables. *)
Theorem replay_entries_In (d : durable) (r : row) :
  In r (replay_entries d) <->
  In r (rows d) /\ In (rkey r) (assoc d) /\ above_cursor d r = true.
Proof.
  unfold replay_entries, nacked_log_ranges. rewrite in_flat_map. split.
  - intros [[k [a u]] [Hc Hg]]. cbn [fst snd] in Hg.
    apply get_log_entries_In in Hg. destruct Hg as (Hin & <- & Hr).
    apply compare_In in Hc. destruct Hc as (Hl & -> & _). apply local_heights_In in Hl.
    rewrite in_range_cursor in Hr. apply andb_true_iff in Hr. split; [exact Hin|]. split; [apply Hl|apply Hr].
  - intros (Hin & Ha & Hab). destruct (max_seq_some (rows d) r Hin) as (h & Hh & Hle).
    exists (rkey r, (lookup (rkey r) (cursor d), h)). split.
    + apply compare_In. split; [apply local_heights_In; split; assumption|]. split; [reflexivity|].
      unfold above_cursor in Hab. destruct (lookup (rkey r) (cursor d)); [|exact I].
      apply N.ltb_lt in Hab. lia.
    + cbn [fst snd]. apply get_log_entries_In. split; [exact Hin|]. split; [reflexivity|].
      rewrite in_range_cursor, Hab. apply N.leb_le, Hle.
Qed.

Lemma in_assoc_In (d : durable) (r : row) : in_assoc d r = true <-> In (rkey r) (assoc d).
Proof.
  unfold in_assoc. rewrite existsb_exists. split.
  - intros [k [Hk E]]. apply key_eqb_eq in E. rewrite E. exact Hk.
  - intros H. exists (rkey r). split; [exact H|apply key_eqb_refl].
Qed.

Lemma spec_replay_In (d : durable) (r : row) :
  In r (spec_replay d) <-> In r (rows d) /\ In (rkey r) (assoc d) /\ above_cursor d r = true.
Proof. unfold spec_replay. rewrite filter_In, andb_true_iff, in_assoc_In. reflexivity. Qed.

Theorem replay_entries_spec (d : durable) (r : row) :
  In r (replay_entries d) <-> In r (spec_replay d).
Proof. rewrite replay_entries_In, spec_replay_In. reflexivity. Qed.

Lemma events_of_In (rs : list row) (k : ekind) (r : row) :
  In (k, r) (events_of rs) <-> In r rs /\ event_of r = Some k.
Proof.
  unfold events_of. rewrite in_flat_map. split.
  - intros [r' [Hin He]]. destruct (event_of r') as [k'|] eqn:E; [|destruct He].
    destruct He as [Heq|[]]. injection Heq as -> ->. split; assumption.
  - intros [Hin He]. exists r. split; [exact Hin|]. rewrite He. left. reflexivity.
Qed.

Theorem delivered_In (d : durable) (k : ekind) (r : row) :
  In (k, r) (delivered_on_restart d) <->
  In r (rows d) /\ In (rkey r) (assoc d) /\ event_of r = Some k /\ above_cursor d r = true.
Proof.
  unfold delivered_on_restart. rewrite events_of_In, replay_entries_In. tauto.
Qed.

(** Every range of the replay is emitted in sequence order. *)
Theorem replay_ranges_sorted (d : durable) (k : key) (a : option N) (u : N) :
  Sorted seq_le (get_log_entries (rows d) k a u).
Proof. apply get_log_entries_sorted. Qed.

Section Trace.
Variable tlog : logid.

Lemma dexec_snoc (d : durable) (tr : list label) (l : label) :
  dexec tlog d (tr ++ [l]) = dstep tlog (dexec tlog d tr) l.
Proof. unfold dexec. rewrite fold_left_app. reflexivity. Qed.

Lemma dexec_app (d : durable) (t1 t2 : list label) :
  dexec tlog d (t1 ++ t2) = dexec tlog (dexec tlog d t1) t2.
Proof. unfold dexec. apply fold_left_app. Qed.

Lemma dur_step (s : state) (l : label) : dur (step tlog s l) = dstep tlog (dur s) l.
Proof. destruct l; reflexivity. Qed.

Lemma dur_exec (s : state) (tr : list label) : dur (exec tlog s tr) = dexec tlog (dur s) tr.
Proof.
  revert s. induction tr as [|l tr IH]; intro s; [reflexivity|].
  cbn [exec dexec fold_left]. change (fold_left (step tlog) tr (step tlog s l)) with (exec tlog (step tlog s l) tr).
  rewrite IH, dur_step. reflexivity.
Qed.

Lemma crash_keeps_durable (s : state) :
  dur (step tlog s LCrash) = dur s /\ inflight (step tlog s LCrash) = [] /\ appq (step tlog s LCrash) = [].
Proof. repeat split. Qed.

(** Every stored row of the topic's log is associated (insert and associate are ONE transaction,
    [LStore]), and only keys of that log ever are. *)
Definition assoc_ok (d : durable) : Prop :=
  (forall r, In r (rows d) -> r_log r = tlog -> In (rkey r) (assoc d)) /\
  (forall k, In k (assoc d) -> snd k = tlog).

Lemma assoc_ok_empty : assoc_ok empty.
Proof. split; intros ? []. Qed.

Lemma prune_rows_In (k : key) (n : N) (rs : list row) (r : row) :
  In r (prune_rows k n rs) <-> In r rs /\ ~ (rkey r = k /\ (r_seq r < n)%N).
Proof.
  unfold prune_rows. rewrite filter_In, negb_true_iff, andb_false_iff, key_eqb_neq, N.ltb_ge.
  split; intros [H1 H2]; (split; [exact H1|]).
  - intros [E L]. destruct H2; [contradiction|lia].
  - destruct (key_eqb (rkey r) k) eqn:E.
    + apply key_eqb_eq in E. right. destruct (N.le_gt_cases n (r_seq r)); [assumption|]. exfalso. apply H2. split; assumption.
    + left. apply key_eqb_neq. exact E.
Qed.

Lemma assoc_ok_step (d : durable) (l : label) : assoc_ok d -> assoc_ok (dstep tlog d l).
Proof.
  intros [H1 H2]. destruct l as [r|k n|r|r|e| |]; try (split; assumption).
  - cbn [dstep]. split; cbn [rows assoc].
    + intros x Hin Hx. apply in_app_or in Hin. destruct Hin as [Hin|[->|[]]].
      * destruct (N.eqb (r_log r) tlog); [apply set_insert_In; right|]; apply H1; assumption.
      * apply N.eqb_eq in Hx. rewrite Hx. apply set_insert_In. left. reflexivity.
    + intros k Hk. destruct (N.eqb (r_log r) tlog) eqn:E; [|apply H2; exact Hk].
      apply set_insert_In in Hk. destruct Hk as [->|Hk]; [apply N.eqb_eq in E; exact E|apply H2; exact Hk].
  - cbn [dstep]. split; cbn [rows assoc]; [|exact H2].
    intros x Hin Hx. apply prune_rows_In in Hin. apply H1; [apply Hin|exact Hx].
  - cbn [dstep]. destruct (N.eqb (r_log r) tlog); split; assumption.
Qed.

Lemma assoc_ok_dexec (d : durable) (tr : list label) : assoc_ok d -> assoc_ok (dexec tlog d tr).
Proof.
  revert d. induction tr as [|l tr IH]; intros d H; [exact H|].
  cbn [dexec fold_left]. apply IH. apply assoc_ok_step. exact H.
Qed.

Definition cursor_ok (d : durable) (acked : list row) : Prop :=
  forall k, lookup k (cursor d) = max_seq acked k.

Lemma acked_of_snoc (tr : list label) (l : label) :
  acked_of tlog (tr ++ [l]) = acked_of tlog tr ++ acked_of tlog [l].
Proof. unfold acked_of. rewrite flat_map_app. reflexivity. Qed.

Lemma cursor_ok_step (d : durable) (acked : list row) (l : label) :
  cursor_ok d acked -> cursor_ok (dstep tlog d l) (acked ++ acked_of tlog [l]).
Proof.
  intros H k. destruct l as [r|k' n|r|r|e| |]; cbn [acked_of flat_map dstep cursor]; rewrite ?app_nil_r; try apply H.
  destruct (N.eqb (r_log r) tlog); cbn [app cursor]; rewrite ?app_nil_r; [|apply H].
  rewrite lookup_advance, max_seq_snoc. unfold mstep. rewrite (key_eqb_sym k (rkey r)).
  destruct (key_eqb (rkey r) k) eqn:E; [|apply H].
  apply key_eqb_eq in E. subst k. rewrite H. reflexivity.
Qed.

Lemma cursor_ok_trace (tr : list label) : cursor_ok (dexec tlog empty tr) (acked_of tlog tr).
Proof.
  induction tr as [|l tr IH] using rev_ind.
  - intros k. reflexivity.
  - rewrite dexec_snoc, acked_of_snoc. apply cursor_ok_step. exact IH.
Qed.

Definition after (tr : list label) : durable := dur (exec tlog init tr).

Lemma after_dexec (tr : list label) : after tr = dexec tlog empty tr.
Proof. unfold after. rewrite dur_exec. reflexivity. Qed.

Lemma dexec_after (tr tr' : list label) : dexec tlog (after tr) tr' = after (tr ++ tr').
Proof. rewrite !after_dexec. symmetry. apply dexec_app. Qed.

Lemma after_assoc_ok (tr : list label) : assoc_ok (after tr).
Proof. rewrite after_dexec. apply assoc_ok_dexec, assoc_ok_empty. Qed.

(** What a restart from the frontier replays is exactly the stored operations of the topic's logs
    above the cursor. *)
Theorem replay_exact (tr : list label) (r : row) :
  In r (replay_entries (after tr)) <->
  In r (rows (after tr)) /\ r_log r = tlog /\ above_cursor (after tr) r = true.
Proof.
  rewrite replay_entries_In. destruct (after_assoc_ok tr) as [H1 H2]. split.
  - intros [Hin [Ha Hc]]. split; [exact Hin|]. split; [apply (H2 _ Ha)|exact Hc].
  - intros [Hin [Hl Hc]]. split; [exact Hin|]. split; [apply H1; assumption|exact Hc].
Qed.

(** ... and what reaches the application is exactly those of them that carry a body
    ([Processed] when it decodes, [DecodeFailed] otherwise). *)
Theorem delivered_exact (tr : list label) (k : ekind) (r : row) :
  In (k, r) (delivered_on_restart (after tr)) <->
  In r (rows (after tr)) /\ r_log r = tlog /\ event_of r = Some k /\ above_cursor (after tr) r = true.
Proof.
  unfold delivered_on_restart. rewrite events_of_In, replay_exact. tauto.
Qed.

Theorem cursor_is_max_acked (tr : list label) (k : key) :
  lookup k (cursor (after tr)) = max_seq (acked_of tlog tr) k.
Proof. rewrite after_dexec. apply cursor_ok_trace. Qed.

Lemma above_cursor_covered (tr : list label) (r : row) :
  above_cursor (after tr) r = negb (covered_by (acked_of tlog tr) r).
Proof.
  unfold above_cursor. rewrite cursor_is_max_acked, covered_by_max.
  destruct (max_seq (acked_of tlog tr) (rkey r)); [apply N.ltb_antisym|reflexivity].
Qed.

(** The replay set is exactly "stored, of this topic, and not acknowledged - neither itself nor
    a later operation of the same log". *)
Theorem replay_iff_not_acked (tr : list label) (r : row) :
  In r (replay_entries (after tr)) <->
  In r (rows (after tr)) /\ r_log r = tlog /\
  ~ exists a, In a (acked_of tlog tr) /\ rkey a = rkey r /\ (r_seq r <= r_seq a)%N.
Proof.
  rewrite replay_exact, above_cursor_covered, negb_true_iff, <- not_true_iff_false, covered_by_spec.
  reflexivity.
Qed.

Lemma acked_of_In (tr : list label) (r : row) :
  In r (acked_of tlog tr) <-> In (LAck r) tr /\ r_log r = tlog.
Proof.
  unfold acked_of. rewrite in_flat_map. split.
  - intros [l [Hin Hl]]. destruct l as [x|k n|x|x|e| |]; try destruct Hl.
    destruct (N.eqb (r_log x) tlog) eqn:E; [|destruct Hl]. destruct Hl as [->|[]].
    split; [exact Hin|apply N.eqb_eq; exact E].
  - intros [Hin Hl]. exists (LAck r). split; [exact Hin|]. apply N.eqb_eq in Hl. rewrite Hl. left. reflexivity.
Qed.

(** Once an acknowledgement of [a] was committed, no later restart - whatever happens in between,
    crashes included - replays [a] or an earlier operation of its log. *)
Theorem acked_not_redelivered (tr1 tr2 : list label) (a r : row) :
  In (LAck a) tr1 -> r_log a = tlog -> rkey r = rkey a -> (r_seq r <= r_seq a)%N ->
  ~ In r (replay_entries (after (tr1 ++ tr2))).
Proof.
  intros Hin Hl Hk Hle Hr. apply replay_iff_not_acked in Hr. destruct Hr as [_ [_ Hn]].
  apply Hn. exists a. split; [|split; [symmetry; exact Hk|exact Hle]].
  apply acked_of_In. split; [apply in_or_app; left; exact Hin|exact Hl].
Qed.

(** A stored operation with a decodable body that is not covered by any acknowledgement is
    delivered again as [Processed] by the next restart. *)
Theorem unacked_replayed (tr : list label) (r : row) :
  In r (rows (after tr)) -> r_log r = tlog -> r_body r = Body ->
  (forall a, In (LAck a) tr -> rkey a = rkey r -> (r_seq a < r_seq r)%N) ->
  In (Processed, r) (delivered_on_restart (after tr)).
Proof.
  intros Hin Hl Hb Hn. unfold delivered_on_restart. apply events_of_In. split.
  - apply replay_iff_not_acked. split; [exact Hin|]. split; [exact Hl|].
    intros [a [Ha [Hk Hle]]]. apply acked_of_In in Ha. destruct Ha as [Ha _].
    specialize (Hn a Ha Hk). lia.
  - unfold event_of. rewrite Hb. reflexivity.
Qed.

(** A history: API calls, each either run to completion ([None]) or cut by a crash after [n]
    of its durable transitions ([Some n]). *)
Fixpoint trace_hist (p : policy) (me : author) (d : durable) (h : list (op * option nat)) : list label :=
  match h with
  | [] => []
  | (o, c) :: t =>
      let pl := plan tlog p me d o in
      let pl' := match c with None => pl | Some n => firstn n pl ++ [LCrash] end in
      pl' ++ trace_hist p me (dexec tlog d pl') t
  end.

Definition run_hist (p : policy) (me : author) (h : list (op * option nat)) : durable :=
  after (trace_hist p me empty h).

Lemma dexec_crash (d : durable) (tr : list label) : dexec tlog d (tr ++ [LCrash]) = dexec tlog d tr.
Proof. rewrite dexec_snoc. reflexivity. Qed.

(** Running the calls one after the other with [apply_op] (no cut) is the special case. *)
Lemma run_ops_trace (p : policy) (me : author) (d : durable) (os : list op) :
  run_ops tlog p me d os = dexec tlog d (trace_hist p me d (map (fun o => (o, None)) os)).
Proof.
  revert d. induction os as [|o os IH]; intro d; [reflexivity|].
  cbn [run_ops fold_left map trace_hist]. rewrite dexec_app.
  change (fold_left (apply_op tlog p me) os (apply_op tlog p me d o)) with (run_ops tlog p me (apply_op tlog p me d o) os).
  rewrite IH. reflexivity.
Qed.

(** Histories of API calls with crashes inside them are traces, so the characterisation of the
    replay set holds for the state they leave. *)
Theorem crash_anywhere_in_api_calls (p : policy) (me : author) (h : list (op * option nat)) (r : row) :
  In r (replay_entries (run_hist p me h)) <->
  In r (rows (run_hist p me h)) /\ r_log r = tlog /\
  ~ exists a, In a (acked_of tlog (trace_hist p me empty h)) /\ rkey a = rkey r /\ (r_seq r <= r_seq a)%N.
Proof. apply replay_iff_not_acked. Qed.

Lemma cut_states_In (p : policy) (me : author) (d : durable) (o : op) (lo : nat) (x : durable) :
  In x (cut_states tlog p me d o lo) ->
  exists n, lo <= n /\ x = dexec tlog d (firstn n (plan tlog p me d o)).
Proof.
  unfold cut_states. rewrite in_map_iff. intros [n [<- Hn]]. apply in_seq in Hn.
  exists n. split; [lia|reflexivity].
Qed.

(** The replay run to its end acknowledges what it delivered: under the automatic policy a
    second restart replays none of the operations the first one processed. *)
Theorem replay_then_restart (p : policy) (tr : list label) (r : row) :
  In r (replay_entries (after tr)) -> self_acks p r = true -> r_log r = tlog ->
  forall tr2, ~ In r (replay_entries (after (tr ++ replay_plan p (after tr) ++ tr2))).
Proof.
  intros Hin Hs Hl tr2. rewrite app_assoc.
  apply (acked_not_redelivered (tr ++ replay_plan p (after tr)) tr2 r r); [|exact Hl|reflexivity|lia].
  apply in_or_app. right. unfold replay_plan. apply in_flat_map. exists r. split; [exact Hin|].
  unfold process_labels. apply in_or_app. right. rewrite Hs. left. reflexivity.
Qed.

End Trace.

Definition ex_hist : list (op * option nat) :=
  [ (OPublish 1%N true false, None);          (* stored, delivered, not acknowledged            *)
    (OPublish 2%N true false, Some 1%nat);    (* crash after the forge commit                   *)
    (OImport {| r_id := 3%N; r_author := 9%N; r_log := 7%N; r_seq := 0%N; r_body := Body; r_prune := false |}, None);
    (OAck 1%N, None);
    (OPublish 4%N false false, Some 1%nat) ]. (* body-less, crash before its automatic ack      *)

Example ex_replay :
  map (fun e => r_id (snd e)) (delivered_on_restart (run_hist 7%N Explicit 5%N ex_hist)) = [2; 3]%N.
Proof. vm_compute. reflexivity. Qed.

Example ex_replay_auto :
  map (fun e => r_id (snd e)) (delivered_on_restart (run_hist 7%N Automatic 5%N ex_hist)) = [2]%N.
Proof. vm_compute. reflexivity. Qed.

Example ex_acked : map r_id (acked_of 7%N (trace_hist 7%N Explicit 5%N empty ex_hist)) = [1]%N.
Proof. vm_compute. reflexivity. Qed.

(** Boundary of the property (not a violation of it): under the automatic policy the stream
    commits the acknowledgement BEFORE the event is handed to the application channel
    (stream.rs [process_operation] / [ack_published_operation]).  A crash in between leaves an
    operation that is stored, acknowledged, was never delivered and will not be replayed. *)
Definition ex_gap_row : row :=
  {| r_id := 1%N; r_author := 5%N; r_log := 7%N; r_seq := 0%N; r_body := Body; r_prune := false |}.
Definition ex_gap_trace : list label := [LStore ex_gap_row; LEnqueue ex_gap_row; LAck ex_gap_row; LCrash].

Example auto_ack_before_delivery_gap :
  let s := exec 7%N init ex_gap_trace in
  In ex_gap_row (rows (dur s)) /\ appq s = [] /\ ~ In (LDeliver) ex_gap_trace /\
  delivered_on_restart (dur s) = [].
Proof.
  vm_compute. repeat split; try reflexivity.
  - left. reflexivity.
  - intros H. repeat (destruct H as [H|H]; [discriminate H|]). exact H.
Qed.
