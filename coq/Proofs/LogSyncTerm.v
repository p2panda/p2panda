(** Every run of the joint system is finite: a measure that every step decreases.  Together with
    [deadlock_free] this is termination: every maximal run ends in the finished state. *)
From Coq Require Import List Arith NArith Bool Lia.
From PV Require Import Model.LogSync Proofs.LogSyncC20 Proofs.LogSyncNode Proofs.LogSyncJoint
  Proofs.LogSyncLive.
Import ListNotations.

(** Ticks a side still has to do.  Per author: entering the arm, one tick per range, leaving it
    ([+ 2]); [sync_work] adds the tick that ends the session, [pre_work] one tick per range to
    size and the one that sends PreSync or Done; [PStart] adds the ticks to [PSendHave] and the
    one that sends Have. *)
Definition arm_work (n : needs_t) : nat := fold_right (fun alr acc => length (snd alr) + 2 + acc) 0 n.
Definition sync_work (n : needs_t) : nat := arm_work n + 1.
Definition pre_work (n : needs_t) : nat := length (flat_needs n) + 1 + sync_work n.

(** [needs0]: the ranges the side will compute once the peer's Have has arrived. *)
Definition tw (needs0 : needs_t) (s : st) : nat :=
  match ph s with
  | PStart logs => 1 + length logs + 1 + pre_work needs0
  | PSendHave todo _ => length todo + 1 + pre_work needs0
  | PReceiveHave _ => pre_work needs0
  | PSendPreSync needs todo _ _ => length todo + 1 + sync_work needs
  | PReceivePreSyncOrDone needs _ _ => sync_work needs
  | PSync rest cur => (match cur with Some alr => length (snd alr) + 1 | None => 0 end) + sync_work rest
  | PEnd | PFailed => 0
  end.

Lemma tick_tw needs0 s i s' o r :
  move s i s' o -> i = Tick r -> tick_enabled true s = true -> tw needs0 s' < tw needs0 s.
Proof.
  (* a disabled tick is not in question and a tick never fails; every other branch lowers [tw]
     by one ([n < S n] as it stands), and ending the session drops all that is left *)
  destruct 1; intros Ei En; try discriminate Ei;
    [rewrite (H r Ei) in En; discriminate|destruct (H r Ei)|..];
    unfold tw, pre_work, sync_work, arm_work; cbn; try apply Nat.lt_succ_diag_r; lia.
Qed.

Lemma recv_tw needs0 s i s' o m :
  move s i s' o -> i = Recv m ->
  (forall local h, ph s = PReceiveHave local -> m = Have h -> compare local h = needs0) ->
  tw needs0 s' <= tw needs0 s.
Proof.
  destruct 1; intros Ei; try discriminate Ei; unfold tw; cbn; intros Hv; auto with arith.
  injection Ei as <-. rewrite (Hv local h eq_refl eq_refl). unfold pre_work. lia.
Qed.

(** What is still to send and what is pending weigh 2, what is queued 1: a push (pending to
    queued) then lowers the measure, and so does a delivery. *)
Definition node_measure (needs0 : needs_t) (sc : list msg) (n : node) (q : list msg) : nat :=
  tw needs0 (n_st n) + 2 * (length sc - length (sent (n_hist n))) + 2 * length (n_pend n) + length q.

(** A tick uses up one unit of [tw]; what it emits moves from "still to send" to "pending" at
    equal weight. *)
Lemma nm_tick needs0 r logs h_peer sc_peer n n' q :
  ninv r logs h_peer sc_peer n -> node_tick true r n = Some n' ->
  node_measure needs0 (script r logs h_peer) n' q < node_measure needs0 (script r logs h_peer) n q.
Proof.
  intros NI T. apply node_tick_some in T. destruct T as [Pe [_ [En ->]]].
  (* [U]: nothing beyond the script was emitted, so the subtraction in [node_measure] is exact *)
  pose proof (emitted_le r logs h_peer sc_peer _ (ninv_tick r logs h_peer sc_peer n [] false NI)) as U.
  pose proof (tick_tw needs0 _ _ _ _ r (step_move (n_st n) (Tick r)) eq_refl En) as Tw. cbn [step] in Tw.
  unfold node_measure, ecount in *. cbn [n_st n_hist n_pend] in *. rewrite Pe.
  rewrite sent_app, app_length in *. cbn [length]. lia.
Qed.

Lemma nm_push cbuf needs0 sc n q n' q' :
  node_push cbuf n q = Some (n', q') -> node_measure needs0 sc n' q' < node_measure needs0 sc n q.
Proof.
  intros T. apply node_push_some in T. destruct T as [m [p [Pe [_ [-> ->]]]]].
  unfold node_measure. cbn [n_st n_hist n_pend]. rewrite Pe, app_length. cbn [length]. lia.
Qed.

Lemma nm_recv needs0 sc n m cons' qo :
  (forall local h, ph (n_st n) = PReceiveHave local -> m = Have h -> compare local h = needs0) ->
  node_measure needs0 sc (mknode (fst (recv (n_st n) m)) [] false (n_hist n ++ snd (recv (n_st n) m)) cons') qo
  <= node_measure needs0 sc n qo.
Proof.
  intros H. unfold node_measure. cbn [n_st n_hist n_pend].
  rewrite sent_app, recv_sends_nothing, app_nil_r.
  pose proof (recv_tw needs0 _ _ _ _ m (step_move (n_st n) (Recv m)) eq_refl H) as Tw. cbn [step] in Tw.
  cbn [length]. lia.
Qed.

Lemma nm_dequeue needs0 sc n m q : node_measure needs0 sc (unpark n) q < node_measure needs0 sc n (m :: q).
Proof. apply Nat.add_lt_mono_l, Nat.lt_succ_diag_r. Qed.

Section Measure.
  Variables rA rB : replica.
  Variables logsA logsB : list (N * list N).
  Variable cbuf : option nat.

  Notation scA := (scA rA rB logsA logsB).
  Notation scB := (scB rA rB logsA logsB).
  Notation hA := (hA rA logsA).
  Notation hB := (hB rB logsB).
  Notation J := (J rA rB logsA logsB cbuf).

  Definition needsA : needs_t := compare hA hB.
  Definition needsB : needs_t := compare hB hA.

  Definition measure (y : sys) : nat :=
    node_measure needsA scA (sa y) (qab y) + node_measure needsB scB (sb y) (qba y).

  Lemma measure_step y l y' : J y -> sys_step true cbuf rA rB y l = Some y' -> measure y' < measure y.
  Proof.
    intros [NA [NB [LAB LBA]]]. revert l y'. unfold measure. apply sys_step_cases; intros n'; cbn [sa sb qab qba].
    - intros T. apply Nat.add_lt_mono_r.
      exact (nm_tick needsA rA logsA hB scB _ _ _ NA T).
    - intros T. apply Nat.add_lt_mono_l.
      exact (nm_tick needsB rB logsB hA scA _ _ _ NB T).
    - intros q' T. apply Nat.add_lt_mono_r. exact (nm_push cbuf needsA scA _ _ _ _ T).
    - intros q' T. apply Nat.add_lt_mono_l. exact (nm_push cbuf needsB scB _ _ _ _ T).
    - intros q' T. apply node_recv_some in T. destruct T as [m [Q [_ [_ [_ ->]]]]]. rewrite Q in *.
      destruct (link_next cbuf rB logsB hA scA _ _ _ _ NB LBA) as [suf E].
      apply Nat.add_le_lt_mono; [|apply nm_dequeue].
      exact (nm_recv needsA scA (sa y) m _ _ (have_facts rA logsA hB scB (scB_head rA rB logsA logsB) _ m suf NA E)).
    - intros q' T. apply node_recv_some in T. destruct T as [m [Q [_ [_ [_ ->]]]]]. rewrite Q in *.
      destruct (link_next cbuf rA logsA hB scB _ _ _ _ NA LAB) as [suf E].
      apply Nat.add_lt_le_mono; [apply nm_dequeue|].
      exact (nm_recv needsB scB (sb y) m _ _ (have_facts rB logsB hA scA (scA_head rA rB logsA logsB) _ m suf NB E)).
  Qed.

  Theorem runs_bounded ls : forall y y',
    J y -> exec true cbuf rA rB y ls = Some y' -> length ls + measure y' <= measure y.
  Proof.
    induction ls as [|l ls IH]; intros y y' Jy E; cbn [exec] in E.
    - injection E as <-. cbn. lia.
    - destruct (sys_step true cbuf rA rB y l) as [y1|] eqn:S; [|discriminate].
      pose proof (measure_step y l y1 Jy S) as M.
      pose proof (IH y1 y' (J_step rA rB logsA logsB cbuf y l y1 Jy S) E) as R. cbn [length]. lia.
  Qed.
End Measure.
