(** The oracle of C13 is the predicate of the theorems, applied to observations. *)
From Coq Require Import List.
From PV Require Import Model.Processors Oracle.C13.
Import ListNotations.

Lemma emitted_of_remits s :
  emitted_of s = match remits s with [] => map (fun x => OQ (Ok x)) (gone_of s) | E :: _ => E end.
Proof. destruct s; reflexivity. Qed.

Lemma ocheck_is_scheck s xs : scheck s xs = ocheck (rshape s) (remits s) xs (gone_of s).
Proof.
  induction s as [gone rest|c up IH l]; cbn [scheck rshape remits ocheck gone_of]; [reflexivity|].
  rewrite IH, (emitted_of_remits up). reflexivity.
Qed.

Lemma rev_shape s : rev (shape s) = rshape s.
Proof. induction s as [|c up IH l]; cbn; [reflexivity|]. rewrite rev_app_distr, IH. reflexivity. Qed.

Theorem check_is_scheck s xs :
  check (shape s) xs (gone_of s) (rev (remits s)) = scheck s xs.
Proof. unfold check. rewrite rev_involutive, rev_shape. symmetry. apply ocheck_is_scheck. Qed.
