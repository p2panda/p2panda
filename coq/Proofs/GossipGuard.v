(** C29, the gossip topic guard.  No assumptions beyond the model itself (Model/GossipGuard.v:
    sequentially consistent indivisible atomics, FIFO mailbox, the manager's session
    bookkeeping). *)
From Coq Require Import List Arith Bool Lia.
From PV Require Import Model.GossipGuard.
Import ListNotations.

Lemma length_set_nth {A} (l : list A) n v : length (set_nth l n v) = length l.
Proof. revert n; induction l as [|x l IH]; intros [|n]; cbn [set_nth length]; auto. Qed.

Lemma get_set_nth l g v h :
  get (set_nth l g v) h = if (h =? g) && (g <? length l) then v else get l h.
Proof.
  unfold get. revert g h. induction l as [|x l IH]; intros g h.
  - cbn [set_nth length]. rewrite andb_false_r. reflexivity.
  - destruct g as [|g], h as [|h]; cbn [set_nth nth length]; try reflexivity.
    rewrite IH. change (S h =? S g) with (h =? g). change (S g <? S (length l)) with (g <? length l). reflexivity.
Qed.

Lemma get_snoc l v g : get (l ++ [v]) g = if g =? length l then v else get l g.
Proof.
  unfold get. destruct (Nat.eqb_spec g (length l)) as [->|Hne].
  - rewrite app_nth2 by lia. rewrite Nat.sub_diag. reflexivity.
  - destruct (Nat.lt_ge_cases g (length l)).
    + apply app_nth1. assumption.
    + rewrite !nth_overflow; auto. rewrite app_length. cbn [length]. lia.
Qed.

Lemma get_overflow l g : length l <= g -> get l g = 0.
Proof. intros H. unfold get. apply nth_overflow. exact H. Qed.

Lemma get_pos_lt l g : 1 <= get l g -> g < length l.
Proof. intros H. destruct (Nat.lt_ge_cases g (length l)); auto. rewrite get_overflow in H; lia. Qed.

Lemma nth_error_set_nth_same {A} (l : list A) i v t :
  nth_error l i = Some t -> nth_error (set_nth l i v) i = Some v.
Proof. revert i; induction l as [|x l IH]; intros [|i]; cbn; try discriminate; auto. Qed.

Lemma nth_error_set_nth_other {A} (l : list A) i j v :
  i <> j -> nth_error (set_nth l i v) j = nth_error l j.
Proof. revert i j; induction l as [|x l IH]; intros [|i] [|j] H; cbn; auto; try lia. Qed.

Lemma removelast_seq n : removelast (seq 0 (S n)) = seq 0 n.
Proof. rewrite seq_S. apply removelast_last. Qed.

Definition b2n (b : bool) : nat := if b then 1 else 0.

Lemma get_incr l g h : g < length l -> get (set_nth l g (S (get l g))) h = get l h + b2n (g =? h).
Proof.
  intros Hg. apply Nat.ltb_lt in Hg. rewrite get_set_nth, Hg, andb_true_r, (Nat.eqb_sym h g).
  destruct (Nat.eqb_spec g h) as [->|]; cbn [b2n]; lia.
Qed.

Lemma get_decr l g h : get (set_nth l g (pred (get l g))) h = get l h - b2n (g =? h).
Proof.
  rewrite get_set_nth, (Nat.eqb_sym h g). destruct (Nat.eqb_spec g h) as [->|]; cbn [andb b2n]; [|lia].
  destruct (Nat.ltb_spec h (length l)); [lia|]. rewrite get_overflow; [reflexivity|assumption].
Qed.

Lemma get_snoc_1 l h : get (l ++ [1]) h = get l h + b2n (length l =? h).
Proof.
  rewrite get_snoc, (Nat.eqb_sym h). destruct (Nat.eqb_spec (length l) h) as [<-|]; cbn [b2n]; [|lia].
  rewrite get_overflow; [reflexivity|lia].
Qed.

Lemma get_snoc_0 l h : get (l ++ [0]) h = get l h.
Proof.
  rewrite get_snoc. destruct (Nat.eqb_spec h (length l)) as [->|]; [|reflexivity].
  rewrite get_overflow; [reflexivity|lia].
Qed.

Lemma cnt_cons p t l : cnt p (t :: l) = b2n (p t) + cnt p l.
Proof. unfold cnt. cbn [filter]. destruct (p t); reflexivity. Qed.

Lemma cnt_set_nth p l i t t' :
  nth_error l i = Some t ->
  cnt p (set_nth l i t') + b2n (p t) = cnt p l + b2n (p t').
Proof.
  revert i. induction l as [|x l IH]; intros [|i] H; cbn [nth_error] in H; try discriminate.
  - injection H as ->. cbn [set_nth]. rewrite !cnt_cons. lia.
  - cbn [set_nth]. rewrite !cnt_cons. specialize (IH i H). lia.
Qed.

Lemma cnt_same p l i t t' : nth_error l i = Some t -> p t' = p t -> cnt p (set_nth l i t') = cnt p l.
Proof. intros Hn E. pose proof (cnt_set_nth p l i t t' Hn). rewrite E in *. lia. Qed.

Lemma cnt_enter p l i t t' :
  nth_error l i = Some t -> p t = false -> cnt p (set_nth l i t') = cnt p l + b2n (p t').
Proof. intros Hn E. pose proof (cnt_set_nth p l i t t' Hn) as H. rewrite E in H. cbn [b2n] in H. lia. Qed.

(** [b] lets the caller give the value of [p t] in the form its goal has *)
Lemma cnt_leave p l i t t' b :
  nth_error l i = Some t -> p t' = false -> p t = b -> cnt p (set_nth l i t') + b2n b = cnt p l.
Proof. intros Hn E <-. pose proof (cnt_set_nth p l i t t' Hn) as H. rewrite E in H. cbn [b2n] in H. lia. Qed.

Lemma cnt_map_ext p f l : (forall t, p (f t) = p t) -> cnt p (map f l) = cnt p l.
Proof.
  intros H. induction l as [|x l IH]; [reflexivity|]. cbn [map]. rewrite !cnt_cons, H, IH. reflexivity.
Qed.

Lemma cnt_pos p l i t : nth_error l i = Some t -> p t = true -> 1 <= cnt p l.
Proof.
  revert i. induction l as [|x l IH]; intros [|i] H Hp; cbn [nth_error] in H; try discriminate.
  - injection H as ->. rewrite cnt_cons, Hp. cbn. lia.
  - rewrite cnt_cons. specialize (IH i H Hp). lia.
Qed.

Lemma existsb_cnt p l : existsb p l = false <-> cnt p l = 0.
Proof.
  induction l as [|x l IH]; [cbn; tauto|]. cbn [existsb]. rewrite cnt_cons.
  destruct (p x); cbn [orb b2n]; [split; [discriminate|lia]|]. rewrite IH. lia.
Qed.

Lemma cnt_zero_all p l i t : cnt p l = 0 -> nth_error l i = Some t -> p t = false.
Proof.
  intros H Hn. destruct (p t) eqn:E; [|reflexivity].
  pose proof (cnt_pos p l i t Hn E). lia.
Qed.

Lemma pc_eqb_refl a : pc_eqb a a = true.
Proof. destruct a; cbn [pc_eqb]; rewrite ?Nat.eqb_refl; reflexivity. Qed.

Lemma pc_eqb_eq a b : pc_eqb a b = true <-> a = b.
Proof.
  split; [|intros <-; apply pc_eqb_refl].
  destruct a, b; cbn [pc_eqb]; intros H; try discriminate H; try reflexivity;
    try (apply andb_true_iff in H; destruct H as [H H']; apply Nat.eqb_eq in H'; rewrite H');
    apply Nat.eqb_eq in H; rewrite H; reflexivity.
Qed.

Lemma at_send_pc h p d k :
  at_send h {| tpc := p; tdrop := d; tpath := k |} =
  match p with PSend g => g =? h | PDec g q => (g =? h) && (q =? 1) | _ => false end.
Proof. destruct p; try reflexivity. apply orb_false_r. Qed.

Lemma holds_set_pc f g t p : holds f g (set_pc t p) = holds f g {| tpc := p; tdrop := false; tpath := 0 |}.
Proof. reflexivity. Qed.

Lemma at_send_wake g h t : at_send g (wake h t) = at_send g t.
Proof.
  unfold wake. destruct (pc_eqb (tpc t) (PWait h)) eqn:E; [|reflexivity].
  apply pc_eqb_eq in E. unfold at_send, set_pc. cbn [tpc]. rewrite E. reflexivity.
Qed.

Lemma holds_wake f g h t : holds f g (wake h t) = holds f g t.
Proof.
  unfold wake. destruct (pc_eqb (tpc t) (PWait h)) eqn:E; [|reflexivity].
  apply pc_eqb_eq in E. unfold holds, set_pc. cbn [tpc]. rewrite E. reflexivity.
Qed.

Lemma count_msg_app m a b : count_msg m (a ++ b) = count_msg m a + count_msg m b.
Proof. induction a as [|x a IH]; [reflexivity|]. cbn [app count_msg]. rewrite IH. lia. Qed.

Lemma count_msg_pos_in m l : 1 <= count_msg m l -> In m l.
Proof.
  induction l as [|x l IH]; cbn [count_msg]; [lia|]. intros H.
  destruct m as [a|a], x as [b|b]; try (right; apply IH; lia);
    (destruct (Nat.eqb_spec a b) as [->|]; [left; reflexivity|right; apply IH; lia]).
Qed.

(** The invariants below speak of the counters, their marks in [zeros], the messages, and of two
    counts over the threads: how many hold a reference of a generation, how many owe its
    Unsubscribe.  On these a step of the repaired protocol acts in one of five ways: it changes
    none of them (the choice of the slow path, the end of [stream] on either path, the
    thread-local decision of [drop]); it is the fast path's increment; it creates a generation;
    it is the decrement of [drop]; it sends the Unsubscribe.  [cur], [rlock] and [tpath] play no
    part.  The fast path and the slow path also record the guard under which they are taken: the
    counter is positive; the step is an overlap exactly if an earlier generation is unfinished
    (the only use of [i]). *)
Inductive eff (s s' : st) (i : nat) : Prop :=
| EQuiet :
    ctr s' = ctr s -> zeros s' = zeros s -> mbox s' = mbox s ->
    (forall h, cnt (holds true h) (thr s') = cnt (holds true h) (thr s)) ->
    (forall h, cnt (at_send h) (thr s') = cnt (at_send h) (thr s)) -> eff s s' i
| EFast g :
    1 <= get (ctr s) g ->
    ctr s' = set_nth (ctr s) g (S (get (ctr s) g)) -> zeros s' = zeros s -> mbox s' = mbox s ->
    (forall h, cnt (holds true h) (thr s') = cnt (holds true h) (thr s) + b2n (g =? h)) ->
    (forall h, cnt (at_send h) (thr s') = cnt (at_send h) (thr s)) -> eff s s' i
| ESlow :
    overlap s (LT i) = existsb (unfinished s) (seq 0 (length (ctr s))) ->
    ctr s' = ctr s ++ [1] -> zeros s' = zeros s ++ [0] -> mbox s' = mbox s ++ [MSub (length (ctr s))] ->
    (forall h, cnt (holds true h) (thr s') = cnt (holds true h) (thr s) + b2n (length (ctr s) =? h)) ->
    (forall h, cnt (at_send h) (thr s') = cnt (at_send h) (thr s)) -> eff s s' i
| EDrop g :
    ctr s' = set_nth (ctr s) g (pred (get (ctr s) g)) ->
    zeros s' = (if get (ctr s) g =? 1 then set_nth (zeros s) g (S (get (zeros s) g)) else zeros s) ->
    mbox s' = mbox s ->
    (forall h, cnt (holds true h) (thr s') + b2n (g =? h) = cnt (holds true h) (thr s)) ->
    (forall h, cnt (at_send h) (thr s') = cnt (at_send h) (thr s) + b2n ((g =? h) && (get (ctr s) g =? 1))) ->
    eff s s' i
| ESend g :
    ctr s' = ctr s -> zeros s' = zeros s -> mbox s' = mbox s ++ [MUnsub g] ->
    (forall h, cnt (holds true h) (thr s') = cnt (holds true h) (thr s)) ->
    (forall h, cnt (at_send h) (thr s') + b2n (g =? h) = cnt (at_send h) (thr s)) -> eff s s' i.

Lemma eff_quiet {s i t t' cu rl} :
  nth_error (thr s) i = Some t ->
  (forall h, holds true h t' = holds true h t) -> (forall h, at_send h t' = at_send h t) ->
  eff s {| ctr := ctr s; zeros := zeros s; cur := cu; rlock := rl; mbox := mbox s; sess := sess s;
           dead := dead s; log := log s; thr := set_nth (thr s) i t' |} i.
Proof.
  intros Hn HH HA. apply EQuiet; try reflexivity; intros h; apply (cnt_same _ _ _ _ _ Hn).
  - apply HH.
  - apply HA.
Qed.

Lemma tstep_eff s i s' :
  tstep true s i = Some s' ->
  log s' = log s /\ sess s' = sess s /\ dead s' = dead s /\ eff s s' i.
Proof.
  unfold tstep. destruct (nth_error (thr s) i) as [[p d k]|] eqn:Hn; [|discriminate].
  (* how a count moves when thread [i] is replaced; [holds] and [at_send] compute on both threads *)
  pose proof (fun q t' => cnt_same q _ _ _ t' Hn) as Same.
  pose proof (fun q t' => cnt_enter q _ _ _ t' Hn) as Enter.
  pose proof (fun q t' b => cnt_leave q _ _ _ t' b Hn) as Leave.
  destruct p; cbn [tpc]; try discriminate.
  - (* PStream *)
    destruct (cur s) as [g|]; [destruct (1 <=? get (ctr s) g) eqn:Hg|];
      intros [= <-]; repeat split; try (apply (eff_quiet Hn); reflexivity).
    apply Nat.leb_le in Hg. apply (EFast _ _ _ g); try reflexivity; [exact Hg| |]; intros h.
    + apply Enter. reflexivity.
    + apply Same. reflexivity.
  - (* PWin *)
    intros [= <-]; repeat split. destruct d; apply (eff_quiet Hn); reflexivity.
  - (* PSlow *)
    intros [= <-]; repeat split. apply ESlow; try reflexivity; [| |]; try intros h.
    + unfold overlap. rewrite Hn. reflexivity.
    + apply Enter. reflexivity.
    + apply Same. reflexivity.
  - (* PIns *)
    destruct (rlock s =? 0); [|discriminate].
    intros [= <-]; repeat split. destruct d; apply (eff_quiet Hn); reflexivity.
  - (* PDrop *)
    intros [= <-]; repeat split. apply (EDrop _ _ _ g); try reflexivity; intros h.
    + apply Leave; reflexivity.
    + apply Enter. reflexivity.
  - (* PDec: [PDec g 1] and [PSend g] owe the same *)
    intros [= <-]; repeat split. apply (eff_quiet Hn); intros h; unfold set_pc.
    + destruct (p =? 1); reflexivity.
    + rewrite !at_send_pc. destruct (p =? 1), (g =? h); reflexivity.
  - (* PSend *)
    intros [= <-]; repeat split. apply (ESend _ _ _ g); try reflexivity; intros h.
    + apply Same. reflexivity.
    + apply Leave; [reflexivity|apply orb_false_r].
Qed.

Record Inv (s : st) : Prop := {
  inv_len : length (zeros s) = length (ctr s);
  inv_cnt : forall g, get (ctr s) g = cnt (holds true g) (thr s);
  (* no step lowers an entry of [zeros], so over time this reads: a counter goes from 1 to 0 at
     most once and never rises again *)
  inv_mark : forall g, g < length (ctr s) -> get (zeros s) g = b2n (get (ctr s) g =? 0);
  inv_un : forall g, count_msg (MUnsub g) (log s ++ mbox s) + cnt (at_send g) (thr s) = get (zeros s) g }.

Lemma zeros_once s g :
  Inv s -> get (zeros s) g <= 1 /\ (get (zeros s) g = 1 -> get (ctr s) g = 0).
Proof.
  intros [Hlen _ Hmark _]. destruct (Nat.lt_ge_cases g (length (ctr s))) as [Hg|Hg].
  - rewrite (Hmark g Hg). destruct (get (ctr s) g); cbn; lia.
  - rewrite (get_overflow (zeros s)) by lia. lia.
Qed.

Lemma init_inv flags : Inv (init flags).
Proof.
  assert (H0 : forall p, (forall d, p {| tpc := PStream; tdrop := d; tpath := 0 |} = false) ->
                         cnt p (thr (init flags)) = 0).
  { intros p Hp. cbn [init thr]. induction flags as [|d l IH]; [reflexivity|].
    cbn [map]. rewrite cnt_cons, IH, Hp. reflexivity. }
  constructor; cbn [init ctr zeros log mbox length app]; [reflexivity| | |]; intros g.
  - rewrite H0 by reflexivity. destruct g; reflexivity.
  - intros Hg. inversion Hg.
  - rewrite H0 by reflexivity. destruct g; reflexivity.
Qed.

Lemma eff_len s s' i : eff s s' i -> Inv s -> length (zeros s') = length (ctr s').
Proof.
  intros [Hc Hz _ _ _|g _ Hc Hz _ _ _|_ Hc Hz _ _ _|g Hc Hz _ _ _|g Hc Hz _ _ _] [Hlen _ _ _]; rewrite Hc, Hz.
  - exact Hlen.
  - rewrite length_set_nth. exact Hlen.
  - rewrite !app_length, Hlen. reflexivity.
  - rewrite length_set_nth. destruct (get (ctr s) g =? 1); rewrite ?length_set_nth; exact Hlen.
  - exact Hlen.
Qed.

Lemma eff_cnt s s' i : eff s s' i -> Inv s -> forall g, get (ctr s') g = cnt (holds true g) (thr s').
Proof.
  intros [Hc _ _ HH _|g Hg Hc _ _ HH _|_ Hc _ _ HH _|g Hc _ _ HH _|g Hc _ _ HH _] [_ Hcnt _ _] h; rewrite Hc.
  - rewrite HH. apply Hcnt.
  - rewrite HH, get_incr, Hcnt by (eapply get_pos_lt, Hg). reflexivity.
  - rewrite HH, get_snoc_1, Hcnt. reflexivity.
  - rewrite get_decr, Hcnt, <- (HH h). lia.
  - rewrite HH. apply Hcnt.
Qed.

Lemma eff_mark s s' i :
  eff s s' i -> Inv s -> forall g, g < length (ctr s') -> get (zeros s') g = b2n (get (ctr s') g =? 0).
Proof.
  intros [Hc Hz _ _ _|g Hg Hc Hz _ _ _|_ Hc Hz _ _ _|g Hc Hz _ _ _|g Hc Hz _ _ _] [Hlen _ Hmark _] h;
    rewrite Hc, Hz.
  - apply Hmark.
  - (* the counter that rises was not at 0 *)
    rewrite length_set_nth. intros Hh. rewrite get_incr, (Hmark h Hh) by (eapply get_pos_lt, Hg).
    destruct (Nat.eqb_spec g h) as [<-|]; cbn [b2n]; [|rewrite Nat.add_0_r; reflexivity].
    destruct (get (ctr s) g); [inversion Hg|reflexivity].
  - rewrite app_length. cbn [length]. intros Hh. rewrite get_snoc_0, get_snoc_1.
    destruct (Nat.eqb_spec (length (ctr s)) h) as [<-|]; cbn [b2n].
    + rewrite !get_overflow by lia. reflexivity.
    + rewrite Nat.add_0_r. apply Hmark. lia.
  - (* a counter that falls from 1 is in range, so its mark is set *)
    rewrite length_set_nth. intros Hh. rewrite get_decr.
    destruct (Nat.eqb_spec (get (ctr s) g) 1) as [E|E].
    + rewrite get_incr, (Hmark h Hh) by (rewrite Hlen; apply get_pos_lt; lia).
      destruct (Nat.eqb_spec g h) as [<-|]; cbn [b2n]; [rewrite E; reflexivity|].
      rewrite Nat.add_0_r, Nat.sub_0_r. reflexivity.
    + rewrite (Hmark h Hh). destruct (Nat.eqb_spec g h) as [<-|]; cbn [b2n]; [|rewrite Nat.sub_0_r; reflexivity].
      destruct (get (ctr s) g) as [|[|c]]; [reflexivity|contradiction|reflexivity].
  - apply Hmark.
Qed.

Lemma eff_un s s' i :
  eff s s' i -> log s' = log s -> Inv s ->
  forall g, count_msg (MUnsub g) (log s' ++ mbox s') + cnt (at_send g) (thr s') = get (zeros s') g.
Proof.
  intros [_ Hz Hm _ HA|g _ _ Hz Hm _ HA|_ _ Hz Hm _ HA|g _ Hz Hm _ HA|g _ Hz Hm _ HA] Hlog [Hlen _ _ Hun] h;
    rewrite Hlog, Hm, Hz, ?HA.
  - apply Hun.
  - apply Hun.
  - rewrite get_snoc_0, app_assoc, count_msg_app, <- Hun. cbn [count_msg]. lia.
  - destruct (Nat.eqb_spec (get (ctr s) g) 1) as [E|E].
    + rewrite get_incr, andb_true_r, <- (Hun h) by (rewrite Hlen; apply get_pos_lt; lia). lia.
    + rewrite andb_false_r, <- (Hun h). cbn [b2n]. lia.
  - rewrite app_assoc, count_msg_app, <- Hun, <- (HA h). cbn [count_msg].
    rewrite (Nat.eqb_sym h g). destruct (g =? h); cbn [b2n]; lia.
Qed.

Lemma tstep_inv s i s' : Inv s -> tstep true s i = Some s' -> Inv s'.
Proof.
  intros HI Hstep. destruct (tstep_eff _ _ _ Hstep) as (Hlog & _ & _ & E).
  constructor; [eapply eff_len|eapply eff_cnt|eapply eff_mark|eapply eff_un]; eassumption.
Qed.

Lemma mstep_inv s s' : Inv s -> mstep s = Some s' -> Inv s'.
Proof.
  intros [Hlen Hcnt Hzero Hun] Hstep. unfold mstep in Hstep.
  destruct (mbox s) as [|[g|g] r] eqn:Em; [discriminate| |]; injection Hstep as <-;
    constructor; cbn [ctr zeros thr log mbox]; auto; intros g0.
  - rewrite cnt_map_ext by (intros; apply holds_wake). apply Hcnt.
  - rewrite cnt_map_ext by (intros; apply at_send_wake). rewrite <- app_assoc. apply Hun.
  - rewrite <- app_assoc. apply Hun.
Qed.

Lemma stepb_inv s l s' : Inv s -> stepb true s l = Some s' -> Inv s'.
Proof. destruct l; cbn [stepb]; [apply tstep_inv|apply mstep_inv]. Qed.

Lemma run_strict_inv ls : forall s s', Inv s -> run_strict true s ls = Some s' -> Inv s'.
Proof.
  induction ls as [|l ls IH]; intros s s' HI H; cbn [run_strict] in H.
  - injection H as <-. exact HI.
  - destruct (stepb true s l) as [s1|] eqn:E; [|discriminate]. eapply IH; [|exact H]. eapply stepb_inv; eassumption.
Qed.

Definition reachable (fixed : bool) (flags : list bool) (s : st) : Prop :=
  exists ls, run_strict fixed (init flags) ls = Some s.

Lemma reachable_inv flags s : reachable true flags s -> Inv s.
Proof. intros [ls H]. eapply run_strict_inv; [apply init_inv|exact H]. Qed.

Lemma holds_handle_holds g t : holds_handle g t = true -> holds true g t = true.
Proof. unfold holds_handle, holds. destruct (tpc t); auto; discriminate. Qed.

(** [holds_handle] includes [PWin]: the handle is about to be returned and the increment has
    already happened *)
Lemma inv_handle_generation_live s i t g :
  Inv s -> nth_error (thr s) i = Some t -> holds_handle g t = true ->
  1 <= get (ctr s) g /\ get (zeros s) g = 0 /\
  count_msg (MUnsub g) (log s ++ mbox s) = 0 /\ cnt (at_send g) (thr s) = 0.
Proof.
  intros HI Hn Hh. pose proof (zeros_once s g HI) as Hz. destruct HI as [_ Hcnt _ Hun].
  assert (Hc : 1 <= get (ctr s) g).
  { rewrite Hcnt. eapply cnt_pos; [exact Hn|]. apply holds_handle_holds. exact Hh. }
  specialize (Hun g). lia.
Qed.

Definition unsub_sent (ms : list msg) (g : nat) : bool := 1 <=? count_msg (MUnsub g) ms.

(** The messages of [n] generations that subscribed one after the other: join 0, leave 0, join 1,
    leave 1, ..., where generation [g] has left iff [b g].  Without overlap the whole message
    history is of this form, so it is determined by which generations have left. *)
Definition hist_item (b : nat -> bool) (g : nat) : list msg := MSub g :: (if b g then [MUnsub g] else []).
Definition hist (b : nat -> bool) (n : nat) : list msg := flat_map (hist_item b) (seq 0 n).

Record SeqInv (s : st) : Prop := {
  sq_fin : forall g, S g < length (ctr s) -> unfinished s g = false;
  sq_hist : log s ++ mbox s = hist (unsub_sent (log s ++ mbox s)) (length (ctr s));
  sq_sess : sess s = sess_after (log s) None;
  (* a held handle's generation has sent no Unsubscribe ([inv_handle_generation_live]), so its
     session is not in [dead] *)
  sq_dead : forall h, In h (dead s) -> 1 <= count_msg (MUnsub h) (log s) }.

Lemma unfinished_false s g :
  unfinished s g = false <-> get (ctr s) g = 0 /\ cnt (at_send g) (thr s) = 0.
Proof.
  unfold unfinished. rewrite orb_false_iff, existsb_cnt, Nat.leb_gt. lia.
Qed.

Lemma existsb_seq_false f n g : existsb f (seq 0 n) = false -> g < n -> f g = false.
Proof.
  intros H Hg. destruct (f g) eqn:E; [|reflexivity].
  rewrite <- H. symmetry. apply existsb_exists. exists g. split; [apply in_seq; lia|exact E].
Qed.

Lemma sess_after_app a b x : sess_after (a ++ b) x = sess_after b (sess_after a x).
Proof. unfold sess_after. apply fold_left_app. Qed.

Lemma unsub_sent_snoc ms m g : m <> MUnsub g -> unsub_sent (ms ++ [m]) g = unsub_sent ms g.
Proof.
  intros Hm. unfold unsub_sent. rewrite count_msg_app. cbn [count_msg].
  destruct m as [a|a]; [|destruct (Nat.eqb_spec g a); [congruence|]]; rewrite !Nat.add_0_r; reflexivity.
Qed.

Lemma hist_ext b b' n : (forall g, g < n -> b g = b' g) -> hist b n = hist b' n.
Proof.
  intros H. unfold hist.
  assert (H' : forall g, In g (seq 0 n) -> b g = b' g) by (intros g Hg; apply in_seq in Hg; apply H; lia).
  induction (seq 0 n) as [|g gs IH]; [reflexivity|]. cbn [flat_map].
  rewrite IH by (intros; apply H'; right; assumption).
  unfold hist_item. rewrite (H' g) by (left; reflexivity). reflexivity.
Qed.

Lemma hist_snoc b n : hist b (S n) = hist b n ++ hist_item b n.
Proof. unfold hist. rewrite seq_S, flat_map_app. cbn [flat_map Nat.add]. rewrite app_nil_r. reflexivity. Qed.

Lemma hist_end b n x : sess_after (hist b (S n)) x = if b n then None else Some n.
Proof. rewrite hist_snoc, sess_after_app. unfold hist_item. destruct (b n); reflexivity. Qed.

Lemma hist_before_unsub b gs : forall l g r x,
  flat_map (hist_item b) gs = l ++ MUnsub g :: r -> sess_after l x = Some g.
Proof.
  induction gs as [|g0 gs IH]; intros l g r x H; cbn [flat_map] in H.
  - destruct l; discriminate.
  - unfold hist_item at 1 in H. destruct l as [|m l]; [discriminate|]. cbn [app] in H. injection H as <- H.
    cbn [sess_after fold_left sess_step]. change (fold_left sess_step l (Some g0)) with (sess_after l (Some g0)).
    destruct (b g0).
    + cbn [app] in H. destruct l as [|m l]; cbn [app] in H.
      * injection H as -> _. reflexivity.
      * injection H as <- H. cbn [sess_after fold_left sess_step]. eapply IH. exact H.
    + cbn [app] in H. eapply IH. exact H.
Qed.

Lemma hist_alternating b gs :
  (forall g, In g (removelast gs) -> b g = true) -> alternating true (flat_map (hist_item b) gs) = true.
Proof.
  induction gs as [|g gs IH]; intros Hb; [reflexivity|]. cbn [flat_map]. unfold hist_item at 1.
  destruct gs as [|g' gs].
  - cbn [flat_map app]. destruct (b g); reflexivity.
  - rewrite (Hb g) by (left; reflexivity). cbn [app alternating andb negb].
    apply IH. intros x Hx. apply Hb. right. exact Hx.
Qed.

Lemma init_seqinv flags : SeqInv (init flags).
Proof.
  constructor; cbn [init ctr log mbox sess dead length]; intros.
  - lia.
  - reflexivity.
  - reflexivity.
  - destruct H.
Qed.

Lemma finished_left s g :
  Inv s -> g < length (ctr s) -> get (ctr s) g = 0 -> cnt (at_send g) (thr s) = 0 ->
  unsub_sent (log s ++ mbox s) g = true.
Proof.
  intros [_ _ Hzero Hun] Hg Hc Ha. unfold unsub_sent.
  specialize (Hun g). rewrite (Hzero g Hg), Hc, Ha, Nat.add_0_r in Hun. rewrite Hun. reflexivity.
Qed.

Lemma hist_join ms n :
  ms = hist (unsub_sent ms) n -> count_msg (MUnsub n) ms = 0 ->
  ms ++ [MSub n] = hist (unsub_sent (ms ++ [MSub n])) (S n).
Proof.
  intros Hms H0. rewrite hist_snoc.
  rewrite (hist_ext _ (unsub_sent ms)) by (intros; apply unsub_sent_snoc; discriminate).
  unfold hist_item. rewrite unsub_sent_snoc by discriminate.
  unfold unsub_sent at 2. rewrite H0, <- Hms. reflexivity.
Qed.

Lemma hist_leave ms g :
  ms = hist (unsub_sent ms) (S g) -> count_msg (MUnsub g) ms = 0 ->
  ms ++ [MUnsub g] = hist (unsub_sent (ms ++ [MUnsub g])) (S g).
Proof.
  intros Hms H0. rewrite hist_snoc in Hms |- *.
  rewrite (hist_ext _ (unsub_sent ms)) by (intros h Hh; apply unsub_sent_snoc; intros [= ->]; lia).
  assert (Eb : unsub_sent ms g = false) by (unfold unsub_sent; rewrite H0; reflexivity).
  assert (Eb' : unsub_sent (ms ++ [MUnsub g]) g = true).
  { unfold unsub_sent. rewrite count_msg_app, H0. cbn [count_msg]. rewrite Nat.eqb_refl. reflexivity. }
  unfold hist_item in *. rewrite Eb in Hms. rewrite Eb'.
  change [MSub g; MUnsub g] with ([MSub g] ++ [MUnsub g]). rewrite app_assoc, <- Hms. reflexivity.
Qed.

Lemma eff_fin s s' i :
  Inv s -> SeqInv s -> eff s s' i -> overlap s (LT i) = false ->
  forall g, S g < length (ctr s') -> unfinished s' g = false.
Proof.
  intros [_ Hcnt _ _] [Hfin _ _ _] E Hov.
  assert (Hfin' : forall g, S g < length (ctr s) -> get (ctr s) g = 0 /\ cnt (at_send g) (thr s) = 0)
    by (intros g Hg; apply unfinished_false, Hfin, Hg).
  destruct E as [Hc _ _ _ HA|g Hg Hc _ _ _ HA|Ho Hc _ _ _ HA|g Hc _ _ HH HA|g Hc _ _ _ HA];
    intros h; rewrite Hc; intros Hh; apply unfinished_false; rewrite Hc, ?HA.
  - apply Hfin', Hh.
  - (* the counter that rises is not at 0, so it is the newest generation's *)
    rewrite length_set_nth in Hh. rewrite get_incr by (eapply get_pos_lt, Hg).
    destruct (Hfin' h Hh) as [H0 Ha]. destruct (Nat.eqb_spec g h) as [<-|]; cbn [b2n]; lia.
  - (* all earlier generations are finished, since the step is no overlap *)
    rewrite app_length in Hh. cbn [length] in Hh. rewrite get_snoc_1.
    assert (Hall : unfinished s h = false)
      by (apply (existsb_seq_false _ (length (ctr s))); [rewrite <- Ho; exact Hov|lia]).
    apply unfinished_false in Hall. destruct (Nat.eqb_spec (length (ctr s)) h); cbn [b2n]; lia.
  - (* a thread holds [g], so [g] is the newest generation and no other is touched *)
    rewrite length_set_nth in Hh. rewrite get_decr.
    destruct (Hfin' h Hh) as [H0 Ha]. specialize (HH h). rewrite <- Hcnt, H0 in HH.
    destruct (g =? h); cbn [b2n andb] in *; lia.
  - destruct (Hfin' h Hh) as [H0 Ha]. specialize (HA h). lia.
Qed.

Lemma eff_hist s s' i :
  Inv s -> SeqInv s -> eff s s' i -> log s' = log s ->
  log s' ++ mbox s' = hist (unsub_sent (log s' ++ mbox s')) (length (ctr s')).
Proof.
  intros HI [Hfin Hhist _ _] E Hlog. pose proof HI as [Hlen _ _ Hun].
  destruct E as [Hc _ Hm _ _|g _ Hc _ Hm _ _|_ Hc _ Hm _ _|g Hc _ Hm _ _|g Hc _ Hm _ HA];
    rewrite Hlog, Hm, Hc, ?length_set_nth; try exact Hhist.
  - (* the join of the new generation is appended; nothing of it was sent before *)
    rewrite app_length, app_assoc. cbn [length]. rewrite Nat.add_1_r.
    apply hist_join; [exact Hhist|]. specialize (Hun (length (ctr s))). rewrite get_overflow in Hun; lia.
  - (* the Unsubscribe was owed, so [g] is the newest generation and had sent none yet *)
    pose proof (HA g) as Hg1. rewrite Nat.eqb_refl in Hg1. cbn [b2n] in Hg1.
    pose proof (Hun g) as Hug. destruct (zeros_once s g HI) as [Hz1 _].
    assert (Hlast : S g = length (ctr s)).
    { destruct (Nat.lt_total (S g) (length (ctr s))) as [Hlt|[Hlast|Hgt]]; [|exact Hlast|].
      - apply Hfin, unfinished_false in Hlt. lia.
      - rewrite (get_overflow (zeros s)) in Hug; lia. }
    rewrite app_assoc, <- Hlast. apply hist_leave; [rewrite Hlast; exact Hhist|lia].
Qed.

Lemma tstep_seqinv s i s' :
  Inv s -> SeqInv s -> overlap s (LT i) = false -> tstep true s i = Some s' -> SeqInv s'.
Proof.
  intros HI HS Hov Hstep.
  destruct (tstep_eff _ _ _ Hstep) as (Hlog & Hss & Hdd & E). constructor.
  - eapply eff_fin; eassumption.
  - eapply eff_hist; eassumption.
  - rewrite Hss, Hlog. apply HS.
  - rewrite Hdd, Hlog. apply HS.
Qed.

Lemma mstep_seqinv s s' : SeqInv s -> mstep s = Some s' -> SeqInv s'.
Proof.
  intros [Hfin Hhist Hsess Hdead] Hstep. unfold mstep in Hstep.
  destruct (mbox s) as [|[g|g] r] eqn:Em; [discriminate| |]; injection Hstep as <-.
  - constructor; cbn [ctr zeros thr log mbox sess dead].
    + intros g0 Hg. apply unfinished_false. cbn [ctr thr].
      rewrite cnt_map_ext by (intros; apply at_send_wake). apply unfinished_false, Hfin, Hg.
    + rewrite <- app_assoc. exact Hhist.
    + rewrite sess_after_app. reflexivity.
    + intros h Hh. rewrite count_msg_app. specialize (Hdead h Hh). lia.
  - assert (Hg : sess s = Some g).
    { rewrite Hsess. eapply hist_before_unsub. unfold hist in Hhist. rewrite <- Hhist. reflexivity. }
    constructor; cbn [ctr zeros thr log mbox sess dead]; auto.
    + rewrite <- app_assoc. exact Hhist.
    + rewrite sess_after_app. reflexivity.
    + rewrite Hg. intros h [<-|Hh]; rewrite count_msg_app; cbn [count_msg].
      * rewrite Nat.eqb_refl. lia.
      * specialize (Hdead h Hh). lia.
Qed.

Lemma run_strict_seqinv ls : forall s s',
  Inv s -> SeqInv s -> no_overlap true s ls = true -> run_strict true s ls = Some s' -> Inv s' /\ SeqInv s'.
Proof.
  induction ls as [|l ls IH]; intros s s' HI HS Hno H; cbn [run_strict] in H.
  - injection H as <-. auto.
  - cbn [no_overlap] in Hno. destruct (stepb true s l) as [s1|] eqn:E; [|discriminate].
    apply andb_true_iff in Hno. destruct Hno as [Hov Hno]. apply negb_true_iff in Hov.
    eapply IH; [| |exact Hno|exact H].
    + eapply stepb_inv; eassumption.
    + destruct l as [i|]; cbn [stepb] in E; [eapply tstep_seqinv|eapply mstep_seqinv]; eassumption.
Qed.

Lemma referenced_is_newest s g : SeqInv s -> 1 <= get (ctr s) g -> S g = length (ctr s).
Proof.
  intros [Hfin _ _ _] Hc. pose proof (get_pos_lt _ _ Hc) as Hlt.
  destruct (Nat.eq_dec (S g) (length (ctr s))) as [|Hne]; [assumption|].
  assert (Hg : S g < length (ctr s)) by lia. apply Hfin, unfinished_false in Hg. lia.
Qed.

Lemma seq_handle_active s i t g :
  Inv s -> SeqInv s -> nth_error (thr s) i = Some t -> holds_handle g t = true ->
  sess_after (mbox s) (sess s) = Some g /\ ~ In g (dead s).
Proof.
  intros HI HS Hn Hh.
  destruct (inv_handle_generation_live s i t g HI Hn Hh) as [Hc [Hz [Hu Hs]]].
  pose proof (referenced_is_newest s g HS Hc) as Hlast. destruct HS as [_ Hhist Hsess Hdead].
  split.
  - rewrite Hsess, <- sess_after_app, Hhist, <- Hlast, hist_end. unfold unsub_sent. rewrite Hu. reflexivity.
  - intros Hin. specialize (Hdead g Hin). rewrite count_msg_app in Hu. lia.
Qed.

Lemma seq_alternating s : Inv s -> SeqInv s -> alternating true (log s ++ mbox s) = true.
Proof.
  intros HI [Hfin Hhist _ _]. rewrite Hhist. apply hist_alternating.
  destruct (length (ctr s)) as [|n] eqn:En; [intros g []|].
  rewrite removelast_seq. intros g Hg. apply in_seq in Hg.
  assert (Hg' : S g < S n) by lia. apply Hfin, unfinished_false in Hg'.
  apply finished_left; [exact HI|lia|apply Hg'|apply Hg'].
Qed.

Lemma seq_left_when_unreferenced s :
  Inv s -> SeqInv s ->
  (forall g, get (ctr s) g = 0) -> (forall g, cnt (at_send g) (thr s) = 0) ->
  sess_after (mbox s) (sess s) = None.
Proof.
  intros HI [_ Hhist Hsess _] Hc Hs. rewrite Hsess, <- sess_after_app, Hhist.
  destruct (length (ctr s)) as [|n] eqn:En; [reflexivity|].
  rewrite hist_end, (finished_left s n HI); [reflexivity|lia|apply Hc|apply Hs].
Qed.

(** [run_skip] drops the labels that are not enabled and [drain] adds enabled steps: both end in
    a state that a strict trace reaches, so the theorems about [run_strict] speak about every
    state the correspondence runs visit. *)
Lemma run_strict_app fixed a : forall s s' b,
  run_strict fixed s a = Some s' -> run_strict fixed s (a ++ b) = run_strict fixed s' b.
Proof.
  induction a as [|l a IH]; intros s s' b H; cbn [run_strict app] in *.
  - injection H as <-. reflexivity.
  - destruct (stepb fixed s l); [|discriminate]. apply IH. exact H.
Qed.

Lemma run_skip_strict fixed ls : forall s, exists ls', run_strict fixed s ls' = Some (run_skip fixed s ls).
Proof.
  induction ls as [|l ls IH]; intros s; cbn [run_skip].
  - exists []. reflexivity.
  - destruct (stepb fixed s l) as [s1|] eqn:E.
    + destruct (IH s1) as [ls' H]. exists (l :: ls'). cbn [run_strict]. rewrite E. exact H.
    + apply IH.
Qed.

Lemma first_thread_step_some fixed s is s' :
  first_thread_step fixed s is = Some s' -> exists i, tstep fixed s i = Some s'.
Proof.
  induction is as [|i is IH]; cbn [first_thread_step]; [discriminate|].
  destruct (tstep fixed s i) as [s1|] eqn:E; [intros H; injection H as <-; eauto|apply IH].
Qed.

Lemma drain_strict fixed fuel : forall s, exists ls', run_strict fixed s ls' = Some (drain fuel fixed s).
Proof.
  induction fuel as [|f IH]; intros s; cbn [drain].
  - exists []. reflexivity.
  - destruct (first_thread_step fixed s (seq 0 (length (thr s)))) as [s1|] eqn:E.
    + destruct (first_thread_step_some _ _ _ _ E) as [i Hi]. destruct (IH s1) as [ls' H].
      exists (LT i :: ls'). cbn [run_strict stepb]. rewrite Hi. exact H.
    + destruct (mstep s) as [s1|] eqn:Em.
      * destruct (IH s1) as [ls' H]. exists (LM :: ls'). cbn [run_strict stepb]. rewrite Em. exact H.
      * exists []. reflexivity.
Qed.

Lemma run_case_reachable fixed flags ls : reachable fixed flags (run_case fixed flags ls).
Proof.
  unfold run_case, reachable.
  destruct (run_skip_strict fixed ls (init flags)) as [a Ha].
  destruct (drain_strict fixed (fuel_for flags) (run_skip fixed (init flags) ls)) as [b Hb].
  exists (a ++ b). rewrite (run_strict_app fixed a _ _ b Ha). exact Hb.
Qed.

Theorem counter_counts_references flags s g :
  reachable true flags s -> get (ctr s) g = cnt (holds true g) (thr s).
Proof. intros H. apply reachable_inv in H. apply H. Qed.

Theorem unsubscribe_count_is_zero_transitions flags s g :
  reachable true flags s ->
  count_msg (MUnsub g) (log s ++ mbox s) + cnt (at_send g) (thr s) = get (zeros s) g /\
  get (zeros s) g <= 1 /\
  (get (zeros s) g = 1 -> get (ctr s) g = 0).
Proof.
  intros H. apply reachable_inv in H. split; [apply H|apply zeros_once, H].
Qed.

Theorem returned_handle_generation_live flags s i t g :
  reachable true flags s -> nth_error (thr s) i = Some t -> holds_handle g t = true ->
  1 <= get (ctr s) g /\ get (zeros s) g = 0 /\
  count_msg (MUnsub g) (log s ++ mbox s) = 0 /\ cnt (at_send g) (thr s) = 0.
Proof. intros H. apply reachable_inv in H. apply inv_handle_generation_live. exact H. Qed.

(** the second half of C29 (a returned handle is backed by an active subscription), on a state *)
Definition handles_backed (s : st) : Prop :=
  forall i t g, nth_error (thr s) i = Some t -> holds_handle g t = true ->
                sess_after (mbox s) (sess s) = Some g /\ ~ In g (dead s).

Definition left_iff_unreferenced (s : st) : Prop :=
  (forall g, get (ctr s) g = 0) -> (forall g, cnt (at_send g) (thr s) = 0) ->
  sess_after (mbox s) (sess s) = None.

Lemma not_backed s i t g :
  nth_error (thr s) i = Some t -> holds_handle g t = true ->
  sess_after (mbox s) (sess s) <> Some g -> ~ handles_backed s.
Proof. intros Hn Hh Hs H. apply Hs, (H i t g Hn Hh). Qed.

Theorem outside_known flags ls s :
  run_strict true (init flags) ls = Some s ->
  no_overlap true (init flags) ls = true ->
  handles_backed s /\ alternating true (log s ++ mbox s) = true /\ left_iff_unreferenced s.
Proof.
  intros Hrun Hno.
  destruct (run_strict_seqinv ls (init flags) s (init_inv flags) (init_seqinv flags) Hno Hrun) as [HI HS].
  split; [|split].
  - intros i t g Hn Hh. eapply seq_handle_active; eassumption.
  - apply seq_alternating; assumption.
  - intros Hc Hs. apply seq_left_when_unreferenced; assumption.
Qed.

(** thread 0: stream() then drop; thread 1: stream() and keep.
    T0 subscribes alone; T1 passes has_subscriptions(); T0 drops the last reference and sends
    Unsubscribe; T1 clones; the manager leaves the overlay. *)
Definition toctou_trace : list label := [LT 0; LT 0; LM; LT 0; LT 1; LT 0; LT 0; LT 0; LT 1; LM].

(** as-is (check-then-act): a kept handle whose session was stopped, with no overlapping
    subscription anywhere in the trace *)
Lemma asis_toctou_refuted :
  exists s, run_strict false (init [true; false]) toctou_trace = Some s /\
            no_overlap false (init [true; false]) toctou_trace = true /\
            ~ handles_backed s.
Proof.
  eexists. split; [vm_compute; reflexivity|]. split; [vm_compute; reflexivity|].
  apply (not_backed _ 1 {| tpc := PHold 0; tdrop := false; tpath := 1 |} 0); try reflexivity. discriminate.
Qed.

(** ... and when that handle is dropped later, a second Unsubscribe for the same generation *)
Lemma asis_double_unsubscribe :
  exists s, run_strict false (init [true; true]) (toctou_trace ++ [LT 1; LT 1; LT 1]) = Some s /\
            count_msg (MUnsub 0) (log s ++ mbox s) = 2.
Proof. eexists. split; vm_compute; reflexivity. Qed.

(** the same window on the repaired protocol keeps the handle backed *)
Definition fixed_window_trace : list label := [LT 0; LT 0; LM; LT 0; LT 1; LT 0; LT 0; LT 1].

Lemma fixed_toctou_fine :
  exists s, run_strict true (init [true; false]) fixed_window_trace = Some s /\
            handles_backed s /\ sess s = Some 0 /\ mbox s = [].
Proof.
  eexists. split; [vm_compute; reflexivity|]. split; [|split; reflexivity].
  refine (proj1 (outside_known [true; false] fixed_window_trace _ _ _)); vm_compute; reflexivity.
Qed.

(** Open finding 1 (also in the repaired protocol): a drop is preempted between fetch_sub and
    send_message; meanwhile another stream() re-subscribes; the late Unsubscribe then stops the
    NEW session. *)
Definition late_unsub_trace : list label := [LT 0; LT 0; LM; LT 0; LT 0; LT 0; LT 1; LT 1; LM; LT 1; LT 0; LM].

Lemma late_unsubscribe_refuted :
  exists s, run_strict true (init [true; false]) late_unsub_trace = Some s /\ ~ handles_backed s.
Proof.
  eexists. split; [vm_compute; reflexivity|].
  apply (not_backed _ 1 {| tpc := PHold 1; tdrop := false; tpath := 2 |} 1); try reflexivity. discriminate.
Qed.

(** Open finding 2: two stream() calls for a topic without a live subscription run their slow
    paths concurrently; both subscribe; dropping the first handle stops the second session. *)
Definition concurrent_sub_trace : list label := [LT 0; LT 1; LT 0; LT 1; LM; LM; LT 0; LT 1; LT 0; LT 0; LT 0; LM].

Lemma concurrent_subscribe_refuted :
  exists s, run_strict true (init [true; false]) concurrent_sub_trace = Some s /\ ~ handles_backed s.
Proof.
  eexists. split; [vm_compute; reflexivity|].
  apply (not_backed _ 1 {| tpc := PHold 1; tdrop := false; tpath := 2 |} 1); try reflexivity. discriminate.
Qed.

Lemma open_findings_are_overlaps :
  no_overlap true (init [true; false]) late_unsub_trace = false /\
  no_overlap true (init [true; false]) concurrent_sub_trace = false.
Proof. split; vm_compute; reflexivity. Qed.

(** Regression witness: if the decision of [drop] re-read the shared counter instead of using the
    value its own fetch_sub returned, the last two references dropped concurrently (both
    decrements before either decision) would BOTH send Unsubscribe for one single 1 -> 0
    transition.  The code as it is (decision on the thread-local previous value) sends exactly
    one on the same schedule. *)
Definition two_last_drops_trace : list label :=
  [LT 0; LT 0; LM; LT 0; LT 1; LT 1; LT 0; LT 1; LT 0; LT 1; LT 0; LT 1].

Lemma reread_after_decrement_refuted :
  (exists s, run_strict_reread (init [true; true]) two_last_drops_trace = Some s /\
             get (zeros s) 0 = 1 /\ count_msg (MUnsub 0) (log s ++ mbox s) = 2) /\
  count_msg (MUnsub 0) (log (run_case true [true; true] two_last_drops_trace)) = 1.
Proof. split; [eexists; split; [vm_compute; reflexivity|split; vm_compute; reflexivity]|vm_compute; reflexivity]. Qed.

(** Non-vacuity of [outside_known]: a strict trace of three threads without overlap that ends
    with a kept handle on a generation whose counter is 1.  (On the way two threads go through
    the fast-path window while the first still holds its reference.) *)
Example ex_three_threads :
  exists s,
    run_strict true (init [true; false; true]) [LT 0; LT 0; LM; LT 0; LT 1; LT 2; LT 0; LT 1; LT 2; LT 2] = Some s /\
    no_overlap true (init [true; false; true]) [LT 0; LT 0; LM; LT 0; LT 1; LT 2; LT 0; LT 1; LT 2; LT 2] = true /\
    get (ctr s) 0 = 1 /\ nth_error (thr s) 1 = Some {| tpc := PHold 0; tdrop := false; tpath := 1 |} /\
    holds_handle 0 {| tpc := PHold 0; tdrop := false; tpath := 1 |} = true.
Proof.
  eexists. split; [vm_compute; reflexivity|]. split; [vm_compute; reflexivity|].
  split; [reflexivity|]. split; reflexivity.
Qed.

