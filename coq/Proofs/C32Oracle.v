(** Soundness of the C32 oracle: if [check] accepts the five observed states, the three laws
    hold extensionally (on every lookup) for these observations. *)
From Coq Require Import List NArith.
From PV Require Import Model.GroupState Proofs.GroupState Oracle.C32.
Import ListNotations.

Lemma member_eqb_sound (a b : MemberState N) : member_eqb a b = true -> a = b.
Proof.
  destruct a as [c1 [o1 l1] k1], b as [c2 [o2 l2] k2]. unfold member_eqb, level_eqb.
  cbn [member_counter access access_counter conditions level]. intros H.
  apply andb_prop in H as [H Hl]. apply andb_prop in H as [H Ho]. apply andb_prop in H as [Hc Hk].
  apply N.eqb_eq in Hc, Hk, Hl. apply level_N_inj in Hl. subst c2 k2 l2.
  destruct o1 as [x|], o2 as [y|]; cbn [optN_eqb] in Ho; try discriminate; [|reflexivity].
  apply N.eqb_eq in Ho. subst y. reflexivity.
Qed.

Lemma state_eqb_sound (a b : NState) :
  state_eqb a b = true -> forall id, lookup id a = lookup id b.
Proof.
  unfold state_eqb. intros H id.
  destruct (in_dec N.eq_dec id (keys a ++ keys b)) as [Hin|Hnin].
  - apply (proj1 (forallb_forall _ _) H) in Hin.
    destruct (lookup id a) as [x|], (lookup id b) as [y|]; cbn [opt_member_eqb] in Hin;
      try discriminate; [|reflexivity].
    f_equal. apply member_eqb_sound, Hin.
  - rewrite (lookup_not_in id a), (lookup_not_in id b); [reflexivity| |];
      intros X; apply Hnin, in_or_app; [right|left]; exact X.
Qed.

Theorem check_sound (s1 m12 m21 m12_3 m1_23 m11 : NState) :
  check s1 m12 m21 m12_3 m1_23 m11 = true ->
  (forall id, lookup id m12 = lookup id m21) /\
  (forall id, lookup id m12_3 = lookup id m1_23) /\
  (forall id, lookup id m11 = lookup id s1).
Proof.
  unfold check. intros H. apply andb_prop in H as [H H3]. apply andb_prop in H as [H1 H2].
  repeat split; apply state_eqb_sound; assumption.
Qed.
