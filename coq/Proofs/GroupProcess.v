(** Proofs for C33 over Model/GroupProcess.v: an operation is accepted only with authority,
    rejected operations leave the replica unchanged, and members only ever come from accepted
    create/add operations; the open finding that a create is accepted for a group that already
    exists; and that the decision on an operation depends only on the states stored for its
    declared dependencies. *)
From Coq Require Import List NArith Bool.
From PV Require Import Model.GroupState Proofs.GroupState Model.GroupProcess.
Import ListNotations.

Lemma fold_left_ext_in {A B} (f g : A -> B -> A) l :
  (forall a b, In b l -> f a b = g a b) -> forall a, fold_left f l a = fold_left g l a.
Proof.
  induction l as [|b r IH]; intros H a; cbn [fold_left]; [reflexivity|].
  rewrite (H a b (or_introl eq_refl)). apply IH. intros a' b' Hin. apply H. right. exact Hin.
Qed.

Lemma memN_In x l : memN x l = true -> In x l.
Proof.
  unfold memN. intros H. apply existsb_exists in H. destruct H as [y [Hin He]].
  apply N.eqb_eq in He. subst y. exact Hin.
Qed.

Section Known.
  Context {C : Type}.
  Implicit Types (s : State C) (m : MemberState C).

  Definition known s (id : N) : Prop := lookup id s <> None.

  Lemma lookup_known s id m : lookup id s = Some m -> known s id.
  Proof. unfold known. intros ->. discriminate. Qed.

  Lemma is_active_known s id : is_active s id = true -> known s id.
  Proof. unfold is_active, known. destruct (lookup id s); discriminate. Qed.

  Lemma known_set s k v id : known (set k v s) id -> id = k \/ known s id.
  Proof.
    unfold known. rewrite lookup_set.
    destruct (N.eqb_spec id k) as [->|_]; [left; reflexivity|right; assumption].
  Qed.

  Lemma known_set_existing s k v id : known s k -> known (set k v s) id -> known s id.
  Proof. intros Hk H. destruct (known_set _ _ _ _ H) as [->|H']; assumption. Qed.

  Lemma known_create (l : list (N * Access C)) id : known (create l) id -> In id (map fst l).
  Proof.
    intros H. apply (fold_left_source _ (fun s => known s id) (fun ia => id = fst ia)) in H.
    - destruct H as [[ia [Hin ->]]|H]; [apply in_map, Hin|exfalso; apply H; reflexivity].
    - intros s ia. apply known_set.
  Qed.

End Known.

Section Authority.
  Context {C : Type}.
  Variable ceqb : C -> C -> bool.
  Implicit Types (s : State C).

  (** The three actor checks, as [check_manager], [add] and [modify] each spell them out with
      their own result type. *)
  Lemma actor_checks {R} (e1 e2 e3 K r : R) s a :
    match lookup a s with
    | None => e1
    | Some st => if negb (is_member st) then e2 else if negb (is_manager st) then e3 else K
    end = r ->
    r <> e1 -> r <> e2 -> r <> e3 -> is_active_manager s a = true /\ K = r.
  Proof.
    unfold is_active_manager. intros E N1 N2 N3. destruct (lookup a s) as [st|]; [|congruence].
    destruct (is_member st); cbn [negb] in *; [|congruence].
    destruct (is_manager st); cbn [negb andb] in *; [|congruence]. split; [reflexivity|exact E].
  Qed.

  Lemma check_manager_none s a : check_manager s a = None -> is_active_manager s a = true.
  Proof. intros H. apply actor_checks in H; [apply H|discriminate..]. Qed.

  Lemma add_ok s a b x s' :
    add s a b x = Ok s' ->
    is_active_manager s a = true /\ is_active s b = false /\ (forall id, known s' id -> id = b \/ known s id).
  Proof.
    unfold add, is_active. intros H. apply actor_checks in H; [|discriminate..]. destruct H as [Ha H].
    split; [exact Ha|]. destruct (lookup b s) as [ad|].
    - destruct (is_member ad); [discriminate|]. injection H as <-. split; [reflexivity|apply known_set].
    - injection H as <-. split; [reflexivity|apply known_set].
  Qed.

  Lemma remove_ok s a b s' :
    remove s a b = Ok s' ->
    (is_active_manager s a = true \/ (a = b /\ is_active s a = true)) /\ is_active s b = true
    /\ (forall id, known s' id -> known s id).
  Proof.
    unfold remove, is_active_manager, is_active. destruct (lookup a s) as [st|]; [|discriminate].
    destruct (is_member st); cbn [negb andb]; [|discriminate].
    destruct (negb (is_manager st) && negb (N.eqb a b)) eqn:Eauth; [discriminate|].
    destruct (lookup b s) as [rm|] eqn:Eb; [|discriminate].
    destruct (is_member rm); cbn [negb]; [|discriminate]. injection 1 as <-.
    split; [|split; [reflexivity|intros id; apply known_set_existing, (lookup_known _ _ _ Eb)]].
    apply andb_false_iff in Eauth. destruct Eauth as [E|E]; apply negb_false_iff in E.
    - left. exact E.
    - right. apply N.eqb_eq in E. split; [exact E|reflexivity].
  Qed.

  Lemma modify_ok s a b x s' :
    modify ceqb s a b x = Ok s' ->
    is_active_manager s a = true /\ is_active s b = true /\ (forall id, known s' id -> known s id).
  Proof.
    unfold modify, is_active. intros H. apply actor_checks in H; [|discriminate..]. destruct H as [Ha H].
    split; [exact Ha|].
    destruct (lookup b s) as [md|] eqn:Eb; [|discriminate].
    destruct (is_member md); cbn [negb] in H; [|discriminate]. split; [reflexivity|].
    destruct (access_eqb ceqb (access md) x); injection H as <-; [auto|].
    intros id. apply known_set_existing, (lookup_known _ _ _ Eb).
  Qed.

  (** [promote] and [demote] are one function up to the test [p] for "nothing to do".  On that
      path the code does not test whether the target is active, so only [known s b] holds. *)
  Lemma modify_or_noop_ok (p : MemberState C -> bool) s a b x s' :
    match lookup b s with
    | Some m =>
        if p m then match check_manager s a with Some e => Err e | None => Ok s end
        else modify ceqb s a b x
    | None => Err UnrecognisedMember
    end = Ok s' ->
    is_active_manager s a = true /\ known s b /\ (forall id, known s' id -> known s id).
  Proof.
    destruct (lookup b s) as [m|] eqn:Eb; [|discriminate].
    pose proof (lookup_known _ _ _ Eb) as Kb. destruct (p m).
    - destruct (check_manager s a) eqn:Ec; [discriminate|]. injection 1 as <-.
      split; [apply check_manager_none, Ec|]. split; [exact Kb|auto].
    - intros H. apply modify_ok in H. destruct H as [H1 [_ H3]]. split; [exact H1|]. split; [exact Kb|exact H3].
  Qed.

  Lemma promote_ok s a b x s' :
    promote ceqb s a b x = Ok s' ->
    is_active_manager s a = true /\ known s b /\ (forall id, known s' id -> known s id).
  Proof. exact (modify_or_noop_ok is_manager s a b x s'). Qed.

  Lemma demote_ok s a b x s' :
    demote ceqb s a b x = Ok s' ->
    is_active_manager s a = true /\ known s b /\ (forall id, known s' id -> known s id).
  Proof. exact (modify_or_noop_ok is_puller s a b x s'). Qed.
End Authority.

Lemma alookup_in {V} k (l : list (N * V)) v : alookup k l = Some v -> In (k, v) l.
Proof.
  induction l as [|[k' v'] r IH]; cbn [alookup In]; [discriminate|].
  destruct (N.eqb_spec k k') as [->|_]; intros H; [inversion H; left; reflexivity|right; apply IH; exact H].
Qed.

Lemma in_aremove {V} k k0 (v : V) l : In (k, v) (aremove k0 l) -> In (k, v) l.
Proof.
  induction l as [|[k' v'] r IH]; cbn [aremove In]; [contradiction|].
  destruct (N.eqb k0 k'); cbn [In]; intros H; [right; apply IH; exact H|].
  destruct H as [H|H]; [left; exact H|right; apply IH; exact H].
Qed.

Lemma in_aset {V} k (v : V) k0 v0 l : In (k, v) (aset k0 v0 l) -> (k = k0 /\ v = v0) \/ In (k, v) l.
Proof.
  unfold aset. cbn [In]. intros [H|H]; [inversion H; left; split; reflexivity|right; eapply in_aremove; exact H].
Qed.

(** Stated with [In], not with [glookup]: shadowed entries count as well, so the invariant below
    needs nothing about the lists being free of duplicate keys; [alookup_in] takes a lookup
    there. *)
Definition group_known (gs : GroupStates) (g m : N) : Prop := exists my, In (g, my) gs /\ known my m.

Lemma gknown_gset gs g0 my0 g m :
  group_known (gset g0 my0 gs) g m -> (g0 = g /\ known my0 m) \/ group_known gs g m.
Proof.
  intros [my [Hin Hk]]. apply in_aset in Hin.
  destruct Hin as [[-> ->]|Hin]; [auto|right; exists my; auto].
Qed.

Lemma gknown_merge_group_states gs cur g m :
  group_known (merge_group_states cur gs) g m -> group_known gs g m \/ group_known cur g m.
Proof.
  intros H.
  apply (fold_left_source _ (fun a => group_known a g m) (fun gs1 => fst gs1 = g /\ known (snd gs1) m)) in H.
  - destruct H as [[[g1 s1] [Hin [<- Hk]]]|H]; [left; exists s1|]; auto.
  - intros a [g1 s1] Hs. cbn [fst snd] in *. destruct (glookup g1 a) as [c|] eqn:Ec.
    + apply gknown_gset in Hs. destruct Hs as [[<- Hk]|Hs]; [|auto].
      apply merge_with_source in Hk. destruct Hk as [Hk|Hk]; [auto|].
      right. exists c. auto using alookup_in.
    + apply gknown_gset, Hs.
Qed.

Definition stored_known (y : Replica) (g m : N) : Prop :=
  exists id gs, In (id, gs) (states y) /\ group_known gs g m.

Lemma state_at_known y deps gs g m :
  state_at y deps = Some gs -> group_known gs g m -> stored_known y g m.
Proof.
  intros H Hk.
  assert (P : match state_at y deps with Some cur => group_known cur g m | None => False end)
    by (rewrite H; exact Hk).
  apply (fold_left_source _ (fun a => match a with Some cur => group_known cur g m | None => False end)
           (fun d => exists gs0, In (d, gs0) (states y) /\ group_known gs0 g m)) in P.
  - destruct P as [[d [_ Hd]]|[my [[] _]]]. exists d. exact Hd.
  - intros [cur|] d; [|intros []]. destruct (alookup d (states y)) as [gs0|] eqn:Ed; [|intros []].
    intros Hg. apply gknown_merge_group_states in Hg. destruct Hg as [Hg|Hg]; [|auto].
    left. exists gs0. auto using alookup_in.
Qed.

Definition adds (a : Action) (m : N) : Prop :=
  (exists l, a = Add m l) \/ (exists ini, a = Create ini /\ In m (map fst ini)).

Lemma apply_members_known my actor a my' id :
  apply_members my actor a = Ok my' -> known my' id -> known my id \/ adds a id.
Proof.
  destruct a as [ini|m l|m|m l|m l]; cbn [apply_members]; intros H Hk.
  - injection H as <-. apply known_create in Hk. rewrite map_map in Hk. right. right. eauto.
  - apply add_ok in H. destruct H as [_ [_ H]]. destruct (H _ Hk) as [->|Hk']; [|auto].
    right. left. eauto.
  - apply remove_ok in H. left. apply H, Hk.
  - apply promote_ok in H. left. apply H, Hk.
  - apply demote_ok in H. left. apply H, Hk.
Qed.

Lemma apply_action_ok gs g actor a gs' :
  apply_action gs g actor a = AOk gs' ->
  exists my my', (if is_create a then Some [] else glookup g gs) = Some my /\
    apply_members my actor a = Ok my' /\ gs' = gset g my' gs.
Proof.
  unfold apply_action. destruct (if is_create a then Some [] else glookup g gs) as [my|]; [|discriminate].
  destruct (apply_members my actor a) as [my'|e] eqn:E; [|discriminate]. injection 1 as <-.
  exists my, my'. auto.
Qed.

Lemma apply_action_known gs g actor a gs' g' m :
  apply_action gs g actor a = AOk gs' -> group_known gs' g' m -> group_known gs g' m \/ (g' = g /\ adds a m).
Proof.
  intros H Hk. destruct (apply_action_ok _ _ _ _ _ H) as [my [my' [E0 [E1 ->]]]].
  apply gknown_gset in Hk. destruct Hk as [[<- Hk]|Hk]; [|left; exact Hk].
  destruct (apply_members_known _ _ _ _ _ E1 Hk) as [H0|H0]; [|auto].
  destruct (is_create a).
  - injection E0 as <-. exfalso. apply H0. reflexivity.
  - left. exists my. auto using alookup_in.
Qed.

Definition accepts (y : Replica) (o : Op) (y' : Replica) : Prop :=
  exists gs gs',
    state_at y (op_deps o) = Some gs /\
    apply_action gs (op_group o) (op_author o) (op_action o) = AOk gs' /\
    y' = mkReplica (o :: ops y) ((op_id o, gs') :: states y).

Lemma process_inv y o y' out :
  process y o = (y', out) -> (out <> OOk /\ y' = y) \/ (out = OOk /\ accepts y o y').
Proof.
  unfold process, accepts.
  destruct (memN (op_id o) (map op_id (ops y)));
    [|destruct (state_at y (op_deps o)) as [gs|];
      [destruct (apply_action gs (op_group o) (op_author o) (op_action o)) as [|e|gs'] eqn:Ea|]];
    injection 1 as <- <-; try (left; split; [discriminate|reflexivity]).
  right. split; [reflexivity|]. exists gs, gs'. auto.
Qed.

Lemma process_accepted y o y' : process y o = (y', OOk) -> accepts y o y'.
Proof.
  intros H. destruct (process_inv _ _ _ _ H) as [[Hne _]|[_ Hacc]]; [contradiction|exact Hacc].
Qed.

Definition introduced_in (l : list Op) (g m : N) : Prop :=
  exists o, In o l /\ op_group o = g /\ adds (op_action o) m.

Definition Inv (y : Replica) : Prop := forall g m, stored_known y g m -> introduced_in (ops y) g m.

Lemma Inv_init : Inv init.
Proof. intros g m [id [gs [[] _]]]. Qed.

Lemma introduced_cons o l g m : introduced_in l g m -> introduced_in (o :: l) g m.
Proof. intros [o' [Hin H]]. exists o'. split; [right; exact Hin|exact H]. Qed.

Lemma process_Inv y o y' out : Inv y -> process y o = (y', out) -> Inv y'.
Proof.
  intros HI H. destruct (process_inv _ _ _ _ H) as [[_ ->]|[_ [gs [gs' [Hs [Ha ->]]]]]]; [exact HI|].
  intros g m [id [gs0 [Hin Hk]]]. cbn [states ops] in *. destruct Hin as [Hin|Hin].
  - injection Hin as <- <-.
    destruct (apply_action_known _ _ _ _ _ _ _ Ha Hk) as [Hold|[-> Hnew]].
    + apply introduced_cons, HI. exact (state_at_known _ _ _ _ _ Hs Hold).
    + exists o. cbn [In]. auto.
  - apply introduced_cons, HI. exists id, gs0. auto.
Qed.

Lemma run_Inv l : forall y, Inv y -> Inv (fst (run y l)).
Proof.
  induction l as [|o r IH]; intros y HI; cbn [run]; [exact HI|].
  destruct (process y o) as [y1 out] eqn:Ep. specialize (IH y1 (process_Inv _ _ _ _ HI Ep)).
  destruct (run y1 r). exact IH.
Qed.

Fixpoint accepted (y : Replica) (l : list Op) : list Op :=
  match l with
  | [] => []
  | o :: r =>
      let '(y1, out) := process y o in
      match out with OOk => o :: accepted y1 r | _ => accepted y1 r end
  end.

Lemma run_ops l : forall y, ops (fst (run y l)) = rev (accepted y l) ++ ops y.
Proof.
  induction l as [|o r IH]; intros y; cbn [run accepted]; [reflexivity|].
  destruct (process y o) as [y1 out] eqn:Ep.
  specialize (IH y1). destruct (run y1 r) as [y2 outs]. cbn [fst] in *. rewrite IH.
  destruct (process_inv _ _ _ _ Ep) as [[Hne ->]|[-> [gs [gs' [_ [_ ->]]]]]].
  - destruct out; try reflexivity. contradiction.
  - cbn [rev ops]. rewrite <- app_assoc. reflexivity.
Qed.

Definition authorised_in (gs : GroupStates) (o : Op) : Prop :=
  match op_action o with
  | Create _ => True
  | a =>
      exists my, glookup (op_group o) gs = Some my /\
        (is_active_manager my (op_author o) = true \/
         (a = Remove (op_author o) /\ is_active my (op_author o) = true))
  end.

Definition valid_in (gs : GroupStates) (o : Op) : Prop :=
  match op_action o with
  | Create _ => True
  | Add m _ => exists my, glookup (op_group o) gs = Some my /\ is_active my m = false
  | Remove m => exists my, glookup (op_group o) gs = Some my /\ is_active my m = true
  | Promote m _ | Demote m _ => exists my, glookup (op_group o) gs = Some my /\ known my m
  end.

Theorem accept_requires_authority y o y' :
  process y o = (y', OOk) ->
  exists gs, state_at y (op_deps o) = Some gs /\ authorised_in gs o /\ valid_in gs o.
Proof.
  intros H. destruct (process_accepted _ _ _ H) as [gs [gs' [Hs [Ha _]]]].
  exists gs. split; [exact Hs|].
  destruct (apply_action_ok _ _ _ _ _ Ha) as [my [my' [Hg [Hm _]]]].
  unfold authorised_in, valid_in.
  destruct (op_action o) as [ini|m l|m|m l|m l]; cbn [is_create apply_members] in Hg, Hm; [split; exact I|..].
  - apply add_ok in Hm. destruct Hm as [H1 [H2 _]]. split; eauto.
  - apply remove_ok in Hm. destruct Hm as [[H1|[<- H1]] [H2 _]]; split; eauto 6.
  - apply promote_ok in Hm. destruct Hm as [H1 [H2 _]]. split; eauto.
  - apply demote_ok in Hm. destruct Hm as [H1 [H2 _]]. split; eauto.
Qed.

Theorem reject_unchanged y o y' out : process y o = (y', out) -> out <> OOk -> y' = y.
Proof.
  intros H Hne. destruct (process_inv _ _ _ _ H) as [[_ E]|[E _]]; [exact E|contradiction].
Qed.

Theorem accept_extends y o y' :
  process y o = (y', OOk) ->
  ops y' = o :: ops y /\ exists gs', states y' = (op_id o, gs') :: states y.
Proof.
  intros H. destruct (process_accepted _ _ _ H) as [gs [gs' [_ [_ ->]]]].
  split; [reflexivity|]. exists gs'. reflexivity.
Qed.

(** After any run from the empty replica: whoever is known (a fortiori: an active member) in any
    group of the state at any dependencies - in particular the current state at the heads - was
    introduced by an operation of that group which the run accepted: a create listing them or an
    add of them. *)
Theorem members_only_via_add_or_create l deps gs g my m :
  state_at (fst (run init l)) deps = Some gs ->
  glookup g gs = Some my -> known my m ->
  exists o, In o (accepted init l) /\ op_group o = g /\
    ((exists lv, op_action o = Add m lv) \/ (exists ini, op_action o = Create ini /\ In m (map fst ini))).
Proof.
  intros Hs Hg Hk. destruct (run_Inv l _ Inv_init g m) as [o [Hin Ho]].
  { apply (state_at_known _ _ _ _ _ Hs). exists my. auto using alookup_in. }
  exists o. split; [|exact Ho].
  rewrite run_ops, app_nil_r in Hin. apply in_rev, Hin.
Qed.

Corollary active_members_only_via_add_or_create l deps gs g my m :
  state_at (fst (run init l)) deps = Some gs ->
  glookup g gs = Some my -> is_active my m = true ->
  exists o, In o (accepted init l) /\ op_group o = g /\
    ((exists lv, op_action o = Add m lv) \/ (exists ini, op_action o = Create ini /\ In m (map fst ini))).
Proof. intros Hs Hg Ha. eapply members_only_via_add_or_create; eauto using is_active_known. Qed.

(** Example: the hypotheses are satisfiable and both kinds of answer occur - a manager's add is
    accepted, the same add by a reader is rejected, and so is a reader promoting the manager
    (the no-op shortcut of [promote], repaired). *)
Definition ex_create : Op := mkOp 0 0 [] 0 (Create [(0%N, Manage); (1%N, Read)]).
Definition ex_add_ok : Op := mkOp 1 0 [0%N] 0 (Add 2 Write).
Definition ex_add_bad : Op := mkOp 2 1 [1%N] 0 (Add 3 Write).
Definition ex_promote_bad : Op := mkOp 3 1 [1%N] 0 (Promote 0 Manage).
Definition ex_promote_outsider : Op := mkOp 4 7 [1%N] 0 (Promote 0 Manage).

Example ex_outcomes :
  snd (run init [ex_create; ex_add_ok; ex_add_bad; ex_promote_bad; ex_promote_outsider])
  = [OOk; OOk; OErr InsufficientAccess; OErr InsufficientAccess; OErr UnrecognisedActor].
Proof. vm_compute. reflexivity. Qed.

(** Known finding [recreate_group_unchecked]: a create for a group that already exists at the
    dependencies is accepted from anybody and replaces the group's members. *)
Definition recreates (gs : GroupStates) (o : Op) : Prop :=
  is_create (op_action o) = true /\ glookup (op_group o) gs <> None.

(** authority as the property demands it: a create is legitimate only for a group that does not
    exist yet at the dependencies *)
Definition authorised_strict (gs : GroupStates) (o : Op) : Prop :=
  match op_action o with
  | Create _ => glookup (op_group o) gs = None
  | _ => authorised_in gs o
  end.

Theorem accept_requires_authority_outside_known y o y' :
  process y o = (y', OOk) ->
  exists gs, state_at y (op_deps o) = Some gs /\
    (~ recreates gs o -> authorised_strict gs o /\ valid_in gs o).
Proof.
  intros H. destruct (accept_requires_authority _ _ _ H) as [gs [Hs [Ha Hv]]].
  exists gs. split; [exact Hs|]. intros Hn. split; [|exact Hv].
  unfold authorised_strict. destruct (op_action o) eqn:Eact; try exact Ha.
  destruct (glookup (op_group o) gs) as [my|] eqn:Eg; [|reflexivity].
  exfalso. apply Hn. split; [rewrite Eact; reflexivity|rewrite Eg; discriminate].
Qed.

(** witness: member 7, who was never in group 0, "creates" group 0 again on top of the real
    create and becomes its only member and manager *)
Definition ex_recreate : Op := mkOp 1 7 [0%N] 0 (Create [(7%N, Manage)]).

Theorem recreate_refuted :
  exists y o y' gs,
    process y o = (y', OOk) /\ state_at y (op_deps o) = Some gs /\
    recreates gs o /\ ~ authorised_strict gs o /\
    (exists my, glookup (op_group o) gs = Some my /\ ~ known my (op_author o)) /\
    (exists gs' my', state_at y' (heads y') = Some gs' /\ glookup (op_group o) gs' = Some my' /\
       is_active_manager my' (op_author o) = true /\ ~ known my' 0%N).
Proof.
  pose (y := fst (run init [ex_create])).
  exists y, ex_recreate, (fst (process y ex_recreate)),
    (match state_at y [0%N] with Some g => g | None => [] end).
  split; [vm_compute; reflexivity|]. split; [vm_compute; reflexivity|].
  split; [split; [reflexivity|vm_compute; discriminate]|].
  split; [vm_compute; discriminate|].
  split.
  - eexists. split; [vm_compute; reflexivity|]. vm_compute. intros X. apply X. reflexivity.
  - eexists. eexists. split; [vm_compute; reflexivity|]. split; [vm_compute; reflexivity|].
    split; [vm_compute; reflexivity|]. vm_compute. intros X. apply X. reflexivity.
Qed.

(** [process] validates an operation against [state_at] of its *declared* dependencies - the merge
    of the states stored for exactly those operations.  Whatever else the replica has accepted
    (concurrent branches, other heads) has no influence on the decision. *)

Lemma state_at_ext y1 y2 deps :
  (forall d, In d deps -> alookup d (states y1) = alookup d (states y2)) ->
  state_at y1 deps = state_at y2 deps.
Proof. intros H. apply fold_left_ext_in. intros a d Hd. rewrite (H d Hd). reflexivity. Qed.

Theorem decision_depends_only_on_dependencies y1 y2 o :
  (forall d, In d (op_deps o) -> alookup d (states y1) = alookup d (states y2)) ->
  memN (op_id o) (map op_id (ops y1)) = memN (op_id o) (map op_id (ops y2)) ->
  snd (process y1 o) = snd (process y2 o).
Proof.
  intros Hs Hd. unfold process. rewrite Hd, (state_at_ext _ _ _ Hs).
  destruct (memN (op_id o) (map op_id (ops y2))); [reflexivity|].
  destruct (state_at y2 (op_deps o)) as [gs|]; [|reflexivity].
  destruct (apply_action gs (op_group o) (op_author o) (op_action o)); reflexivity.
Qed.

Lemma process_states_stable y o' y' out deps :
  process y o' = (y', out) -> ~ In (op_id o') deps ->
  forall d, In d deps -> alookup d (states y') = alookup d (states y).
Proof.
  intros Hp Hn d Hd.
  destruct (process_inv _ _ _ _ Hp) as [[_ ->]|[_ [gs [gs' [_ [_ ->]]]]]]; [reflexivity|].
  cbn [states alookup]. destruct (N.eqb_spec d (op_id o')) as [->|_]; [contradiction|reflexivity].
Qed.

Theorem undeclared_operation_irrelevant y o' y' out o :
  process y o' = (y', out) -> ~ In (op_id o') (op_deps o) -> op_id o <> op_id o' ->
  snd (process y' o) = snd (process y o).
Proof.
  intros Hp Hn Hid. apply decision_depends_only_on_dependencies.
  - exact (process_states_stable _ _ _ _ _ Hp Hn).
  - destruct (process_inv _ _ _ _ Hp) as [[_ ->]|[_ [gs [gs' [_ [_ ->]]]]]]; [reflexivity|].
    cbn [ops map]. unfold memN. cbn [existsb].
    destruct (N.eqb_spec (op_id o) (op_id o')) as [E|_]; [contradiction|reflexivity].
Qed.

Theorem undeclared_run_irrelevant l : forall y o,
  (forall o', In o' l -> ~ In (op_id o') (op_deps o) /\ op_id o <> op_id o') ->
  snd (process (fst (run y l)) o) = snd (process y o)
  /\ state_at (fst (run y l)) (op_deps o) = state_at y (op_deps o).
Proof.
  induction l as [|o1 r IH]; intros y o H; cbn [run]; [split; reflexivity|].
  destruct (process y o1) as [y1 out] eqn:Ep.
  assert (Hr : forall o', In o' r -> ~ In (op_id o') (op_deps o) /\ op_id o <> op_id o')
    by (intros o' Hin; apply H; right; exact Hin).
  specialize (IH y1 o Hr). destruct (run y1 r) as [y2 outs]. cbn [fst] in *.
  destruct (H o1 (or_introl eq_refl)) as [Hn Hid]. destruct IH as [IH1 IH2]. split.
  - rewrite IH1. exact (undeclared_operation_irrelevant _ _ _ _ _ Ep Hn Hid).
  - rewrite IH2. apply state_at_ext, (process_states_stable _ _ _ _ _ Ep Hn).
Qed.

(** Example (the hypotheses are satisfiable, and the statement bites): manager 0 creates the
    group, then concurrently adds 1 as manager (operation 1) and 2 as reader (operation 2).  Both
    are heads.  Member 1 adding 3 is accepted when it declares operation 1 - or both heads - as
    dependencies, and rejected as an unrecognised actor when it declares operation 2 only: in the
    state at that dependency 1 is not a member, although it is a manager in the replica's
    current (merged) state.  The concurrent operation 1 is irrelevant for the decision. *)
Definition exb_create : Op := mkOp 0 0 [] 0 (Create [(0%N, Manage)]).
Definition exb_add1 : Op := mkOp 1 0 [0%N] 0 (Add 1 Manage).
Definition exb_add2 : Op := mkOp 2 0 [0%N] 0 (Add 2 Read).
Definition exb_probe (deps : list N) : Op := mkOp 3 1 deps 0 (Add 3 Read).
Definition exb_y : Replica := fst (run init [exb_create; exb_add1; exb_add2]).

Example exb_heads : heads exb_y = [2%N; 1%N].
Proof. vm_compute. reflexivity. Qed.

Example exb_current_manager :
  exists gs my, state_at exb_y (heads exb_y) = Some gs /\ glookup 0 gs = Some my
                /\ is_active_manager my 1 = true.
Proof. eexists. eexists. split; [vm_compute; reflexivity|]. split; vm_compute; reflexivity. Qed.

Example exb_outcomes :
  snd (process exb_y (exb_probe [2%N])) = OErr UnrecognisedActor
  /\ snd (process exb_y (exb_probe [1%N])) = OOk
  /\ snd (process exb_y (exb_probe [1%N; 2%N])) = OOk
  /\ snd (process exb_y (exb_probe [0%N])) = OErr UnrecognisedActor.
Proof. vm_compute. repeat split; reflexivity. Qed.

Example exb_irrelevant :
  snd (process exb_y (exb_probe [2%N]))
  = snd (process (fst (run init [exb_create; exb_add2])) (exb_probe [2%N])).
Proof. vm_compute. reflexivity. Qed.
