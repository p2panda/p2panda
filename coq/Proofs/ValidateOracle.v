(** Soundness of the boolean specification used by the C01 oracle: [good_b] is exactly the
    proposition [good] of Proofs/Validate.v under the ideal instance, hence exactly "the model's
    [validate_operation] accepts". *)
From Coq Require Import List NArith Bool.
From PV Require Import Model.Header Model.Validate Proofs.Header Proofs.Validate Oracle.C01.
Import ListNotations.

Definition ideal_good := good ideal_hash id_order ideal_sign (fun x => x).

Lemma authentic_b_iff : forall h, authentic_b h = true <-> authentic id_order ideal_sign (fun x => x) h.
Proof.
  intro h. unfold authentic_b, authentic. destruct (h_sig h) as [s|]; [|split; discriminate].
  rewrite bytes_eqb_eq. split; intro H; [rewrite H; reflexivity | injection H as ->; reflexivity].
Qed.

Lemma body_matches_b_iff : forall h body,
  body_matches_b h body = true <-> body_matches ideal_hash (mk_op h body).
Proof.
  intros h [b|]; unfold body_matches; cbn [body_matches_b mk_op op_header op_body].
  - rewrite andb_true_iff, opt_bytes_eq_iff, N.eqb_eq. split.
    + intros H b' E. injection E as <-. exact H.
    + intro H. apply H. reflexivity.
  - split; [intros _ b E; discriminate E | reflexivity].
Qed.

Theorem good_b_iff : forall h body, good_b h body = true <-> ideal_good (mk_op h body).
Proof.
  intros h body. unfold good_b, ideal_good, good, good_header. cbn [mk_op op_header].
  split.
  - intros [[[[A V]%andb_prop P]%andb_prop L]%andb_prop B]%andb_prop.
    apply authentic_b_iff in A. apply N.eqb_eq in V. apply presence_iff in P, L.
    apply body_matches_b_iff in B. auto.
  - intros [(A & V & P & L) B].
    apply authentic_b_iff in A. apply N.eqb_eq in V. apply presence_iff in P, L.
    apply body_matches_b_iff in B. rewrite A, V, P, L, B. reflexivity.
Qed.

Theorem good_b_validate : forall h body, good_b h body = true <-> v_operation (mk_op h body) = None.
Proof.
  intros h body. rewrite good_b_iff. symmetry.
  exact (validate_iff ideal_verify ideal_hash id_order ideal_sign (fun x => x) ideal_verify_spec (mk_op h body)).
Qed.
