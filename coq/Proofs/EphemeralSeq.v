(** Proofs about a subscription run over a whole sequence of incoming items (C16).

    [sub_run] is the code (stateless: [accept] per item), [auth_filter] the specification (the
    authentic messages of the sequence, in order; no reference to [verify]).  Trusted assumption:
    the one hypothesis of the section (ideal [verify]); it is an explicit premise of the exported
    theorem. *)
From Coq Require Import List NArith.
From PV Require Import Model.Ephemeral Proofs.Ephemeral.
Import ListNotations.
Local Open Scope N_scope.

Section IdealSeq.
  Variables key skey sigT bytes : Type.
  Variable sk_of : key -> skey.
  Variable sign : skey -> bytes -> sigT.
  Variable verify : key -> bytes -> sigT -> bool.
  Variable enc : fields key -> bytes.

  Hypothesis verify_spec : forall p m s, verify p m s = true <-> s = sign (sk_of p) m.

  Notation accept := (accept key sigT bytes verify enc).
  Notation sub_run := (sub_run key sigT bytes verify enc).
  Notation authentic := (authentic key skey sigT bytes sk_of sign enc).
  Notation auth_filter := (auth_filter key skey sigT bytes sk_of sign enc).
  Notation wrapped := (wrapped key sigT).
  Notation incoming := (incoming key sigT).

  Lemma sub_run_keep (w : wrapped) (l : list incoming) :
    authentic w -> sub_run (Decoded w :: l) = w :: sub_run l.
  Proof.
    intros A. cbn [Ephemeral.sub_run].
    destruct (accept_cases enc verify_spec w) as [[_ E]|[B _]]; [rewrite E; reflexivity|contradiction].
  Qed.

  Lemma sub_run_drop (w : wrapped) (l : list incoming) :
    ~ authentic w -> sub_run (Decoded w :: l) = sub_run l.
  Proof.
    intros A. cbn [Ephemeral.sub_run].
    destruct (accept_cases enc verify_spec w) as [[B _]|[_ E]]; [contradiction|rewrite E; reflexivity].
  Qed.

  Lemma sub_run_app (a b : list incoming) : sub_run (a ++ b) = sub_run a ++ sub_run b.
  Proof.
    induction a as [|i a IH]; [reflexivity|]. cbn [app Ephemeral.sub_run].
    destruct (accept i); [cbn [app]; f_equal|]; exact IH.
  Qed.

  Lemma sub_run_is_filter (l : list incoming) : auth_filter l (sub_run l).
  Proof.
    induction l as [|[|w] l IH]; [constructor|apply af_skip; exact IH|].
    destruct (accept_cases enc verify_spec w) as [[A _]|[A _]].
    - rewrite (sub_run_keep w l A). apply af_keep; assumption.
    - rewrite (sub_run_drop w l A). apply af_drop; assumption.
  Qed.

  Lemma auth_filter_unique (l : list incoming) (ys : list wrapped) :
    auth_filter l ys -> ys = sub_run l.
  Proof.
    induction 1 as [|w l ys A _ IH|w l ys A _ IH|l ys _ IH].
    - reflexivity.
    - rewrite (sub_run_keep w l A). f_equal. exact IH.
    - rewrite (sub_run_drop w l A). exact IH.
    - exact IH.
  Qed.

  Lemma sub_run_sound (l : list incoming) :
    Forall (fun m => authentic m /\ In (Decoded m) l) (sub_run l).
  Proof.
    induction l as [|i l IH]; [constructor|].
    assert (T : Forall (fun m => authentic m /\ In (Decoded m) (i :: l)) (sub_run l)).
    { eapply Forall_impl; [|exact IH]. intros m [A B]. split; [exact A|right; exact B]. }
    destruct i as [|w]; [exact T|].
    destruct (accept_cases enc verify_spec w) as [[A _]|[A _]].
    - rewrite (sub_run_keep w l A). constructor; [split; [exact A|left; reflexivity]|exact T].
    - rewrite (sub_run_drop w l A). exact T.
  Qed.

  Theorem sequence_yields_authentic_only (l : list incoming) :
    auth_filter l (sub_run l) /\
    (forall ys, auth_filter l ys -> ys = sub_run l) /\
    Forall (fun m => authentic m /\ In (Decoded m) l) (sub_run l).
  Proof. exact (conj (sub_run_is_filter l) (conj (auth_filter_unique l) (sub_run_sound l))). Qed.

  Corollary tampered_copy_after_original (pre post : list incoming) (w w' : wrapped) :
    authentic w -> ~ authentic w' ->
    sub_run (pre ++ Decoded w :: Decoded w' :: post) = sub_run pre ++ w :: sub_run post /\
    sub_run (pre ++ Decoded w :: Decoded w :: Decoded w' :: post) = sub_run pre ++ w :: w :: sub_run post /\
    sub_run (pre ++ Decoded w' :: Decoded w :: post) = sub_run pre ++ w :: sub_run post.
  Proof.
    intros A B.
    pose proof (fun l => sub_run_keep w l A) as K. pose proof (fun l => sub_run_drop w' l B) as D.
    repeat split; rewrite sub_run_app; f_equal.
    - rewrite K, D. reflexivity.
    - rewrite K, K, D. reflexivity.
    - rewrite D, K. reflexivity.
  Qed.
End IdealSeq.

(** Non-vacuous: on the symbolic instance a sequence original, tampered copy (body changed under
    the original signature), duplicate, re-signed copy yields the original twice. *)
Example sequence_nonvacuous :
  let f := {| ver := 1; author := 1; time := 1000; logical := 0; body := 10 |} in
  let g := {| ver := 1; author := 1; time := 1000; logical := 0; body := 99 |} in
  let w := {| wf := f; wsig := Sym.sign 1 (Sym.enc f) |} in
  Sym.sub_run [Decoded w; Decoded {| wf := g; wsig := Sym.sign 1 (Sym.enc f) |}; Decoded w;
               Decoded {| wf := f; wsig := Sym.sign 2 (Sym.enc f) |}; Undecodable] = [w; w].
Proof. vm_compute. reflexivity. Qed.
