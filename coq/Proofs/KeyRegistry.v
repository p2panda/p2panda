(** The key registry (C38).  Accepting goes through [verify] first; the one-time getter pops until
    a bundle verifies; the long-term getter is a fold ([lkb_fold_spec]) that only keeps bundles
    passing its filter.  Each answer is therefore valid when given, from any stored state. *)
From Coq Require Import List NArith Bool Lia.
From PV Require Import Model.KeyRegistry.
Import ListNotations.
Local Open Scope N_scope.

Lemma lookup_update_same m i v : lookup (update m i v) i = Some v.
Proof.
  induction m as [|[k w] m IH]; cbn [update lookup].
  - now rewrite N.eqb_refl.
  - destruct (N.eqb_spec k i) as [E|E]; cbn [lookup].
    + subst. now rewrite N.eqb_refl.
    + destruct (N.eqb_spec k i); [contradiction|exact IH].
Qed.

Lemma lookup_update_other m i j v : i <> j -> lookup (update m i v) j = lookup m j.
Proof.
  intros H. induction m as [|[k w] m IH]; cbn [update lookup].
  - destruct (N.eqb_spec i j); [contradiction|reflexivity].
  - destruct (N.eqb_spec k i) as [E|E]; cbn [lookup].
    + subst. destruct (N.eqb_spec i j); [contradiction|reflexivity].
    + destruct (N.eqb_spec k j); [reflexivity|exact IH].
Qed.

Lemma bundle_eqb_eq a b : bundle_eqb a b = true <-> a = b.
Proof.
  unfold bundle_eqb. destruct a as [a1 a2 a3 a4], b as [b1 b2 b3 b4]; cbn [nb na sig_ok tag].
  split.
  - intros H. repeat (apply andb_true_iff in H; destruct H as [H ?]).
    apply N.eqb_eq in H. apply N.eqb_eq in H0. apply N.eqb_eq in H2. apply eqb_prop in H1.
    now subst.
  - intros H. injection H as -> -> -> ->.
    now rewrite !N.eqb_refl, eqb_reflx.
Qed.

Lemma contains_In l b : contains l b = true <-> In b l.
Proof.
  unfold contains. rewrite existsb_exists. split.
  - intros [x [Hx E]]. apply bundle_eqb_eq in E. now subst.
  - intros H. exists b. split; [exact H|now apply bundle_eqb_eq].
Qed.

Lemma verify_none t b : verify t b = None <-> valid_at t b = true.
Proof.
  unfold verify, valid_at. destruct (life_ok t b), (sig_ok b); cbn; split; congruence.
Qed.

Theorem never_accept_invalid_onetime t y i b :
  snd (add_onetime t y i b) = Accepted -> valid_at t b = true.
Proof.
  unfold add_onetime. destruct (verify t b) eqn:E; cbn [snd]; [discriminate|].
  intros _. now apply verify_none.
Qed.

Theorem never_accept_invalid_longterm t y i b :
  snd (add_longterm t y i b) = Accepted -> valid_at t b = true.
Proof.
  unfold add_longterm. destruct (verify t b) eqn:E; cbn [snd]; [discriminate|].
  intros _. now apply verify_none.
Qed.

Theorem rejected_not_stored t y i b :
  valid_at t b = false ->
  add_onetime t y i b = (y, Rejected (match verify t b with Some e => e | None => ELifetime end)) /\
  add_longterm t y i b = (y, Rejected (match verify t b with Some e => e | None => ELifetime end)).
Proof.
  intros H. unfold add_onetime, add_longterm.
  destruct (verify t b) eqn:E; [auto|]. apply verify_none in E. congruence.
Qed.

Lemma pop_valid_spec t l :
  (forall b, snd (pop_valid t l) = Some b -> valid_at t b = true /\ In b l) /\
  (forall b, In b (fst (pop_valid t l)) -> In b l).
Proof.
  induction l as [|x l [IH1 IH2]]; cbn [pop_valid].
  - cbn [fst snd]. split; [discriminate|tauto].
  - destruct (valid_at t x) eqn:E; cbn [fst snd].
    + split; [intros b Hb; injection Hb as <-; split; [exact E|now left]|intros b Hb; now right].
    + split; [intros b Hb; destruct (IH1 b Hb); split; [assumption|now right]|intros b Hb; right; auto].
Qed.

Lemma lkb_fold_spec ok vec :
  match fold_left (lkb_step_gen ok) vec None with
  | Some b => ok b = true /\ In b vec /\ forall x, In x vec -> ok x = true -> na x <= na b
  | None => forall x, In x vec -> ok x = false
  end.
Proof.
  induction vec as [|x vec IH] using rev_ind; [intros x []|].
  rewrite fold_left_app. cbn [fold_left]. unfold lkb_step_gen at 1.
  destruct (fold_left (lkb_step_gen ok) vec None) as [c|].
  - destruct IH as (Hc & Ic & Mc).
    assert (Hkeep : ok x = false \/ na x <= na c ->
              ok c = true /\ In c (vec ++ [x]) /\
              forall z, In z (vec ++ [x]) -> ok z = true -> na z <= na c).
    { intros Hx. split; [exact Hc|]. split; [apply in_or_app; now left|].
      intros z Hz Hv. apply in_app_or in Hz. destruct Hz as [Hz|[<-|[]]]; [now apply Mc|].
      destruct Hx as [Hx|Hx]; [congruence|exact Hx]. }
    destruct (ok x) eqn:E; [|now apply Hkeep; left].
    destruct (N.ltb_spec (na c) (na x)) as [L|L]; [|now apply Hkeep; right].
    split; [exact E|]. split; [apply in_or_app; right; now left|].
    intros z Hz Hv. apply in_app_or in Hz.
    destruct Hz as [Hz|[<-|[]]]; [specialize (Mc z Hz Hv); lia|apply N.le_refl].
  - destruct (ok x) eqn:E.
    + split; [exact E|]. split; [apply in_or_app; right; now left|].
      intros z Hz Hv. apply in_app_or in Hz.
      destruct Hz as [Hz|[<-|[]]]; [rewrite (IH z Hz) in Hv; discriminate|apply N.le_refl].
    + intros z Hz. apply in_app_or in Hz. destruct Hz as [Hz|[<-|[]]]; [now apply IH|exact E].
Qed.

Lemma latest_key_bundle_spec t vec b :
  latest_key_bundle t vec = Some b ->
  valid_at t b = true /\ In b vec /\ forall x, In x vec -> valid_at t x = true -> na x <= na b.
Proof.
  intros H. pose proof (lkb_fold_spec (valid_at t) vec) as HS.
  unfold latest_key_bundle, lkb_step in H. now rewrite H in HS.
Qed.

Lemma latest_key_bundle_asis_spec t vec b :
  latest_key_bundle_asis t vec = Some b ->
  life_ok t b = true /\ In b vec /\ forall x, In x vec -> life_ok t x = true -> na x <= na b.
Proof.
  intros H. pose proof (lkb_fold_spec (life_ok t) vec) as HS.
  unfold latest_key_bundle_asis in H. now rewrite H in HS.
Qed.

Lemma get_longterm_gen_some lkb t y i b :
  snd (get_longterm_gen lkb t y i) = Got (Some b) ->
  exists l, lookup (longterm y) i = Some l /\ lkb t (rev l) = Some b.
Proof.
  unfold get_longterm_gen. destruct (lookup (longterm y) i) as [l|]; [|discriminate].
  destruct (lkb t (rev l)) as [c|] eqn:E; cbn [snd]; [|destruct l; discriminate].
  intros H. injection H as <-. eauto.
Qed.

(** No hypothesis on the stored state: it may have been built by [add_*], restored from
    persistence, or left behind by a clock change. *)
Theorem get_onetime_valid t y i b :
  snd (get_onetime t y i) = Got (Some b) -> valid_at t b = true /\ In b (stored (onetime y) i).
Proof.
  unfold get_onetime, stored. destruct (lookup (onetime y) i) as [l|]; cbn [snd]; [|discriminate].
  destruct (pop_valid_spec t l) as [P1 _].
  destruct (pop_valid t l) as [l' r]. cbn [fst snd] in *.
  intros Hb. injection Hb as ->. now apply P1.
Qed.

Theorem get_longterm_valid t y i b :
  snd (get_longterm t y i) = Got (Some b) -> valid_at t b = true /\ In b (stored (longterm y) i).
Proof.
  intros H. apply get_longterm_gen_some in H. destruct H as (l & El & E).
  apply latest_key_bundle_spec in E. destruct E as (Hv & Hi & _).
  unfold stored. rewrite El. split; [exact Hv|now apply in_rev].
Qed.

Theorem get_valid_from_any_state t y i b :
  (snd (get_onetime t y i) = Got (Some b) -> valid_at t b = true) /\
  (snd (get_longterm t y i) = Got (Some b) -> valid_at t b = true).
Proof.
  split; intros H; [now apply get_onetime_valid in H|now apply get_longterm_valid in H].
Qed.

Theorem get_returns_stored t y i b :
  (snd (get_onetime t y i) = Got (Some b) -> In b (stored (onetime y) i)) /\
  (snd (get_longterm t y i) = Got (Some b) -> In b (stored (longterm y) i)).
Proof.
  split; intros H; [now apply get_onetime_valid in H|now apply get_longterm_valid in H].
Qed.

Theorem readd_requires_valid t y i b :
  In b (stored (longterm y) i) ->
  (snd (add_longterm t y i b) = Accepted -> valid_at t b = true) /\
  (valid_at t b = true -> add_longterm t y i b = (y, Accepted)) /\
  (valid_at t b = false -> exists e, add_longterm t y i b = (y, Rejected e)).
Proof.
  intros Hin. split; [apply never_accept_invalid_longterm|]. split.
  - intros Hv. unfold add_longterm. apply verify_none in Hv. rewrite Hv.
    apply contains_In in Hin. now rewrite Hin.
  - intros Hv. destruct (rejected_not_stored t y i b Hv) as [_ H]. eauto.
Qed.

Theorem add_longterm_fresh t y i b :
  ~ In b (stored (longterm y) i) -> valid_at t b = true ->
  add_longterm t y i b = ({| onetime := onetime y; longterm := push (longterm y) i b |}, Accepted).
Proof.
  intros Hn Hv. unfold add_longterm. apply verify_none in Hv. rewrite Hv.
  destruct (contains (stored (longterm y) i) b) eqn:E; [|reflexivity].
  apply contains_In in E. contradiction.
Qed.

Theorem step_ok get_ot y o :
  (forall t y i b, snd (get_ot t y i) = Got (Some b) -> valid_at t b = true) ->
  answer_ok o (snd (step get_ot y o)).
Proof.
  intros Hget. destruct o as [t i b|t i b|t i|t i|t|t i l|t i l|t i]; cbn [step].
  - destruct (snd (add_onetime t y i b)) eqn:E; cbn [answer_ok]; auto.
    now apply never_accept_invalid_onetime in E.
  - destruct (snd (add_longterm t y i b)) eqn:E; cbn [answer_ok]; auto.
    now apply never_accept_invalid_longterm in E.
  - destruct (snd (get_ot t y i)) as [| |[b|]| | |] eqn:E; cbn [answer_ok]; auto.
    eapply Hget; eauto.
  - destruct (snd (get_longterm t y i)) as [| |[b|]| | |] eqn:E; cbn [answer_ok]; auto.
    now apply get_longterm_valid in E.
  - cbn [remove_expired snd answer_ok]. exact I.
  - cbn [set_onetime snd answer_ok]. exact I.
  - cbn [set_longterm snd answer_ok]. exact I.
  - cbn [count snd answer_ok]. exact I.
Qed.

Lemma run_ok get_ot :
  (forall t y i b, snd (get_ot t y i) = Got (Some b) -> valid_at t b = true) ->
  forall ops y, Forall2 answer_ok ops (snd (run get_ot y ops)).
Proof.
  intros Hget. induction ops as [|o ops IH]; intros y; cbn [run].
  - constructor.
  - pose proof (step_ok get_ot y o Hget) as H2.
    destruct (step get_ot y o) as [y1 x]. cbn [fst snd] in *.
    specialize (IH y1). destruct (run get_ot y1 ops) as [y2 xs]. cbn [snd] in *.
    constructor; assumption.
Qed.

(** From ANY registry state [y] (not only states built by [add_*]), for every sequence of
    operations (restoring arbitrary persisted lists included) and arbitrary clock readings: what
    is accepted is valid when accepted, what is returned is valid (lifetime and signature) when
    returned. *)
Theorem never_accept_or_return_invalid y ops :
  Forall2 answer_ok ops (snd (run get_onetime y ops)).
Proof. apply run_ok. intros t y' i b H. now apply get_onetime_valid in H. Qed.

Theorem longterm_is_furthest t y i b l x :
  lookup (longterm y) i = Some l -> snd (get_longterm t y i) = Got (Some b) ->
  In x l -> valid_at t x = true -> na x <= na b.
Proof.
  intros E H Hx Hv. apply get_longterm_gen_some in H. destruct H as (l' & El & E2).
  rewrite E in El. injection El as <-. apply latest_key_bundle_spec in E2.
  destruct E2 as (_ & _ & M). apply M; [now apply in_rev in Hx|exact Hv].
Qed.

(** Before the repair the one-time path returned bundles that expired while stored:
    accepted at t = 1001 with lifetime (999, 1003), popped at t = 1004. *)
Definition witness_bundle : bundle := {| nb := 999; na := 1003; sig_ok := true; tag := 0 |}.
Definition witness_ops : list op := [AddOT 1001 0 witness_bundle; GetOT 1004 0].

Theorem asis_returns_expired :
  snd (run get_onetime_asis init witness_ops) = [Accepted; Got (Some witness_bundle)] /\
  valid_at 1004 witness_bundle = false.
Proof. vm_compute. split; reflexivity. Qed.

Theorem asis_refuted : ~ Forall2 answer_ok witness_ops (snd (run get_onetime_asis init witness_ops)).
Proof.
  intros H. destruct asis_returns_expired as [E V]. rewrite E in H.
  inversion H as [|? ? ? ? _ H2]; subst. inversion H2 as [|? ? ? ? H3 _]; subst.
  cbn [answer_ok] in H3. congruence.
Qed.

Example repaired_on_witness :
  snd (run get_onetime init witness_ops) = [Accepted; Got None].
Proof. vm_compute. reflexivity. Qed.

(** Non-vacuity: a run in which bundles are accepted, returned, skipped and rejected. *)
Example run_example :
  let b1 := {| nb := 990; na := 1010; sig_ok := true; tag := 1 |} in
  let b2 := {| nb := 990; na := 1002; sig_ok := true; tag := 2 |} in
  let b3 := {| nb := 990; na := 1020; sig_ok := false; tag := 3 |} in
  snd (run get_onetime init
         [AddOT 1000 0 b1; AddOT 1000 0 b2; AddOT 1000 0 b3; AddLT 1000 0 b1; AddLT 1000 0 b2;
          GetLT 1001 0; GetOT 1003 0; GetOT 1003 0; GetLT 1011 0])
  = [Accepted; Accepted; Rejected ESig; Accepted; Accepted; Got (Some b1); Got (Some b1); Got None; Expired].
Proof. vm_compute. reflexivity. Qed.

(** Before its repair the long-term path re-checked only the lifetime of a stored bundle: a
    restored state holding a bundle whose signature does not verify hands it out.  [step] takes
    the one-time getter as a parameter but not the long-term one, so this refutation speaks of
    the getter [get_longterm_asis] and not of a run. *)
Definition witness_badsig : bundle := {| nb := 990; na := 1010; sig_ok := false; tag := 1 |}.
Definition witness_restored : reg := fst (set_longterm init 0 [witness_badsig]).

Theorem asis_longterm_returns_unverified :
  snd (get_longterm_asis 1000 witness_restored 0) = Got (Some witness_badsig) /\
  valid_at 1000 witness_badsig = false.
Proof. vm_compute. split; reflexivity. Qed.

Theorem asis_longterm_refuted :
  ~ (forall t y i b, snd (get_longterm_asis t y i) = Got (Some b) -> valid_at t b = true).
Proof.
  intros H. destruct asis_longterm_returns_unverified as [E V].
  apply H in E. congruence.
Qed.

(** The hypothesis holds in all states built by [add_*]: there the code before the repair
    already answered with valid bundles only. *)
Theorem asis_longterm_outside_known t y i b :
  (forall x, In x (stored (longterm y) i) -> sig_ok x = true) ->
  snd (get_longterm_asis t y i) = Got (Some b) -> valid_at t b = true.
Proof.
  intros HS H. apply get_longterm_gen_some in H. destruct H as (l & El & E).
  apply latest_key_bundle_asis_spec in E. destruct E as (Hv & Hi & _).
  unfold stored in HS. rewrite El in HS. unfold valid_at. rewrite Hv. apply HS. now apply in_rev.
Qed.

Example repaired_on_restored :
  snd (get_longterm 1000 witness_restored 0) = Expired.
Proof. vm_compute. reflexivity. Qed.

(** Non-vacuity for the restored-state and re-registration theorems: a restored list
    [valid; not yet valid with a later expiry; expired; bad signature] (push order), both
    getters, then the valid bundle registered again before and after its expiry. *)
Example restored_example :
  let v := {| nb := 990; na := 1003; sig_ok := true; tag := 0 |} in
  let f := {| nb := 1005; na := 1100; sig_ok := true; tag := 1 |} in
  let e := {| nb := 900; na := 999; sig_ok := true; tag := 2 |} in
  let s := {| nb := 990; na := 1200; sig_ok := false; tag := 3 |} in
  snd (run get_onetime init
         [SetLT 1000 0 [s; e; f; v]; SetOT 1000 0 [s; e; f; v]; Count 1000 0;
          GetLT 1000 0; GetOT 1000 0; GetOT 1000 0; Count 1000 0;
          AddLT 1001 0 v; Count 1001 0; AddLT 1003 0 v; GetLT 1006 0])
  = [Done; Done; Cnt 4 4; Got (Some v); Got (Some v); Got None; Cnt 0 4;
     Accepted; Cnt 0 4; Rejected ELifetime; Got (Some f)].
Proof. vm_compute. reflexivity. Qed.
