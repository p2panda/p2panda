(** Proofs about concurrent [Acked::ack] calls on one instance (Model/AckConc.v).

    Generic part (any store): an invariant of the machine (mutual exclusion through the permit,
    the local copy of a call was made from the current store, the store is the serial composition
    of the committed writes), hence for EVERY schedule: the store only ever changes by one
    complete serial call, and when all calls have returned the committed writes are a permutation
    of the accepted calls.
    Instances: C07 (cursor store) and C15 (durable tables, restart of Model/Replay.v). *)
From Coq Require Import List Arith NArith Lia Permutation.
From PV Require Import Lib.ListFacts Model.Cursor Model.AckConc Proofs.Cursor.
From PV Require Proofs.Replay.
Import ListNotations.

Lemma upd_same {A : Type} (f : nat -> A) i v : upd f i v i = v.
Proof. unfold upd. rewrite Nat.eqb_refl. reflexivity. Qed.

Lemma upd_other {A : Type} (f : nat -> A) i j v : j <> i -> upd f i v j = f j.
Proof. intros H. unfold upd. destruct (Nat.eqb_spec j i); [contradiction|reflexivity]. Qed.

Ltac upd_case j i :=
  let e := fresh "e" in
  let ne := fresh "Hne" in
  destruct (Nat.eq_dec j i) as [e|ne];
  [ subst j; rewrite ?upd_same | rewrite ?(upd_other _ i j) by exact ne ].

Lemma hdrs_of_seq {Hd : Type} (pre l : list Hd) :
  hdrs_of Hd (pre ++ l) (seq (length pre) (length l)) = l.
Proof.
  revert pre. induction l as [|x l IH]; intros pre; [reflexivity|].
  cbn [length seq hdrs_of flat_map]. rewrite nth_error_app2, Nat.sub_diag by lia. cbn [nth_error app].
  f_equal. specialize (IH (pre ++ [x])).
  rewrite <- app_assoc, app_length, Nat.add_1_r in IH. exact IH.
Qed.

Section MachineProofs.
  Variables St Loc Hd : Type.
  Variable okb : Hd -> bool.
  Variable rd : St -> Loc.
  Variable adv : Hd -> Loc -> Loc.
  Variable wr : St -> Loc -> St.
  Variable hs : list Hd.
  Variable s0 : St.

  Notation M := (mstate St Loc).
  Notation stp := (step St Loc Hd okb rd adv wr hs).
  Notation sstep := (seqstep St Loc Hd rd adv wr).
  Notation hdrs := (hdrs_of Hd hs).

  Definition active (p : pc Loc) : Prop :=
    match p with PHeld | PRead _ | PBegun _ | PWritten => True | _ => False end.

  Lemma active_not_idle (p : pc Loc) : active p -> p <> PIdle /\ p <> PWait /\ forall b, p <> PDone b.
  Proof. destruct p; cbn; intros H; try contradiction; repeat split; try discriminate; intros; discriminate. Qed.

  (** Call [j] passes the topic check (the predicate of [accepted]). *)
  Definition accb (j : nat) : bool := match nth_error hs j with Some h => okb h | None => false end.

  (** What is known of call [j] at each program point: whether it is accepted, whether its write
      is in the commit log [w], and that a local copy was advanced from the CURRENT store [st]. *)
  Definition at_pc (st : St) (w : list nat) (j : nat) (p : pc Loc) : Prop :=
    match p with
    | PIdle | PWait => ~ In j w
    | PHeld => accb j = true /\ ~ In j w
    | PRead c | PBegun c =>
        accb j = true /\ ~ In j w /\ forall h, nth_error hs j = Some h -> c = adv h (rd st)
    | PWritten => accb j = true /\ In j w
    | PDone b => accb j = b /\ (In j w <-> b = true)
    end.

  (** While the permit is free nobody waits ([inv_free]), so the call that takes a free permit
      overtakes no queued one; the store is the serial composition of the committed writes
      ([inv_store]). *)
  Record Inv (s : M) : Prop := {
    inv_holder : forall j, active (m_pc s j) -> m_holder s = Some j;
    inv_free : m_holder s = None -> m_queue s = [];
    inv_queue_nodup : NoDup (m_queue s);
    inv_queue : forall j, In j (m_queue s) -> m_pc s j = PWait;
    inv_calls : forall j, at_pc (m_store s) (m_wlog s) j (m_pc s j);
    inv_wlog_nodup : NoDup (m_wlog s);
    inv_store : m_store s = fold_left sstep (hdrs (m_wlog s)) s0
  }.

  Lemma inv_init : Inv (m_init s0).
  Proof.
    constructor; cbn [m_init m_pc m_holder m_queue m_store m_wlog at_pc].
    - intros j [].
    - reflexivity.
    - constructor.
    - intros j [].
    - intros j [].
    - constructor.
    - reflexivity.
  Qed.

  (** A label that moves only call [i], to a program point where it is not queued, and leaves
      queue, store and commit log alone. *)
  Lemma inv_move (s : M) (i : nat) (p : pc Loc) (ho : option nat) :
    Inv s -> m_pc s i <> PWait ->
    (m_holder s = None \/ ho = m_holder s) -> (active p -> ho = Some i) ->
    at_pc (m_store s) (m_wlog s) i p ->
    Inv {| m_store := m_store s; m_holder := ho; m_queue := m_queue s;
           m_pc := upd (m_pc s) i p; m_wlog := m_wlog s |}.
  Proof.
    intros I Hnw Hho Hp Hat. constructor; cbn [m_pc m_holder m_queue m_store m_wlog].
    - intros j. upd_case j i; [exact Hp|]. intros Ha. apply (inv_holder s I) in Ha.
      destruct Hho as [E| ->]; [congruence|exact Ha].
    - intros E. apply (inv_free s I). destruct Hho as [E0|E0]; [exact E0|rewrite <- E0; exact E].
    - apply (inv_queue_nodup s I).
    - intros j Hj. apply (inv_queue s I) in Hj. upd_case j i; [contradiction|exact Hj].
    - intros j. upd_case j i; [exact Hat|apply (inv_calls s I)].
    - apply (inv_wlog_nodup s I).
    - apply (inv_store s I).
  Qed.

  (** Handing over the permit moves waiting calls only: to [PHeld] the first accepted one, to
      [PDone false] the rejected ones before it. *)
  Definition moved (pcs pcs' : nat -> pc Loc) (j : nat) : Prop :=
    pcs' j = pcs j \/ (pcs j = PWait /\ pcs' j = if accb j then PHeld else PDone false).

  Lemma at_pc_moved st w pcs pcs' j : moved pcs pcs' j -> at_pc st w j (pcs j) -> at_pc st w j (pcs' j).
  Proof.
    intros [->|[-> ->]]; [tauto|]. unfold at_pc. destruct (accb j); [tauto|].
    intros Hn. split; [reflexivity|]. split; [contradiction|discriminate].
  Qed.

  Lemma grant_none :
    forall q pcs q' pcs', grant Loc Hd okb hs q pcs = (None, q', pcs') -> q' = [].
  Proof.
    induction q as [|x q IH]; intros pcs q' pcs' Hg; cbn [grant] in Hg.
    - injection Hg as <- _. reflexivity.
    - destruct (nth_error hs x) as [h|]; [destruct (okb h)|]; [discriminate Hg|apply (IH _ _ _ Hg)..].
  Qed.

  Lemma grant_spec :
    forall q pcs ho q' pcs',
      (forall j, ~ active (pcs j)) -> NoDup q -> (forall j, In j q -> pcs j = PWait) ->
      grant Loc Hd okb hs q pcs = (ho, q', pcs') ->
      (forall j, active (pcs' j) -> ho = Some j) /\ NoDup q' /\
      (forall j, In j q' -> pcs' j = PWait) /\ (forall j, moved pcs pcs' j).
  Proof.
    induction q as [|x q IH]; intros pcs ho q' pcs' Hna Hnd Hq Hg; cbn [grant] in Hg.
    - injection Hg as <- <- <-. split; [|split; [|split]].
      + intros j H. destruct (Hna j H).
      + constructor.
      + intros j [].
      + intros j. left. reflexivity.
    - apply NoDup_cons_iff in Hnd. destruct Hnd as [Hx Hnd'].
      assert (Hxw : pcs x = PWait) by (apply Hq; left; reflexivity).
      assert (Hq1 : forall p j, In j q -> upd pcs x p j = PWait).
      { intros p j Hj. rewrite upd_other; [apply Hq; right; exact Hj|]. intros ->. exact (Hx Hj). }
      assert (Ex : accb x = match nth_error hs x with Some h => okb h | None => false end) by reflexivity.
      destruct (nth_error hs x) as [h|]; [destruct (okb h)|].
      + injection Hg as <- <- <-. split; [|split; [|split]].
        * intros j. upd_case j x; [reflexivity|]. intros H. destruct (Hna j H).
        * exact Hnd'.
        * apply Hq1.
        * intros j. unfold moved. upd_case j x; [|left; reflexivity].
          right. rewrite Ex. split; [exact Hxw|reflexivity].
      + assert (Hna1 : forall j, ~ active (upd pcs x (PDone false) j)).
        { intros j. upd_case j x; [intros []|apply Hna]. }
        destruct (IH _ _ _ _ Hna1 Hnd' (Hq1 _) Hg) as (A & B & C & E).
        split; [exact A|]. split; [exact B|]. split; [exact C|].
        intros j. generalize (E j). unfold moved. upd_case j x; [|intros Ej; exact Ej].
        intros [Ej|[Ej _]]; [|discriminate]. right. rewrite Ex. split; [exact Hxw|exact Ej].
      + apply (IH _ _ _ _ Hna Hnd'); [|exact Hg]. intros j Hj. apply Hq. right. exact Hj.
  Qed.

  Lemma at_pc_frame st st' w w' j p :
    (In j w' <-> In j w) -> ~ active p -> at_pc st w j p -> at_pc st' w' j p.
  Proof.
    intros Hw Hn. destruct p; cbn [active] in Hn; try (destruct (Hn Logic.I));
      cbn [at_pc]; rewrite Hw; intros H; exact H.
  Qed.

  Lemma inv_step (s : M) (i : nat) : Inv s -> Inv (stp s i).
  Proof.
    intros I. unfold step.
    destruct (nth_error hs i) as [h|] eqn:Eh; [|exact I].
    pose proof (inv_calls s I i) as Hi. pose proof (inv_holder s I i) as Hho.
    assert (Ea : accb i = okb h) by (unfold accb; rewrite Eh; reflexivity).
    destruct (m_pc s i) as [| | |c|c| |b] eqn:Epc; try exact I; cbn [at_pc active] in Hi, Hho.
    - destruct (m_holder s) as [x|] eqn:Eho.
      + (* the permit is taken: queue up *)
        assert (Hni : ~ In i (m_queue s)).
        { intros Hin. apply (inv_queue s I) in Hin. congruence. }
        constructor; cbn [m_pc m_holder m_queue m_store m_wlog].
        * intros j. upd_case j i; [intros []|]. rewrite <- Eho. apply (inv_holder s I).
        * discriminate.
        * apply NoDup_snoc; [apply (inv_queue_nodup s I)|exact Hni].
        * intros j Hj. apply in_app_or in Hj. upd_case j i; [reflexivity|].
          destruct Hj as [Hj|[Hj|[]]]; [apply (inv_queue s I), Hj|congruence].
        * intros j. upd_case j i; [exact Hi|apply (inv_calls s I)].
        * apply (inv_wlog_nodup s I).
        * apply (inv_store s I).
      + (* the permit is free: the topic check decides *)
        destruct (okb h).
        * apply inv_move; [exact I|congruence|left; exact Eho|reflexivity|]. split; [exact Ea|exact Hi].
        * apply inv_move; [exact I|congruence|left; exact Eho|intros []|].
          split; [exact Ea|]. split; [contradiction|discriminate].
    - apply inv_move; [exact I|congruence|right; reflexivity|exact Hho|].
      split; [apply Hi|]. split; [apply Hi|]. congruence.
    - apply inv_move; [exact I|congruence|right; reflexivity|exact Hho|exact Hi].
    - (* the write: no other call is in the critical section *)
      specialize (Hho Logic.I). destruct Hi as (Hok & Hni & Hc).
      constructor; cbn [m_pc m_holder m_queue m_store m_wlog].
      + intros j. upd_case j i; [intros _; exact Hho|apply (inv_holder s I)].
      + apply (inv_free s I).
      + apply (inv_queue_nodup s I).
      + intros j Hj. apply (inv_queue s I) in Hj. upd_case j i; [congruence|exact Hj].
      + intros j. upd_case j i.
        * split; [exact Hok|]. apply in_or_app. right. left. reflexivity.
        * apply (at_pc_frame (m_store s) _ (m_wlog s)); [apply in_snoc_other; congruence| |apply (inv_calls s I)].
          intros Ha. apply (inv_holder s I) in Ha. congruence.
      + apply NoDup_snoc; [apply (inv_wlog_nodup s I)|exact Hni].
      + unfold hdrs_of. rewrite flat_map_app, fold_left_app. fold (hdrs (m_wlog s)).
        rewrite <- (inv_store s I). cbn [flat_map]. rewrite Eh. cbn [app fold_left].
        unfold seqstep. rewrite (Hc h Eh). reflexivity.
    - (* return: the permit goes to the queue *)
      specialize (Hho Logic.I). set (pcs1 := upd (m_pc s) i (PDone true)).
      assert (Hna : forall j, ~ active (pcs1 j)).
      { intros j. unfold pcs1. upd_case j i; [intros []|].
        intros Hj. apply (inv_holder s I) in Hj. congruence. }
      assert (Hq1 : forall j, In j (m_queue s) -> pcs1 j = PWait).
      { intros j Hj. apply (inv_queue s I) in Hj. unfold pcs1. upd_case j i; [congruence|exact Hj]. }
      destruct (grant Loc Hd okb hs (m_queue s) pcs1) as [[ho q'] pcs'] eqn:Eg.
      destruct (grant_spec _ _ _ _ _ Hna (inv_queue_nodup s I) Hq1 Eg) as (A & B & C & E).
      constructor; cbn [m_pc m_holder m_queue m_store m_wlog]; try assumption.
      + intros ->. apply (grant_none _ _ _ _ Eg).
      + intros j. apply (at_pc_moved _ _ pcs1); [apply E|]. unfold pcs1. upd_case j i; [|apply (inv_calls s I)].
        cbn [at_pc]. tauto.
      + apply (inv_wlog_nodup s I).
      + apply (inv_store s I).
  Qed.

  Notation runm := (run St Loc Hd okb rd adv wr hs).

  Lemma inv_run_from (sched : list nat) : forall s, Inv s -> Inv (runm s sched).
  Proof.
    unfold run. induction sched as [|i r IH]; intros s I; cbn [fold_left]; [exact I|].
    apply IH, inv_step, I.
  Qed.

  Lemma inv_run (sched : list nat) : Inv (runm (m_init s0) sched).
  Proof. apply inv_run_from, inv_init. Qed.

  Lemma step_store (s : M) (i : nat) :
    Inv s ->
    m_store (stp s i) = m_store s \/
    exists h, nth_error hs i = Some h /\ okb h = true /\ m_store (stp s i) = sstep (m_store s) h.
  Proof.
    intros I. pose proof (inv_calls s I i) as Hi. unfold step.
    destruct (nth_error hs i) as [h|] eqn:Eh; [|left; reflexivity].
    destruct (m_pc s i) as [| | |c|c| |b]; try (left; reflexivity).
    - destruct (m_holder s); [left; reflexivity|]. destruct (okb h); left; reflexivity.
    - right. exists h. destruct Hi as (Hok & _ & Hc). split; [reflexivity|]. split.
      + unfold accb in Hok. rewrite Eh in Hok. exact Hok.
      + cbn [m_store]. unfold seqstep. rewrite <- (Hc h Eh). reflexivity.
    - destruct (grant Loc Hd okb hs (m_queue s) (upd (m_pc s) i (PDone true))) as [[ho q'] pcs'].
      left. reflexivity.
  Qed.

  Theorem run_store_serial (sched : list nat) :
    m_store (runm (m_init s0) sched) = fold_left sstep (hdrs (m_wlog (runm (m_init s0) sched))) s0.
  Proof. apply (inv_store _ (inv_run sched)). Qed.

  Lemma wlog_accepted (s : M) (j : nat) : Inv s -> In j (m_wlog s) -> accb j = true.
  Proof.
    intros I Hj. pose proof (inv_calls s I j) as H.
    destruct (m_pc s j) as [| | |c|c| |b]; cbn [at_pc] in H.
    1, 2: destruct (H Hj).
    1-4: exact (proj1 H).
    destruct H as [-> H]. apply H, Hj.
  Qed.

  Theorem run_wlog_perm (sched : list nat) :
    all_done St Loc Hd hs (runm (m_init s0) sched) ->
    Permutation (m_wlog (runm (m_init s0) sched)) (accepted Hd okb hs).
  Proof.
    intros Hdone. pose proof (inv_run sched) as I. set (s := runm (m_init s0) sched) in *.
    apply NoDup_Permutation.
    - apply (inv_wlog_nodup s I).
    - apply NoDup_filter, seq_NoDup.
    - intros j. unfold accepted. fold accb. rewrite filter_In, in_seq. split.
      + intros Hj. apply (wlog_accepted s j I) in Hj. split; [|exact Hj].
        split; [lia|]. apply nth_error_Some. unfold accb in Hj.
        destruct (nth_error hs j); discriminate.
      + intros [[_ Hlt] Hok]. specialize (Hdone j Hlt). pose proof (inv_calls s I j) as H.
        destruct (m_pc s j) as [| | | | | |b]; try discriminate.
        destruct H as [Hb H]. apply H. congruence.
  Qed.

  Lemma hdrs_In (l : list nat) (h : Hd) : In h (hdrs l) <-> exists j, In j l /\ nth_error hs j = Some h.
  Proof.
    unfold hdrs_of. rewrite in_flat_map. split; intros [j [Hj Hh]]; exists j; (split; [exact Hj|]).
    - destruct (nth_error hs j) as [h'|]; [destruct Hh as [->|[]]; reflexivity|destruct Hh].
    - rewrite Hh. left. reflexivity.
  Qed.

  Lemma hdrs_filter (l : list nat) : hdrs (filter accb l) = filter okb (hdrs l).
  Proof.
    unfold hdrs_of, accb. induction l as [|j l IH]; [reflexivity|]. cbn [filter flat_map].
    destruct (nth_error hs j) as [h|] eqn:Eh; [|exact IH].
    cbn [app filter]. destruct (okb h); [|exact IH].
    cbn [flat_map]. rewrite Eh. cbn [app]. f_equal. exact IH.
  Qed.

  Lemma hdrs_accepted : hdrs (accepted Hd okb hs) = filter okb hs.
  Proof. unfold accepted. fold accb. rewrite hdrs_filter. f_equal. apply (hdrs_of_seq [] hs). Qed.

  Theorem run_written_perm (sched : list nat) :
    all_done St Loc Hd hs (runm (m_init s0) sched) ->
    Permutation (hdrs (m_wlog (runm (m_init s0) sched))) (filter okb hs).
  Proof.
    intros Hdone. rewrite <- hdrs_accepted. unfold hdrs_of.
    apply Permutation_flat_map, run_wlog_perm, Hdone.
  Qed.

  (** For EVERY schedule: once all calls have returned, the store is what the accepted calls give
      one after the other in some order (the witness: that of their committed writes). *)
  Theorem run_serialisable (sched : list nat) :
    all_done St Loc Hd hs (runm (m_init s0) sched) ->
    exists order, Permutation order (filter okb hs) /\
                  m_store (runm (m_init s0) sched) = fold_left sstep order s0.
  Proof.
    intros Hdone. exists (hdrs (m_wlog (runm (m_init s0) sched))).
    split; [apply run_written_perm, Hdone|apply run_store_serial].
  Qed.

  Lemma all_doneb_spec (s : M) : all_doneb St Loc Hd hs s = true -> all_done St Loc Hd hs s.
  Proof.
    unfold all_doneb, all_done. rewrite forallb_forall. intros H i Hi. apply H, in_seq. lia.
  Qed.

  Lemma run_store_rel (R : St -> St -> Prop) :
    (forall x, R x x) -> (forall x y z, R x y -> R y z -> R x z) ->
    (forall x h, okb h = true -> R x (sstep x h)) ->
    forall sched s, Inv s -> R (m_store s) (m_store (runm s sched)).
  Proof.
    intros Hrefl Htrans Hstep. unfold run.
    induction sched as [|i r IH]; intros s I; cbn [fold_left]; [apply Hrefl|].
    apply Htrans with (y := m_store (stp s i)); [|apply IH, inv_step, I].
    destruct (step_store s i I) as [E|[h [_ [Hok E]]]]; rewrite E; [apply Hrefl|apply Hstep, Hok].
  Qed.

  Corollary run_store_rel_app (R : St -> St -> Prop) :
    (forall x, R x x) -> (forall x y z, R x y -> R y z -> R x z) ->
    (forall x h, okb h = true -> R x (sstep x h)) ->
    forall sched1 sched2,
      R (m_store (runm (m_init s0) sched1)) (m_store (runm (m_init s0) (sched1 ++ sched2))).
  Proof.
    intros Hrefl Htrans Hstep sched1 sched2. unfold run at 2. rewrite fold_left_app.
    apply (run_store_rel R Hrefl Htrans Hstep), inv_run.
  Qed.
End MachineProofs.

Notation crd k := (fun s : cstore => acked_cursor s k).
Notation cseq k := (seqstep cstore cursor header (crd k) cadv set_cursor).

Lemma cseq_is_ack (k : acked) (s : cstore) (h : header) :
  topic_ok k h = true -> cseq k s h = fst (ack s k h).
Proof. intros Hok. unfold seqstep, ack, cadv. rewrite Hok. reflexivity. Qed.

Lemma cseq_fold_ack_all (k : acked) (hl : list header) (s : cstore) :
  (forall h, In h hl -> topic_ok k h = true) ->
  fold_left (cseq k) hl s = ack_all s (map (pair k) hl).
Proof.
  intros Hall. apply (fold_left_map_ext (cseq k) _ (pair k)).
  intros s' h Hh. apply cseq_is_ack, Hall, Hh.
Qed.

Lemma conc_run_is_run k hs s0 sched :
  conc_run k hs s0 sched =
  run cstore cursor header (topic_ok k) (fun s => acked_cursor s k) cadv set_cursor hs (m_init s0) sched.
Proof. reflexivity. Qed.

(** For EVERY schedule of k concurrent acks through one [Acked], once all of them have returned
    every stored entry is the maximum of its initial value and the accepted acks of that log —
    the same value as running the calls one after the other. *)
Theorem concurrent_acks_max :
  forall (k : acked) (hs : list header) (s0 : cstore) (sched : list nat) (n a l : N),
    conc_all_done hs (conc_run k hs s0 sched) ->
    stored (m_store (conc_run k hs s0 sched)) n a l =
    fold_left (ack_step_spec n a l) (map (pair k) hs) (stored s0 n a l).
Proof.
  intros k hs s0 sched n a l Hdone. rewrite conc_run_is_run in *.
  destruct (run_serialisable _ _ _ _ _ _ _ _ _ _ Hdone) as (order & Hp & ->).
  rewrite cseq_fold_ack_all, ack_all_is_max.
  - rewrite (ack_spec_fold_perm n a l _ _ (Permutation_map (pair k) Hp)). apply ack_spec_fold_filter.
  - intros h Hh. apply (Permutation_in _ Hp), filter_In in Hh. apply Hh.
Qed.

Corollary concurrent_acks_as_sequential :
  forall (k : acked) (hs : list header) (s0 : cstore) (sched : list nat) (n a l : N),
    conc_all_done hs (conc_run k hs s0 sched) ->
    stored (m_store (conc_run k hs s0 sched)) n a l = stored (ack_all s0 (map (pair k) hs)) n a l.
Proof. intros. rewrite ack_all_is_max. apply concurrent_acks_max. assumption. Qed.

(** At no point of any schedule does any stored entry of any cursor decrease or vanish. *)
Theorem concurrent_acks_monotone :
  forall (k : acked) (hs : list header) (s0 : cstore) (sched1 sched2 : list nat) (n a l : N),
    ole_p (stored (m_store (conc_run k hs s0 sched1)) n a l)
          (stored (m_store (conc_run k hs s0 (sched1 ++ sched2))) n a l).
Proof.
  intros k hs s0 sched1 sched2 n a l. rewrite !conc_run_is_run.
  apply (run_store_rel_app _ _ _ _ _ _ _ _ _ (fun x y => ole_p (stored x n a l) (stored y n a l))).
  - intros x. apply ole_p_refl.
  - intros x y z. apply ole_p_trans.
  - intros x h Hok. rewrite cseq_is_ack by exact Hok. apply ack_monotone.
Qed.

(** The hypothesis of [concurrent_acks_max] is satisfiable by a long, truly interleaved schedule. *)
Definition ex_k : acked := {| aname := 7; atopic := 1 |}%N.
Definition ex_hs : list header :=
  [ {| hauthor := 0; hlog := 1; hseq := 5 |}; {| hauthor := 0; hlog := 1; hseq := 3 |};
    {| hauthor := 1; hlog := 1; hseq := 2 |}; {| hauthor := 0; hlog := 2; hseq := 9 |} ]%N.
Definition ex_sched : list nat := [0; 1; 2; 3; 1; 0; 2; 0; 0; 1; 0; 1; 2; 1; 1; 1; 2; 2; 2; 2].

Example ex_conc :
  conc_all_done ex_hs (conc_run ex_k ex_hs [] ex_sched) /\
  m_wlog (conc_run ex_k ex_hs [] ex_sched) = [0; 1; 2] /\
  stored (m_store (conc_run ex_k ex_hs [] ex_sched)) 7%N 0%N 1%N = Some 5%N /\
  stored (m_store (conc_run ex_k ex_hs [] ex_sched)) 7%N 1%N 1%N = Some 2%N /\
  stored (m_store (conc_run ex_k ex_hs [] ex_sched)) 7%N 0%N 2%N = None.
Proof.
  split; [|vm_compute; repeat split].
  apply all_doneb_spec. vm_compute. reflexivity.
Qed.

(** Read before acquire: both calls read the empty cursor, the second write drops author 0. *)
Lemma concurrent_acks_unserialised_read_refuted :
  exists (k : acked) (hs : list header) (s0 : cstore) (sched : list nat) (n a l : N),
    conc_all_done hs (conc_run_unserialised_read k hs s0 sched) /\
    stored (m_store (conc_run_unserialised_read k hs s0 sched)) n a l <>
    fold_left (ack_step_spec n a l) (map (pair k) hs) (stored s0 n a l).
Proof.
  exists ex_k, [ {| hauthor := 0; hlog := 1; hseq := 5 |}; {| hauthor := 1; hlog := 1; hseq := 3 |} ]%N,
         [], [0; 1; 0; 1; 0; 0; 0; 1; 1; 1], 7%N, 0%N, 1%N.
  split.
  - apply all_doneb_spec. vm_compute. reflexivity.
  - vm_compute. discriminate.
Qed.

(** Release before the write: call 1 reads while call 0 has not written yet; its later write
    moves the stored height from 5 back to 3. *)
Lemma concurrent_acks_early_release_refuted :
  exists (k : acked) (hs : list header) (s0 : cstore) (sched1 sched2 : list nat) (n a l : N),
    conc_all_done hs (conc_run_early_release k hs s0 (sched1 ++ sched2)) /\
    ~ ole_p (stored (m_store (conc_run_early_release k hs s0 sched1)) n a l)
            (stored (m_store (conc_run_early_release k hs s0 (sched1 ++ sched2))) n a l) /\
    stored (m_store (conc_run_early_release k hs s0 (sched1 ++ sched2))) n a l <>
    fold_left (ack_step_spec n a l) (map (pair k) hs) (stored s0 n a l).
Proof.
  exists ex_k, [ {| hauthor := 0; hlog := 1; hseq := 5 |}; {| hauthor := 0; hlog := 1; hseq := 3 |} ]%N,
         [], [0; 0; 0; 1; 1; 0; 0], [1; 1; 1], 7%N, 0%N, 1%N.
  split; [|split].
  - apply all_doneb_spec. vm_compute. reflexivity.
  - vm_compute. intros H. apply H. reflexivity.
  - vm_compute. discriminate.
Qed.

(** The same two schedules on the real order of steps give the maximum. *)
Example variants_schedules_on_code :
  let hs1 := [ {| hauthor := 0; hlog := 1; hseq := 5 |}; {| hauthor := 1; hlog := 1; hseq := 3 |} ]%N in
  let hs2 := [ {| hauthor := 0; hlog := 1; hseq := 5 |}; {| hauthor := 0; hlog := 1; hseq := 3 |} ]%N in
  let r1 := conc_run ex_k hs1 [] ([0; 1; 0; 1; 0; 0; 0; 1; 1; 1] ++ [1; 1]) in
  let r2 := conc_run ex_k hs2 [] ([0; 0; 0; 1; 1; 0; 0] ++ [1; 1; 1] ++ [1; 1]) in
  stored (m_store r1) 7%N 0%N 1%N = Some 5%N /\ stored (m_store r1) 7%N 1%N 1%N = Some 3%N /\
  stored (m_store r2) 7%N 0%N 1%N = Some 5%N.
Proof. vm_compute. repeat split. Qed.

Section C15.
  Import PV.Model.Replay.
  Variable tlog : logid.

  Notation dokb := (fun r : row => N.eqb (r_log r) tlog).
  Notation dseq := (seqstep durable (list (key * N)) row cursor dadv dwr).

  Lemma dseq_is_ack (d : durable) (r : row) : dokb r = true -> dseq d r = dstep tlog d (LAck r).
  Proof. intros Hok. cbn [dstep]. cbv beta in Hok. rewrite Hok. reflexivity. Qed.

  Lemma dseq_fold_dexec (rl : list row) (d : durable) :
    (forall r, In r rl -> dokb r = true) -> fold_left dseq rl d = dexec tlog d (map LAck rl).
  Proof.
    intros Hall. apply (fold_left_map_ext dseq _ LAck). intros d' r Hr. apply dseq_is_ack, Hall, Hr.
  Qed.

  (** Whatever the schedule, once all calls have returned the tables are those after
      acknowledging the accepted operations one after the other in SOME order — so every theorem
      about traces of atomic [LAck] transitions applies. *)
  Theorem dconc_serialisable :
    forall (rs : list row) (d : durable) (sched : list nat),
      dconc_all_done rs (dconc_run tlog rs d sched) ->
      exists order : list row,
        Permutation order (filter (fun r => N.eqb (r_log r) tlog) rs) /\
        m_store (dconc_run tlog rs d sched) = dexec tlog d (map LAck order).
  Proof.
    intros rs d sched Hdone.
    destruct (run_serialisable durable _ row dokb cursor dadv dwr rs d sched Hdone) as (order & Hp & E).
    exists order. split; [exact Hp|]. rewrite <- dseq_fold_dexec; [exact E|].
    intros r Hr. apply (Permutation_in _ Hp), filter_In in Hr. apply Hr.
  Qed.

  (** After any history, k concurrent acks in any interleaving, and anything that happens
      afterwards (crashes included), a restart from the frontier does not replay an operation
      that one of the k calls acknowledged, nor an earlier one of its log. *)
  Theorem concurrent_acks_not_redelivered :
    forall (tr0 : list label) (rs : list row) (sched : list nat) (tr2 : list label) (a r : row),
      dconc_all_done rs (dconc_run tlog rs (Proofs.Replay.after tlog tr0) sched) ->
      In a rs -> r_log a = tlog -> rkey r = rkey a -> (r_seq r <= r_seq a)%N ->
      ~ In r (replay_entries (dexec tlog (m_store (dconc_run tlog rs (Proofs.Replay.after tlog tr0) sched)) tr2)).
  Proof.
    intros tr0 rs sched tr2 a r Hdone Ha Hlog Hkey Hle.
    destruct (dconc_serialisable rs _ sched Hdone) as [order [Hperm Hst]].
    rewrite Hst, !Proofs.Replay.dexec_after.
    apply (Proofs.Replay.acked_not_redelivered tlog (tr0 ++ map LAck order) tr2 a r); try assumption.
    apply in_or_app. right. apply in_map.
    apply (Permutation_in a (Permutation_sym Hperm)).
    apply filter_In. split; [exact Ha|]. apply N.eqb_eq. exact Hlog.
  Qed.
End C15.

Example ex_dconc :
  let r1 := Model.Replay.Build_row 1%N 5%N 7%N 0%N Model.Replay.Body false in
  let r2 := Model.Replay.Build_row 2%N 5%N 7%N 1%N Model.Replay.Body false in
  let r3 := Model.Replay.Build_row 3%N 6%N 7%N 0%N Model.Replay.Body false in
  let tr0 := [Model.Replay.LStore r1; Model.Replay.LStore r2; Model.Replay.LStore r3] in
  let s := dconc_run 7%N [r2; r3] (Proofs.Replay.after 7%N tr0) [0; 1; 0; 1; 0; 0; 0; 1; 1; 1; 1] in
  dconc_all_done [r2; r3] s /\ Model.Replay.replay_entries (m_store s) = [] /\
  Model.Replay.replay_entries (Proofs.Replay.after 7%N tr0) = [r1; r2; r3].
Proof.
  cbv zeta. split; [|vm_compute; split; reflexivity].
  apply all_doneb_spec. vm_compute. reflexivity.
Qed.
