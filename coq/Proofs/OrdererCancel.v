(** Cancellation of [Orderer::next] (C12): dropping the future anywhere before the commit has been
    applied leaves the world untouched; dropping it between the applied commit and the completion
    of [get_operation] loses the item (the known finding); nothing else loses an item. *)
From Coq Require Import List NArith.
From PV Require Import Model.Orderer Model.OrdererCancel Proofs.OrdererBase Proofs.OrdererSafety.
Import ListNotations.

Definition taken (w0 : world) : store := fst (take_next_ready (st w0)).

(** what a [next()] future started in [w0] has done to the world when it stands at [p] *)
Definition R (w0 : world) (p : pc) (w : world) : Prop :=
  match p with
  | PLock | PBegin | PTake | PNotified => w = w0
  | PCommit x s' => w = w0 /\ take_next_ready (st w0) = (s', Some x)
  | PCommitted x | PGetOp x =>
      w = mkW (taken w0) (opstore w0) (ret w0) /\ snd (take_next_ready (st w0)) = Some x
  | PDone (ROk x) =>
      w = mkW (taken w0) (opstore w0) (ret w0 ++ [x]) /\ snd (take_next_ready (st w0)) = Some x /\
      In x (opstore w0)
  | PDone (RInconsistent x) =>
      w = mkW (taken w0) (opstore w0) (ret w0) /\ snd (take_next_ready (st w0)) = Some x /\
      ~ In x (opstore w0)
  end.

Lemma step_R w0 p w : R w0 p w -> R w0 (fst (step p w)) (snd (step p w)).
Proof.
  (* only [PTake], [PCommit] and [PGetOp] change what [R] says *)
  destruct p as [| | |x s'|x|x| |[x|x]]; cbn [step R]; intros H; try exact H.
  - subst w. destruct (take_next_ready (st w0)) as [s' [x|]] eqn:E; cbn [fst snd R]; auto.
  - destruct H as [Hw E]. subst w. cbn [fst snd R]. unfold taken. rewrite E. auto.
  - destruct H as [Hw E]. subst w. cbn [opstore st ret].
    destruct (memN x (opstore w0)) eqn:Em; cbn [fst snd R].
    + apply memN_In in Em. auto.
    + apply memN_false in Em. auto.
Qed.

Lemma exec_R w0 : forall n p w, R w0 p w -> R w0 (fst (exec n p w)) (snd (exec n p w)).
Proof.
  induction n as [|n IH]; intros p w H; [exact H|].
  cbn [exec]. pose proof (step_R w0 p w H) as Hs. destruct (step p w) as [p' w']. apply IH. exact Hs.
Qed.

Lemma reach n w : R w (fst (exec n PLock w)) (snd (exec n PLock w)).
Proof. apply exec_R. reflexivity. Qed.

Definition is_done (p : pc) : bool := match p with PDone _ => true | _ => false end.

Theorem cancel_safe_before_commit : forall n w,
  after_commit (fst (exec n PLock w)) = false -> is_done (fst (exec n PLock w)) = false ->
  attempt n w = w.
Proof.
  intros n w Ha Hd. unfold attempt, cancel. pose proof (reach n w) as H.
  destruct (fst (exec n PLock w)) as [| | |x s'|x|x| |r]; cbn [R after_commit is_done] in *;
    try discriminate; try exact H. exact (proj1 H).
Qed.

Lemma take_snd_row s x :
  snd (take_next_ready s) = Some x -> exists m, In m (ready_tbl s) /\ r_id m = x.
Proof.
  intros E. apply take_snd_Some, take_Some in E. destruct E as [_ [m [Hm [Em _]]]]. eauto.
Qed.

Lemma NoLoss_done w0 x :
  NoLoss w0 -> snd (take_next_ready (st w0)) = Some x ->
  NoLoss (mkW (taken w0) (opstore w0) (ret w0 ++ [x])).
Proof.
  intros HN E r Hr Hq. cbn [st ret] in *. apply in_app_iff.
  destruct (take_out_of_queue (st w0) _ x r (take_snd_Some _ _ E) Hr Hq) as [Hx|[r0 [Hr0 [<- Hq0]]]].
  - right. left. auto.
  - left. exact (HN r0 Hr0 Hq0).
Qed.

Lemma ops_present_taken w0 rt :
  ops_present w0 -> ops_present (mkW (taken w0) (opstore w0) rt).
Proof.
  intros H r Hr. cbn [st opstore] in *.
  assert (Hin : In (r_id r) (ids (taken w0))) by (apply in_map; exact Hr).
  unfold taken in Hin. rewrite take_ids in Hin. apply in_map_iff in Hin.
  destruct Hin as [r0 [E Hr0]]. rewrite <- E. exact (H r0 Hr0).
Qed.

Lemma attempt_safe n w :
  NoLoss w -> ops_present w -> after_commit (fst (exec n PLock w)) = false ->
  NoLoss (attempt n w) /\ ops_present (attempt n w) /\ ids (st (attempt n w)) = ids (st w).
Proof.
  intros HN HO Ha. unfold attempt, cancel. pose proof (reach n w) as H.
  destruct (fst (exec n PLock w)) as [| | |x s'|x|x| |[x|x]]; cbn [R after_commit] in *;
    try discriminate; try (rewrite H; auto).
  - destruct H as [H _]. rewrite H. auto.
  - destruct H as [H [E Hin]]. rewrite H. split; [apply NoLoss_done; assumption|].
    split; [apply ops_present_taken; exact HO|]. cbn [st]. apply take_ids.
  - destruct H as [_ [E Hnot]]. exfalso. apply Hnot.
    destruct (take_snd_row (st w) x E) as [m [Hm Em]]. rewrite <- Em. exact (HO m Hm).
Qed.

Lemma run_attempts_safe : forall ns w,
  NoLoss w -> ops_present w -> safe_sched ns w ->
  NoLoss (run_attempts ns w) /\ ops_present (run_attempts ns w) /\
  ids (st (run_attempts ns w)) = ids (st w).
Proof.
  induction ns as [|n ns IH]; intros w HN HO Hs; [cbn; auto|].
  cbn [safe_sched] in Hs. destruct Hs as [Ha Hs].
  destruct (attempt_safe n w HN HO Ha) as [HN' [HO' Hid]].
  unfold run_attempts. cbn [fold_left]. fold (run_attempts ns (attempt n w)).
  destruct (IH _ HN' HO' Hs) as [A [B C]]. split; [exact A|]. split; [exact B|]. congruence.
Qed.

Lemma attempt_full w :
  ops_present w ->
  attempt full w =
  match take_next_ready (st w) with
  | (s', Some x) => mkW s' (opstore w) (ret w ++ [x])
  | (_, None) => w
  end.
Proof.
  intros HO. unfold attempt, cancel, full. cbn [exec step].
  destruct (take_next_ready (st w)) as [s' [x|]] eqn:E; cbn [exec step snd opstore st ret]; [|reflexivity].
  assert (Hx : memN x (opstore w) = true).
  { apply memN_In. apply take_Some in E. destruct E as [_ [m [Hm [Em _]]]]. rewrite <- Em. exact (HO m Hm). }
  rewrite Hx. reflexivity.
Qed.

Lemma full_not_after_commit w : after_commit (fst (exec full PLock w)) = false.
Proof.
  unfold full. cbn [exec step].
  destruct (take_next_ready (st w)) as [s' [x|]]; cbn [exec step opstore]; [|reflexivity].
  destruct (memN x (opstore w)); reflexivity.
Qed.

Lemma wdrain_none w : ops_present w -> snd (take_next_ready (st w)) = None -> forall m, wdrain m w = w.
Proof.
  intros HO E. induction m as [|m IH]; [reflexivity|]. cbn [wdrain]. rewrite (attempt_full w HO).
  destruct (take_next_ready (st w)) as [s' [x|]]; [discriminate | exact IH].
Qed.

Lemma wdrain_spec : forall n w,
  ops_present w ->
  st (wdrain n w) = fst (drain n (st w)) /\ ret (wdrain n w) = ret w ++ snd (drain n (st w)) /\
  opstore (wdrain n w) = opstore w.
Proof.
  induction n as [|n IH]; intros w HO.
  - cbn [wdrain drain fst snd]. rewrite app_nil_r. auto.
  - cbn [wdrain drain]. rewrite (attempt_full w HO).
    destruct (take_next_ready (st w)) as [s' [x|]] eqn:E.
    + assert (HO' : ops_present (mkW s' (opstore w) (ret w ++ [x]))).
      { pose proof (ops_present_taken w (ret w ++ [x]) HO) as H. unfold taken in H. rewrite E in H. exact H. }
      destruct (IH _ HO') as [A [B C]]. cbn [st ret opstore] in *.
      destruct (drain n s') as [s'' l]. cbn [fst snd] in *. rewrite A, B, C, <- app_assoc. auto.
    + (* the queue is empty: every further attempt finds nothing *)
      rewrite (wdrain_none w HO) by (rewrite E; reflexivity).
      apply take_None in E. destruct E as [-> _]. cbn [fst snd]. rewrite app_nil_r. auto.
Qed.

Lemma wdrain_safe : forall n w, NoLoss w -> ops_present w -> NoLoss (wdrain n w) /\ ops_present (wdrain n w).
Proof.
  induction n as [|n IH]; intros w HN HO; [auto|]. cbn [wdrain].
  destruct (attempt_safe full w HN HO (full_not_after_commit w)) as [A [B _]]. exact (IH _ A B).
Qed.

Lemma drain_ids n s : ids (fst (drain n s)) = ids s.
Proof.
  refine (drain_invariant (fun _ s' => ids s' = ids s) _ n [] s eq_refl).
  intros _ s1 s2 x H E. rewrite <- H, <- (take_ids s1), E. reflexivity.
Qed.

Theorem outside_known : forall ns w,
  NoLoss w -> ops_present w -> safe_sched ns w ->
  let wf := run_attempts ns w in
  NoLoss wf /\
  forall r, In r (ready_tbl (st w)) ->
            In (r_id r) (ret (wdrain (S (length (ready_tbl (st wf)))) wf)).
Proof.
  intros ns w HN HO Hs wf.
  destruct (run_attempts_safe ns w HN HO Hs) as [HNf [HOf Hid]]. fold wf in HNf, HOf, Hid.
  split; [exact HNf|]. intros r Hr.
  set (N := S (length (ready_tbl (st wf)))).
  destruct (wdrain_safe N wf HNf HOf) as [HNd _].
  destruct (wdrain_spec N wf HOf) as [Est _].
  (* the row of the same id in the drained store is out of the queue *)
  assert (Hin : In (r_id r) (ids (st (wdrain N wf)))).
  { rewrite Est, drain_ids, Hid. apply in_map, Hr. }
  apply in_map_iff in Hin. destruct Hin as [r' [Er' Hr']]. rewrite <- Er'.
  apply (HNd r' Hr'). rewrite Est in Hr'.
  exact (drain_all_empties (st wf) r' Hr').
Qed.

Definition w_ex : world := mkW (mark_ready empty 0%N) [0%N] [].

Theorem refuted :
  exists w n x,
    NoLoss w /\ ops_present w /\
    after_commit (fst (exec n PLock w)) = true /\
    (exists r, In r (ready_tbl (st w)) /\ r_id r = x /\ r_inq r = true) /\
    forall m, ~ In x (ret (wdrain m (attempt n w))).
Proof.
  exists w_ex, 4, 0%N. split; [|split; [|split; [|split]]].
  - intros r [H|[]] Hq. subst r. discriminate.
  - intros r [H|[]]. subst r. left. reflexivity.
  - reflexivity.
  - eexists. split; [left; reflexivity|]. split; reflexivity.
  - intros m. rewrite wdrain_none; [intros [] | | reflexivity].
    intros r [H|[]]. subst r. left. reflexivity.
Qed.

(** the same holds one await point later (inside [get_operation]) *)
Example refuted_getop :
  after_commit (fst (exec 5 PLock w_ex)) = true /\ ret (wdrain 3 (attempt 5 w_ex)) = [].
Proof. split; reflexivity. Qed.

(** non-vacuity of [outside_known]: cancelled while taking, while committing (not yet applied),
    completed once, cancelled in [begin] -- then everything is still handed out *)
Definition w_ex2 : world :=
  mkW (mark_ready (mark_ready (mark_ready empty 0%N) 1%N) 2%N) [0%N; 1%N; 2%N] [].

Example ex_safe_sched : NoLoss w_ex2 /\ ops_present w_ex2 /\ safe_sched [2; 3; 6; 1] w_ex2.
Proof.
  split; [|split].
  - intros r [H|[H|[H|[]]]] Hq; subst r; discriminate.
  - intros r [H|[H|[H|[]]]]; subst r; [left | right; left | do 2 right; left]; reflexivity.
  - cbn [safe_sched]. repeat split; reflexivity.
Qed.

Example ex_safe_result : ret (wdrain 4 (run_attempts [2; 3; 6; 1] w_ex2)) = [0%N; 1%N; 2%N].
Proof. reflexivity. Qed.
