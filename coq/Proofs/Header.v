(** Proofs about the header encoding model (Model/Header.v) — property C02.

    Trusted assumptions (Section hypotheses):
    - [order1], [order2], [arrange]: the iteration order of a Rust [HashSet] is *some* permutation
      of its elements ([order1_perm], [order2_perm], [arrange_perm]); nothing else is assumed
      about it.
    - [key_ok]: an arbitrary predicate "these 32 bytes are an Ed25519 point".
    - [hash], [verify_sig]: arbitrary functions of the encoded tokens (for the corollaries that
      the operation id and the signature check are functions of the header value). *)
From Coq Require Import List NArith Bool Arith Lia Permutation Sorted.
From PV Require Import Model.Header.
Import ListNotations.

Lemma bytes_eqb_eq : forall a b, bytes_eqb a b = true <-> a = b.
Proof.
  induction a as [|x a IH]; destruct b as [|y b]; cbn [bytes_eqb]; split; intro H;
    try reflexivity; try discriminate.
  - apply andb_prop in H as [->%N.eqb_eq ->%IH]. reflexivity.
  - injection H as -> ->. rewrite N.eqb_refl. apply IH. reflexivity.
Qed.

Lemma bytes_eqb_refl : forall a, bytes_eqb a a = true.
Proof. intro a. apply bytes_eqb_eq. reflexivity. Qed.

Lemma bytes_eqb_neq : forall a b, bytes_eqb a b = false <-> a <> b.
Proof.
  intros a b. split; intro H.
  - intro E. apply bytes_eqb_eq in E. congruence.
  - destruct (bytes_eqb a b) eqn:E; [|reflexivity]. apply bytes_eqb_eq in E. contradiction.
Qed.

Lemma bytes_leb_refl : forall a, bytes_leb a a = true.
Proof.
  induction a as [|x a IH]; cbn [bytes_leb]; [reflexivity|].
  rewrite N.ltb_irrefl, N.eqb_refl. exact IH.
Qed.

Lemma bytes_leb_cons : forall x a y b,
  bytes_leb (x :: a) (y :: b) = true <-> (x < y)%N \/ x = y /\ bytes_leb a b = true.
Proof.
  intros x a y b. cbn [bytes_leb].
  destruct (N.ltb_spec x y) as [L|L]; [split; auto|].
  destruct (N.eqb_spec x y) as [E|E].
  - split; [auto|]. intros [L'|[_ H]]; [lia | exact H].
  - split; [discriminate|]. intros [L'|[E' _]]; [lia | contradiction].
Qed.

Lemma bytes_leb_total : forall a b, bytes_leb a b = true \/ bytes_leb b a = true.
Proof.
  induction a as [|x a IH]; destruct b as [|y b]; try (cbn [bytes_leb]; auto; fail).
  destruct (N.lt_trichotomy x y) as [L|[E|L]].
  - left. apply bytes_leb_cons. auto.
  - destruct (IH b); [left | right]; apply bytes_leb_cons; auto.
  - right. apply bytes_leb_cons. auto.
Qed.

Lemma bytes_leb_antisym : forall a b, bytes_leb a b = true -> bytes_leb b a = true -> a = b.
Proof.
  induction a as [|x a IH]; destruct b as [|y b]; try reflexivity; try discriminate.
  intros [L1|[E1 H1]]%bytes_leb_cons [L2|[E2 H2]]%bytes_leb_cons.
  - destruct (N.lt_asymm _ _ L1 L2).
  - subst y. destruct (N.lt_irrefl _ L1).
  - subst y. destruct (N.lt_irrefl _ L2).
  - f_equal; [exact E1 | apply IH; assumption].
Qed.

Lemma bytes_leb_trans : forall a b c, bytes_leb a b = true -> bytes_leb b c = true -> bytes_leb a c = true.
Proof.
  induction a as [|x a IH]; destruct b as [|y b]; destruct c as [|z c];
    try reflexivity; try discriminate.
  intros [L1|[E1 H1]]%bytes_leb_cons [L2|[E2 H2]]%bytes_leb_cons; apply bytes_leb_cons.
  - left. eapply N.lt_trans; eassumption.
  - left. congruence.
  - left. congruence.
  - right. split; [congruence | eapply IH; eassumption].
Qed.

Definition le_b (a b : bytes) : Prop := bytes_leb a b = true.

Lemma insert_sorted_perm : forall x l, Permutation (insert_sorted x l) (x :: l).
Proof.
  induction l as [|y r IH]; cbn [insert_sorted]; [apply Permutation_refl|].
  destruct (bytes_leb x y); [apply Permutation_refl|].
  eapply Permutation_trans; [apply perm_skip; exact IH | apply perm_swap].
Qed.

Lemma isort_perm : forall l, Permutation (isort l) l.
Proof.
  induction l as [|x r IH]; cbn [isort]; [apply Permutation_refl|].
  eapply Permutation_trans; [apply insert_sorted_perm | apply perm_skip; exact IH].
Qed.

Lemma insert_sorted_sorted : forall x l,
  StronglySorted le_b l -> StronglySorted le_b (insert_sorted x l).
Proof.
  induction l as [|y r IH]; intro S; cbn [insert_sorted].
  - constructor; constructor.
  - inversion S as [|? ? Sr Fy]; subst.
    destruct (bytes_leb x y) eqn:L.
    + constructor; [exact S|]. constructor; [exact L|].
      eapply Forall_impl; [|exact Fy]. intros z Hz. eapply bytes_leb_trans; eassumption.
    + constructor; [apply IH; exact Sr|].
      assert (Hyx : le_b y x) by (destruct (bytes_leb_total x y) as [H|H]; [congruence | exact H]).
      eapply Permutation_Forall; [apply Permutation_sym; apply insert_sorted_perm|].
      constructor; assumption.
Qed.

Lemma isort_sorted : forall l, StronglySorted le_b (isort l).
Proof.
  induction l as [|x r IH]; cbn [isort]; [constructor|]. apply insert_sorted_sorted. exact IH.
Qed.

Lemma sorted_perm_unique : forall l1 l2,
  StronglySorted le_b l1 -> StronglySorted le_b l2 -> Permutation l1 l2 -> l1 = l2.
Proof.
  induction l1 as [|a l1 IH]; intros l2 S1 S2 P.
  - apply Permutation_nil in P. subst. reflexivity.
  - destruct l2 as [|b l2]; [apply Permutation_sym, Permutation_nil in P; discriminate|].
    inversion S1 as [|? ? S1' F1]; subst. inversion S2 as [|? ? S2' F2]; subst.
    (* each head is below every element of its own list, hence of the other one *)
    assert (E : a = b).
    { apply bytes_leb_antisym.
      - apply (Forall_inv (P := le_b a) (l := l2)), (Permutation_Forall P).
        constructor; [apply bytes_leb_refl | exact F1].
      - apply (Forall_inv (P := le_b b) (l := l1)), (Permutation_Forall (Permutation_sym P)).
        constructor; [apply bytes_leb_refl | exact F2]. }
    subst b. f_equal. apply IH; try assumption. eapply Permutation_cons_inv; exact P.
Qed.

(** Sorting is a function of the multiset of elements: this is what makes the repaired encoder
    independent of the [HashSet] iteration order. *)
Lemma isort_perm_eq : forall l1 l2, Permutation l1 l2 -> isort l1 = isort l2.
Proof.
  intros l1 l2 P. apply sorted_perm_unique; try apply isort_sorted.
  eapply Permutation_trans; [apply isort_perm|].
  eapply Permutation_trans; [exact P|]. apply Permutation_sym, isort_perm.
Qed.

Lemma strictly_sorted_cons : forall x l,
  strictly_sorted (x :: l) = true ->
  strictly_sorted l = true /\ Forall (fun y => le_b x y /\ x <> y) l.
Proof.
  intros x l; revert x. induction l as [|y r IH]; intros x H.
  - split; [reflexivity | constructor].
  - cbn [strictly_sorted] in H. fold (strictly_sorted (y :: r)) in H.
    apply andb_prop in H as [[Hle Hne]%andb_prop Hr].
    apply negb_true_iff, bytes_eqb_neq in Hne.
    split; [exact Hr|].
    constructor; [split; assumption|].
    destruct (IH y Hr) as [_ F].
    eapply Forall_impl; [|exact F]. intros z [Hz1 Hz2]. split.
    + eapply bytes_leb_trans; eassumption.
    + intro E. subst z. apply Hne. apply bytes_leb_antisym; assumption.
Qed.

Lemma strictly_sorted_nodup : forall l, strictly_sorted l = true -> NoDup l.
Proof.
  induction l as [|x r IH]; intro H; [constructor|].
  destruct (strictly_sorted_cons _ _ H) as [Hr F].
  constructor; [|apply IH; exact Hr]. intro I. rewrite Forall_forall in F.
  destruct (F x I) as [_ N]. apply N. reflexivity.
Qed.

Lemma isort_of_sorted : forall l, strictly_sorted l = true -> isort l = l.
Proof.
  induction l as [|x r IH]; intro H; [reflexivity|].
  destruct (strictly_sorted_cons _ _ H) as [Hr F]. cbn [isort]. rewrite (IH Hr).
  destruct F as [|y r' [L _] _]; cbn [insert_sorted]; [reflexivity|]. rewrite L. reflexivity.
Qed.

Lemma isort_of_perm : forall pv l, strictly_sorted pv = true -> Permutation l pv -> isort l = pv.
Proof. intros pv l S P. rewrite (isort_perm_eq _ _ P). apply isort_of_sorted, S. Qed.

Lemma memb_in : forall x l, memb x l = true <-> In x l.
Proof.
  intros x l. unfold memb. rewrite existsb_exists. split.
  - intros [y [I E]]. apply bytes_eqb_eq in E. subst. exact I.
  - intro I. exists x. split; [exact I | apply bytes_eqb_refl].
Qed.

Lemma dedup_nodup_id : forall l, NoDup l -> dedup l = l.
Proof.
  induction l as [|x r IH]; intro N; [reflexivity|]. inversion N as [|? ? Nx Nr]; subst.
  cbn [dedup]. destruct (memb x r) eqn:M.
  - apply memb_in in M. contradiction.
  - f_equal. apply IH. exact Nr.
Qed.

Lemma canon_of_perm : forall pv l,
  strictly_sorted pv = true -> Permutation l pv -> canon l = pv.
Proof.
  intros pv l S P. unfold canon.
  assert (N : NoDup l) by (eapply Permutation_NoDup; [apply Permutation_sym; exact P | apply strictly_sorted_nodup; exact S]).
  rewrite (dedup_nodup_id _ N). apply isort_of_perm; assumption.
Qed.

Lemma next_hashes_app : forall l rest,
  forallb (len_is 32) l = true ->
  next_hashes (length l) (map TBytes l ++ rest) = Some (l, rest).
Proof.
  induction l as [|b l IH]; intros rest H; [reflexivity|].
  cbn [forallb] in H. apply andb_prop in H as [Hb Hl]. unfold len_is in Hb.
  cbn [length map app next_hashes]. rewrite Hb, (IH rest Hl). reflexivity.
Qed.

Lemma bind_ok : forall {A B} (o : option A) (a : A) (f : A -> option B) (y : option B),
  o = Some a -> f a = y -> bind o f = y.
Proof. intros A B o a f y -> H. exact H. Qed.

Lemma next_uint_ok : forall bound n v r,
  N.ltb v bound = true -> next_uint bound (S n, TUInt v :: r) = Some (v, (n, r)).
Proof. intros bound n v r H. cbn [next_uint]. rewrite H. reflexivity. Qed.

Lemma next_bytes_ok : forall len n b r,
  len_is len b = true -> next_bytes len (S n, TBytes b :: r) = Some (b, (n, r)).
Proof. intros len n b r H. unfold len_is in H. cbn [next_bytes]. rewrite H. reflexivity. Qed.

Lemma next_bool_ok : forall n b r, next_bool (S n, TBool b :: r) = Some (b, (n, r)).
Proof. reflexivity. Qed.

Lemma next_key_ok : forall key_ok n b r,
  len_is 32 b = true -> key_ok b = true -> next_key key_ok (S n, TBytes b :: r) = Some (b, (n, r)).
Proof. intros key_ok n b r L K. unfold next_key. rewrite (next_bytes_ok _ _ _ _ L). cbn [bind]. rewrite K. reflexivity. Qed.

Lemma next_opt_hash_ok : forall o n r,
  opt_len_is 32 o = true ->
  next_opt_hash (is_some o) (opt_cnt o + n, opt_tok o ++ r) = Some (o, (n, r)).
Proof.
  intros [b|] n r L; [|reflexivity].
  cbn [is_some opt_cnt opt_tok app plus next_opt_hash]. rewrite (next_bytes_ok _ _ _ _ L). reflexivity.
Qed.

(** The element count of the header array, summed in the order in which the decoder consumes it. *)
Lemma field_count_eq : forall h,
  field_count h
  = 2 + (opt_cnt (h_sig h) + (1 + (opt_cnt (h_phash h) + (1 + (opt_cnt (h_backlink h) + (ext_cnt (h_ext h) + 0)))))).
Proof. intro h. unfold field_count. lia. Qed.

Section RoundTrip.
  Variable key_ok : bytes -> bool.
  (** [arrange]: in which order the serializer emits the elements of [previous]; all that is
      needed for the round trip is that it emits exactly the elements. *)
  Variable arrange : list bytes -> list bytes.
  Hypothesis arrange_perm : forall l, Permutation (arrange l) l.

  Lemma dec_node_ext_enc : forall e rest,
    kind_of e = KNode -> valid_ext e = true ->
    dec_node_ext (enc_ext_with arrange e ++ rest) = Some (e, rest).
  Proof.
    intros e rest K V. destruct e as [|n|l t p|l t pv]; try discriminate; cbn [valid_ext] in V.
    - apply andb_prop in V as [Vl Vt].
      cbn [enc_ext_with app]. unfold dec_node_ext.
      do 2 (eapply bind_ok; [apply next_uint_ok; reflexivity|]; cbn [negb N.eqb Pos.eqb]).
      eapply bind_ok; [exact (next_bytes_ok _ _ _ _ Vl)|].
      eapply bind_ok; [exact (next_uint_ok _ _ _ _ Vt)|]. reflexivity.
    - apply andb_prop in V as [[[Vl Vt]%andb_prop Vf]%andb_prop Vs].
      cbn [enc_ext_with]. rewrite <- app_assoc. cbn [app]. unfold dec_node_ext.
      do 2 (eapply bind_ok; [apply next_uint_ok; reflexivity|]; cbn [negb N.eqb Pos.eqb]).
      eapply bind_ok; [exact (next_bytes_ok _ _ _ _ Vl)|].
      eapply bind_ok; [exact (next_uint_ok _ _ _ _ Vt)|]. cbv beta iota.
      (* the array head announces [length pv], the elements that follow are [arrange pv] *)
      rewrite <- (Permutation_length (arrange_perm pv)).
      eapply bind_ok.
      { apply next_hashes_app, forallb_forall. intros x I.
        apply (proj1 (forallb_forall _ _) Vf), (Permutation_in _ (arrange_perm pv)), I. }
      cbv beta iota. rewrite (canon_of_perm pv (arrange pv) Vs (arrange_perm pv)). reflexivity.
  Qed.

  Lemma dec_ext_enc : forall e n rest,
    valid_ext e = true ->
    dec_ext (kind_of e) (ext_cnt e + n, enc_ext_with arrange e ++ rest) = Some (e, (n, rest)).
  Proof.
    intros e n rest V. destruct e as [|m|l t p|l t pv]; cbn [kind_of ext_cnt dec_ext plus].
    1: reflexivity.
    1: cbn [enc_ext_with app]; rewrite (next_uint_ok _ _ _ _ V); reflexivity.
    all: rewrite dec_node_ext_enc; [reflexivity | reflexivity | exact V].
  Qed.

  Theorem dec_enc_with : forall h rest,
    valid key_ok h = true ->
    dec_header key_ok (kind_of (h_ext h)) (enc_header_with arrange h ++ rest) = Some (h, rest).
  Proof.
    intros h rest V. unfold enc_header_with.
    (* [rest] goes inside, behind the tokens of the extension *)
    do 3 (cbn [app]; rewrite <- app_assoc). rewrite field_count_eq.
    destruct h as [v pk sg ps ph sq bl e]. unfold valid in V.
    cbn [h_version h_pk h_sig h_psize h_phash h_seq h_backlink h_ext] in *.
    apply andb_prop in V as [[[[[[[[[[Vv Vpk]%andb_prop Vk]%andb_prop Vsg]%andb_prop Vps]%andb_prop
      Vph]%andb_prop Vphl]%andb_prop Vsq]%andb_prop Vbl]%andb_prop Vbll]%andb_prop Ve].
    destruct sg as [sg|]; [|discriminate].
    apply eqb_prop in Vph. apply eqb_prop in Vbl.
    cbn [opt_tok opt_cnt app plus]. unfold dec_header.
    eapply bind_ok; [exact (next_uint_ok _ _ _ _ Vv)|].
    eapply bind_ok; [exact (next_key_ok _ _ _ _ Vpk Vk)|].
    eapply bind_ok; [exact (next_bytes_ok _ _ _ _ Vsg)|].
    eapply bind_ok; [exact (next_uint_ok _ _ _ _ Vps)|]. cbv beta iota. rewrite <- Vph.
    eapply bind_ok; [exact (next_opt_hash_ok _ _ _ Vphl)|].
    eapply bind_ok; [exact (next_uint_ok _ _ _ _ Vsq)|]. cbv beta iota. rewrite <- Vbl.
    eapply bind_ok; [exact (next_opt_hash_ok _ _ _ Vbll)|].
    eapply bind_ok; [exact (dec_ext_enc e 0 rest Ve)|]. reflexivity.
  Qed.
End RoundTrip.

Definition is_perm_fun (order : list bytes -> list bytes) : Prop := forall l, Permutation (order l) l.

Lemma enc_header_with_agree : forall a1 a2 h,
  (forall l t pv, h_ext h = ECausal l t pv -> a1 pv = a2 pv) ->
  enc_header_with a1 h = enc_header_with a2 h.
Proof.
  intros a1 a2 h H. unfold enc_header_with.
  destruct (h_ext h) as [|n|l t p|l t pv]; try reflexivity.
  cbn [enc_ext_with]. rewrite (H l t pv eq_refl). reflexivity.
Qed.

Definition no_bytes_head (ts : list token) : Prop :=
  match ts with TBytes _ :: _ => False | _ => True end.

Lemma opt_tok_split : forall o1 o2 r1 r2,
  no_bytes_head r1 -> no_bytes_head r2 ->
  opt_tok o1 ++ r1 = opt_tok o2 ++ r2 -> o1 = o2 /\ r1 = r2.
Proof.
  intros [b1|] [b2|] r1 r2 N1 N2 E; cbn [opt_tok app] in E.
  - injection E as -> ->. split; reflexivity.
  - subst r2. destruct N2.
  - subst r1. destruct N1.
  - split; [reflexivity | exact E].
Qed.

Lemma map_TBytes_inj : forall l1 l2, map TBytes l1 = map TBytes l2 -> l1 = l2.
Proof.
  induction l1 as [|a l1 IH]; destruct l2 as [|b l2]; cbn [map]; intro E; try discriminate; [reflexivity|].
  injection E as -> E. f_equal. apply IH. exact E.
Qed.

Lemma enc_ext_inj : forall e1 e2,
  enc_ext_with (fun l => l) e1 = enc_ext_with (fun l => l) e2 -> e1 = e2.
Proof.
  intros [|n1|l1 t1 p1|l1 t1 pv1] [|n2|l2 t2 p2|l2 t2 pv2] E; cbn [enc_ext_with app] in E;
    try discriminate E; try congruence.
  injection E as -> -> _ ->%map_TBytes_inj. reflexivity.
Qed.

Lemma enc_ext_head : forall arrange e, no_bytes_head (enc_ext_with arrange e).
Proof. intros arrange [|n|l t p|l t pv]; exact I. Qed.

(** The token format itself is injective: with [previous] emitted as it is, no condition on the
    header is needed. *)
Theorem enc_header_with_id_inj : forall h1 h2,
  enc_header_with (fun l => l) h1 = enc_header_with (fun l => l) h2 -> h1 = h2.
Proof.
  intros [v1 pk1 sg1 ps1 ph1 sq1 bl1 e1] [v2 pk2 sg2 ps2 ph2 sq2 bl2 e2] E.
  unfold enc_header_with in E.
  cbn [h_version h_pk h_sig h_psize h_phash h_seq h_backlink h_ext] in E.
  injection E as _ -> -> E.
  apply opt_tok_split in E as [-> E]; [|exact I..]. injection E as -> E.
  apply opt_tok_split in E as [-> E]; [|exact I..]. injection E as -> E.
  apply opt_tok_split in E as [-> E]; [|apply enc_ext_head..].
  apply enc_ext_inj in E as ->. reflexivity.
Qed.

(** ... and a strictly sorted [previous] is emitted as it is. *)
Lemma enc_header_sorted : forall order h, is_perm_fun order ->
  (forall l t pv, h_ext h = ECausal l t pv -> strictly_sorted pv = true) ->
  enc_header order h = enc_header_with (fun l => l) h.
Proof.
  intros order h P S. apply enc_header_with_agree. intros l t pv E.
  apply isort_of_perm; [exact (S l t pv E) | apply P].
Qed.

Lemma valid_prev_sorted : forall key_ok h,
  valid key_ok h = true -> forall l t pv, h_ext h = ECausal l t pv -> strictly_sorted pv = true.
Proof.
  intros key_ok h V l t pv E. unfold valid in V. apply andb_prop in V as [_ Ve].
  rewrite E in Ve. cbn [valid_ext] in Ve. apply andb_prop in Ve as [_ S]. exact S.
Qed.

Section C02.
  Variable key_ok : bytes -> bool.
  (** Two arbitrary iteration orders of the [HashSet] (two different decodes, two different
      processes, ...). *)
  Variables order1 order2 : list bytes -> list bytes.
  Hypothesis order1_perm : is_perm_fun order1.
  Hypothesis order2_perm : is_perm_fun order2.

  Theorem enc_deterministic : forall h, enc_header order1 h = enc_header order2 h.
  Proof.
    intro h. apply enc_header_with_agree. intros _ _ pv _. apply isort_perm_eq.
    eapply Permutation_trans; [apply order1_perm | apply Permutation_sym, order2_perm].
  Qed.

  Theorem dec_enc : forall h rest,
    valid key_ok h = true ->
    dec_header key_ok (kind_of (h_ext h)) (enc_header order1 h ++ rest) = Some (h, rest).
  Proof.
    intros h rest V. unfold enc_header. apply dec_enc_with; [|exact V].
    intro l. eapply Permutation_trans; [apply isort_perm | apply order1_perm].
  Qed.

  (** The value round trip also holds for the encoder as it was (the defect was never a lost
      value, only a non-deterministic byte string). *)
  Theorem dec_enc_asis : forall h rest,
    valid key_ok h = true ->
    dec_header key_ok (kind_of (h_ext h)) (enc_header_asis order1 h ++ rest) = Some (h, rest).
  Proof.
    intros h rest V. unfold enc_header_asis. apply dec_enc_with; [exact order1_perm | exact V].
  Qed.

  Theorem enc_inj : forall h1 h2,
    valid key_ok h1 = true -> valid key_ok h2 = true ->
    kind_of (h_ext h1) = kind_of (h_ext h2) ->
    enc_header order1 h1 = enc_header order2 h2 -> h1 = h2.
  Proof.
    intros h1 h2 V1 V2 _ E. apply enc_header_with_id_inj.
    rewrite <- (enc_header_sorted order1 h1 order1_perm (valid_prev_sorted key_ok h1 V1)),
            <- (enc_header_sorted order2 h2 order2_perm (valid_prev_sorted key_ok h2 V2)).
    exact E.
  Qed.

  Variable H : Type.
  Variable hash : list token -> H.
  Variable verify_sig : bytes -> list token -> bytes -> bool.

  Definition header_hash (order : list bytes -> list bytes) (h : header) : H := hash (enc_header order h).

  (** The same function as [Model.Validate.header_verify] (the two are convertible). *)
  Definition header_verify (order : list bytes -> list bytes) (h : header) : bool :=
    match h_sig h with
    | Some s => verify_sig (h_pk h) (enc_header order (unsigned h)) s
    | None => false
    end.

  Theorem hash_fn_of_value : forall h, header_hash order1 h = header_hash order2 h.
  Proof. intro h. unfold header_hash. rewrite enc_deterministic. reflexivity. Qed.

  Theorem verify_fn_of_value : forall h, header_verify order1 h = header_verify order2 h.
  Proof.
    intro h. unfold header_verify. destruct (h_sig h); [|reflexivity].
    rewrite enc_deterministic. reflexivity.
  Qed.

  (** A header that verified where it was signed (iteration order [order1]) still verifies, and
      has the same id, after it travelled as bytes and was decoded elsewhere (order [order2]). *)
  Theorem verify_after_roundtrip : forall h h' rest,
    valid key_ok h = true ->
    dec_header key_ok (kind_of (h_ext h)) (enc_header order1 h ++ rest) = Some (h', rest) ->
    h' = h /\ header_verify order2 h' = header_verify order1 h /\ header_hash order2 h' = header_hash order1 h.
  Proof.
    intros h h' rest V D. rewrite (dec_enc h rest V) in D. injection D as <-.
    split; [reflexivity|]. split; [symmetry; apply verify_fn_of_value | symmetry; apply hash_fn_of_value].
  Qed.
End C02.

Definition w_hash (x : N) : bytes := repeat x 32.
Definition w_header : header :=
  mkHeader 1 (repeat 7%N 32) (Some (repeat 9%N 64)) 0 None 0 None
           (ECausal (repeat 3%N 32) 5 [w_hash 1; w_hash 2]).

Example valid_w_header : valid (fun _ => true) w_header = true.
Proof. vm_compute. reflexivity. Qed.

Example w_roundtrip :
  dec_header (fun _ => true) KNode (enc_header (@rev bytes) w_header) = Some (w_header, []).
Proof. vm_compute. reflexivity. Qed.

Example w_header_two_orders :
  enc_header (fun l => l) w_header = enc_header (@rev bytes) w_header.
Proof. vm_compute. reflexivity. Qed.

Theorem unsorted_refuted :
  exists (h : header) (o1 o2 : list bytes -> list bytes),
    valid (fun _ => true) h = true /\ is_perm_fun o1 /\ is_perm_fun o2 /\
    enc_header_asis o1 h <> enc_header_asis o2 h.
Proof.
  exists w_header, (fun l => l), (@rev bytes).
  split; [exact valid_w_header|].
  split; [intro l; apply Permutation_refl|].
  split; [intro l; apply Permutation_sym, Permutation_rev|].
  vm_compute. intro E. discriminate E.
Qed.

(** The only headers on which the encoder as it was depends on the order are causal ones with
    at least two [previous] hashes. *)
Definition causal_multi (h : header) : Prop :=
  match h_ext h with ECausal _ _ pv => 2 <= length pv | _ => False end.

Lemma perm_small : forall (l l' : list bytes), length l < 2 -> Permutation l' l -> l' = l.
Proof.
  intros l l' L P. destruct l as [|a [|b r]]; cbn [length] in L; try lia.
  - apply Permutation_sym, Permutation_nil in P. exact P.
  - apply Permutation_sym, Permutation_length_1_inv in P. exact P.
Qed.

Theorem unsorted_outside_known : forall (o1 o2 : list bytes -> list bytes) h,
  is_perm_fun o1 -> is_perm_fun o2 -> ~ causal_multi h ->
  enc_header_asis o1 h = enc_header_asis o2 h.
Proof.
  intros o1 o2 h P1 P2 NK. apply enc_header_with_agree. intros l t pv E.
  unfold causal_multi in NK. rewrite E in NK. apply Nat.nle_gt in NK.
  rewrite (perm_small pv (o1 pv) NK (P1 pv)), (perm_small pv (o2 pv) NK (P2 pv)). reflexivity.
Qed.
