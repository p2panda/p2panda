(** Proofs about Model/Node.v: every node entry point deletes only what an authentic prune
    operation of the same (author, log) allows (C04, "whichever entry point"). *)
From Coq Require Import List NArith.
From PV Require Import Model.Ingest Model.Node Proofs.Ingest.
Import ListNotations.
Local Open Scope N_scope.

Lemma node_import : forall me s o,
  node_step me s (NImport o) = (fst (deliver s o), res_ok (snd (deliver s o))).
Proof. intros me s o. cbn [node_step]. destruct (deliver s o). reflexivity. Qed.

(** Import (and the sync stream, which feeds the same [process_operation]). *)
Theorem import_deletes_only_in_scope : forall me s o r,
  In r s -> ~ In r (fst (node_step me s (NImport o))) ->
  o_valid o = true /\ o_prune o = true /\ snd (node_step me s (NImport o)) = true /\
  r_author r = o_author o /\ r_log r = o_log o /\ r_seq r < o_seq o.
Proof.
  intros me s o r. rewrite node_import. apply deleted_only_by_authentic_prune_in_scope.
Qed.

Theorem import_of_invalid_changes_nothing : forall me s o,
  o_valid o = false -> node_step me s (NImport o) = (s, false).
Proof.
  intros me s o H. rewrite node_import, (invalid_event_changes_nothing s o H). reflexivity.
Qed.

Theorem import_not_above_tip_changes_nothing : forall me s o p,
  has_op s (o_id o) = false -> latest s (o_author o) (o_log o) = Some p -> o_seq o <= r_seq p ->
  node_step me s (NImport o) = (s, false).
Proof.
  intros me s o p Hh Hl Hle. rewrite node_import.
  destruct (not_above_tip_changes_nothing s o p Hh Hl Hle) as (-> & ->). reflexivity.
Qed.

(** The statement the seeded change C04-1 breaks. *)
Theorem failed_import_changes_nothing : forall me s o,
  snd (node_step me s (NImport o)) = false -> fst (node_step me s (NImport o)) = s.
Proof.
  intros me s o. rewrite node_import. apply failed_event_changes_nothing.
Qed.

Theorem publish_deletes_only_own_prefix : forall me s l prune body id r,
  In r s -> ~ In r (fst (node_step me s (NPublish l prune body id))) ->
  prune = true /\ r_author r = me /\ r_log r = l /\
  r_seq r < o_seq (forge_op me s l prune body id).
Proof.
  intros me s l prune body id r Hr Hn. cbn [node_step] in Hn.
  set (o := forge_op me s l prune body id) in *.
  assert (Hr' : In r (s ++ [row_of o])) by (apply in_app_iff; left; exact Hr).
  destruct (deliver_keeps_or_prunes _ o r Hr') as [Hk|(_ & Hp & _ & Ha & Hl & Hs)].
  - destruct (deliver (s ++ [row_of o]) o). contradiction.
  - assert (Hoa : o_author o = me /\ o_log o = l /\ o_prune o = prune).
    { unfold o, forge_op. destruct (latest s me l); cbn; auto. }
    destruct Hoa as (Hoa & Hol & Hop). rewrite Hoa in Ha. rewrite Hol in Hl. rewrite Hop in Hp. auto.
Qed.

Lemma row_of_op_of_row : forall x, row_of (op_of_row x) = x.
Proof. intros [a l sq i h b p bd]. reflexivity. Qed.

Lemma replay_gen : forall s0 l os st r,
  (forall o, In o os -> exists x, In x s0 /\ r_log x = l /\ o = op_of_row x) ->
  In r st -> ~ In r (fold_left (fun st o => fst (deliver st o)) os st) ->
  exists x, In x s0 /\ r_prune x = true /\ r_author x = r_author r /\ r_log x = r_log r /\
            r_log x = l /\ r_seq r < r_seq x.
Proof.
  intros s0 l os. induction os as [|o t IH]; intros st r Hos Hr Hn.
  - contradiction.
  - cbn [fold_left] in Hn.
    destruct (Hos o (or_introl eq_refl)) as (x & Hx & Hxl & ->).
    destruct (deliver_keeps_or_prunes st (op_of_row x) r Hr) as [Hin|(_ & Hp & _ & Ha & Hl & Hs)].
    + apply (IH (fst (deliver st (op_of_row x))) r); auto.
      intros o' Ho'. apply Hos. right. exact Ho'.
    + exists x. cbn [op_of_row o_prune o_author o_log o_seq] in *. repeat split; auto; congruence.
Qed.

Theorem replay_deletes_only_below_stored_prune_points : forall me s l r,
  In r s -> ~ In r (fst (node_step me s (NReplay l))) ->
  exists x, In x s /\ r_prune x = true /\ r_author x = r_author r /\ r_log x = r_log r /\
            r_log x = l /\ r_seq r < r_seq x.
Proof.
  intros me s l r Hr Hn. cbn [node_step fst] in Hn. unfold replay in Hn.
  apply (replay_gen s l (map op_of_row (filter (fun r : row => r_log r =? l) s)) s r); auto.
  intros o Ho. apply in_map_iff in Ho. destruct Ho as (x & <- & Hx). apply filter_In in Hx.
  destruct Hx as (Hx & Hl). apply N.eqb_eq in Hl. exists x. auto.
Qed.

(** Non-vacuity: a node that published twice, received a three-entry log of author 1, a forged
    prune point for it, and then the author's real prune point. *)
Definition ex_steps : list nstep :=
  [ NPublish 0 false true 501; NPublish 0 false true 502;
    NImport (w_op 1 0 0 1 None false true); NImport (w_op 1 0 1 2 (Some 1) false true);
    NImport (w_op 1 0 2 3 (Some 2) false true);
    NImport (w_op 1 0 3 4 (Some 3) true false);
    NImport (w_op 1 0 3 5 (Some 3) true true);
    NPublish 0 true false 503; NReplay 0 ].

Example ex_steps_trace :
  map (fun x => (fst x, map (fun r => (r_author r, r_seq r)) (snd x))) (node_trace 0 [] ex_steps) =
  [ (true, [(0, 0)]); (true, [(0, 0); (0, 1)]);
    (true, [(0, 0); (0, 1); (1, 0)]); (true, [(0, 0); (0, 1); (1, 0); (1, 1)]);
    (true, [(0, 0); (0, 1); (1, 0); (1, 1); (1, 2)]);
    (false, [(0, 0); (0, 1); (1, 0); (1, 1); (1, 2)]);
    (true, [(0, 0); (0, 1); (1, 3)]);
    (true, [(1, 3); (0, 2)]); (true, [(1, 3); (0, 2)]) ].
Proof. vm_compute. reflexivity. Qed.

(** Non-vacuity and regression witness: author 1's six-entry log and a validly signed
    prune-flagged fork at seq 3.  The pipeline rejects it and keeps the log; a pipeline that
    ignores the prune request only for unauthenticated operations deletes 0, 1, 2. *)
Definition c04_six_log : list op :=
  [w_op 1 0 0 1 None false true; w_op 1 0 1 2 (Some 1) false true; w_op 1 0 2 3 (Some 2) false true;
   w_op 1 0 3 4 (Some 3) false true; w_op 1 0 4 5 (Some 4) false true; w_op 1 0 5 6 (Some 5) false true].
Definition c04_outdated_prune : op := w_op 1 0 3 77 (Some 900) true true.

Example outdated_prune_point_hypotheses_satisfiable :
  o_valid c04_outdated_prune = true /\ o_prune c04_outdated_prune = true /\
  has_op (run c04_six_log) (o_id c04_outdated_prune) = false /\
  option_map r_seq (latest (run c04_six_log) 1 0) = Some 5 /\
  deliver (run c04_six_log) c04_outdated_prune = (run c04_six_log, Rejected ESeqNonIncremental).
Proof. vm_compute. repeat split; reflexivity. Qed.

Theorem deliver_prune_unless_invalid_refuted :
  snd (deliver_prune_unless_invalid (run c04_six_log) c04_outdated_prune) = Rejected ESeqNonIncremental /\
  map r_seq (run c04_six_log) = [0; 1; 2; 3; 4; 5] /\
  map r_seq (fst (deliver_prune_unless_invalid (run c04_six_log) c04_outdated_prune)) = [3; 4; 5].
Proof. vm_compute. repeat split; reflexivity. Qed.
