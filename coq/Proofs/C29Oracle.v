(** Soundness of the C29 oracle: [check] accepts an observation only if every thread ran to its
    end, every kept handle is live with a positive counter, the manager never left or joined
    twice in a row, and it is subscribed at the end exactly when a handle remains. *)
From Coq Require Import List Arith Bool.
From PV Require Import Oracle.C29.
Import ListNotations.

Lemma alt_no_repeat e l a b pre post :
  alt e l = true -> l = pre ++ a :: b :: post -> a <> b.
Proof.
  revert e l. induction pre as [|x pre IH]; intros e l H ->; cbn [app alt] in H.
  - apply andb_true_iff in H. destruct H as [H1 H2]. apply andb_true_iff in H2. destruct H2 as [H2 _].
    apply eqb_prop in H1. apply eqb_prop in H2. subst. destruct e; discriminate.
  - apply andb_true_iff in H. destruct H as [_ H]. eapply IH; [exact H|reflexivity].
Qed.

Lemma check_sound kept all_done log sub :
  check kept all_done log sub = true ->
  all_done = true /\
  (forall live c, In (live, c) kept -> live = true /\ 1 <= c) /\
  (forall pre a b post, log = pre ++ a :: b :: post -> a <> b) /\
  (sub = true <-> kept <> []).
Proof.
  unfold check. intros H. repeat (apply andb_true_iff in H; destruct H as [H ?]).
  split; [exact H|]. split; [|split].
  - intros live c Hin. rewrite forallb_forall in H2. specialize (H2 _ Hin). cbn [fst snd] in H2.
    apply andb_true_iff in H2. destruct H2 as [-> H2]. apply Nat.leb_le in H2. auto.
  - intros pre a b post E. eapply alt_no_repeat; eassumption.
  - apply eqb_prop in H0. subst sub. destruct kept; cbn; split; congruence.
Qed.
