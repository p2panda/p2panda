(** The C17 oracle accepts exactly what the theorem [never_stalls] predicts for the model. *)
From Coq Require Import List NArith Bool.
From PV Require Import Model.EphemeralSub Proofs.EphemeralSub Oracle.C17.
Import ListNotations.

(** [eqb_listN] and [eqb_llN] are one comparison of lists, same length and pointwise equal,
    at two element types. *)
Lemma eqb_list_eq {A} (eqb : A -> A -> bool) :
  (forall x y, eqb x y = true -> x = y) ->
  forall a b,
    Nat.eqb (length a) (length b) && forallb (fun p => eqb (fst p) (snd p)) (combine a b) = true ->
    a = b.
Proof.
  intros Heq. induction a as [|x a IH]; intros [|y b] H; try reflexivity; try discriminate H.
  cbn [length Nat.eqb combine forallb fst snd] in H.
  apply andb_prop in H as [L H]. apply andb_prop in H as [E H].
  f_equal; [exact (Heq x y E)|]. apply IH. rewrite L. exact H.
Qed.

Lemma eqb_list_refl {A} (eqb : A -> A -> bool) :
  (forall x, eqb x x = true) ->
  forall a, Nat.eqb (length a) (length a) && forallb (fun p => eqb (fst p) (snd p)) (combine a a) = true.
Proof.
  intros Hr. induction a as [|x a IH]; [reflexivity|].
  cbn [length Nat.eqb combine forallb fst snd]. rewrite Hr. exact IH.
Qed.

Lemma eqb_listN_eq (a b : list N) : eqb_listN a b = true -> a = b.
Proof. exact (eqb_list_eq N.eqb (fun x y => proj1 (N.eqb_eq x y)) a b). Qed.

Lemma eqb_listN_refl (a : list N) : eqb_listN a a = true.
Proof. exact (eqb_list_refl N.eqb N.eqb_refl a). Qed.

Lemma eqb_llN_eq (a b : list (list N)) : eqb_llN a b = true -> a = b.
Proof. exact (eqb_list_eq eqb_listN eqb_listN_eq a b). Qed.

Lemma eqb_llN_refl (a : list (list N)) : eqb_llN a a = true.
Proof. exact (eqb_list_refl eqb_listN eqb_listN_refl a). Qed.

Lemma check_sound (cap : nat) (phs : list (list item)) (c : bool) (ys : list (list N)) (fin stall : bool) :
  check cap phs c ys fin stall = true ->
  ys = expected cap phs /\ fin = c /\ stall = false.
Proof.
  unfold check. intros H. apply andb_prop in H as [H S].
  apply andb_prop in H as [Y F].
  apply eqb_llN_eq in Y. apply eqb_prop in F. apply negb_true_iff in S. auto.
Qed.

Lemma model_passes_check (cap : nat) (phs : list (list item)) (c : bool) :
  1 <= cap -> Forall no_lagged phs ->
  check cap phs c (snd (scenario poll_fixed cap phs c)) (finished (fst (scenario poll_fixed cap phs c))) false = true.
Proof.
  intros Hc Hn. pose proof (never_stalls cap phs c Hc Hn) as H.
  destruct (scenario poll_fixed cap phs c) as [s ys]. destruct H as [A [B [C D]]].
  cbn [fst snd]. unfold check. rewrite A, C, eqb_llN_refl, eqb_reflx. reflexivity.
Qed.
