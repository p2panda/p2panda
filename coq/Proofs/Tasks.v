(** Proofs about the task tracker transition system (Model/Tasks.v).

    Every step strictly decreases [measure], so no trace is infinite (both orders).  The heart of
    the invariant [Inv] is [sub_ok]: what a submitter's program counter says about the rest of
    the state (safety for both orders; the wake-up clause [wake] of a waiting submitter for the
    repaired order only).  From it, for both orders a submitter returns only a result of its own
    id, and for the repaired order some step is enabled while a submitter has not returned, so
    every maximal trace ends with every submitter returned.  The order before the repair reaches
    a state where the submitter waits forever (the harness replays this schedule; its last step
    is taken by the drain). *)
From Coq Require Import List Arith Lia.
From PV Require Import Model.Tasks.
Import ListNotations.

Lemma upd_eq : forall A (f : nat -> A) k v, upd f k v k = v.
Proof. intros. unfold upd. rewrite Nat.eqb_refl. reflexivity. Qed.

Lemma upd_neq : forall A (f : nat -> A) k v x, x <> k -> upd f k v x = f x.
Proof. intros A f k v x H. unfold upd. destruct (Nat.eqb x k) eqn:E; [apply Nat.eqb_eq in E; contradiction|reflexivity]. Qed.

Lemma upd_field : forall A B (g : A -> B) (f : nat -> A) k v x, g v = g (f k) -> g (upd f k v x) = g (f x).
Proof. intros A B g f k v x H. unfold upd. destruct (Nat.eqb x k) eqn:E; [apply Nat.eqb_eq in E; subst x; exact H|reflexivity]. Qed.

Lemma upd_all : forall A (P : nat -> A -> Prop) (f : nat -> A) i v n,
  (forall j, j < n -> P j (f j)) -> P i v -> forall j, j < n -> P j (upd f i v j).
Proof.
  intros A P f i v n Hf Hv j Hj. unfold upd. destruct (Nat.eqb j i) eqn:E; [|apply Hf; exact Hj].
  apply Nat.eqb_eq in E. subst j. exact Hv.
Qed.

Lemma tlookup_remove_same : forall id l, tlookup id (tremove id l) = None.
Proof.
  intros id. induction l as [|[k t] l IH]; [reflexivity|].
  unfold tremove in *. cbn [filter fst]. destruct (Nat.eqb id k) eqn:E; cbn [negb]; [exact IH|].
  cbn [tlookup]. rewrite E. exact IH.
Qed.

Lemma tlookup_remove_neq : forall id id' l, id' <> id -> tlookup id' (tremove id l) = tlookup id' l.
Proof.
  intros id id' l H. induction l as [|[k t] l IH]; [reflexivity|].
  unfold tremove in *. cbn [filter fst]. destruct (Nat.eqb id k) eqn:E; cbn [negb tlookup].
  - apply Nat.eqb_eq in E. subst k. destruct (Nat.eqb id' id) eqn:E2; [apply Nat.eqb_eq in E2; contradiction|exact IH].
  - destruct (Nat.eqb id' k); [reflexivity|exact IH].
Qed.

Lemma sumf_ext : forall n f g, (forall i, i < n -> f i = g i) -> sumf n f = sumf n g.
Proof. induction n as [|n IH]; intros f g H; cbn [sumf]; [reflexivity|]. rewrite (IH f g), H by auto. reflexivity. Qed.

Lemma sumf_const : forall n c, sumf n (fun _ => c) = n * c.
Proof. induction n as [|n IH]; intros c; cbn [sumf]; [reflexivity|]. rewrite IH. lia. Qed.

Lemma sumf_upd : forall A (w : A -> nat) n (f : nat -> A) i v, i < n ->
  sumf n (fun k => w (upd f i v k)) + w (f i) = sumf n (fun k => w (f k)) + w v.
Proof.
  intros A w. induction n as [|n IH]; intros f i v H; [lia|]. cbn [sumf].
  destruct (Nat.eq_dec i n) as [->|Hne].
  - rewrite upd_eq. rewrite (sumf_ext n (fun k => w (upd f n v k)) (fun k => w (f k))).
    + lia.
    + intros k Hk. rewrite upd_neq by lia. reflexivity.
  - rewrite (upd_neq _ f i v n) by lia. specialize (IH f i v ltac:(lia)). lia.
Qed.

(** A submitter's step: [measure] reads only [subs], [queue] and [pipe], so the steps that also
    touch the tracker are covered.  [x]: the event sent, if any.  A queued event weighs 4: the
    receive plus the pipeline's three steps on it ([wpipe (P1 _ _) = 3]); sending pays for it
    ([wsub (S1 _) - wsub (S2 _) = 5]). *)
Lemma sub_step_decreases : forall ids s s1 i p x, i < List.length ids ->
  subs s1 = upd (subs s) i p -> queue s1 = queue s ++ x -> pipe s1 = pipe s ->
  wsub p + 4 * List.length x < wsub (subs s i) -> measure ids s1 < measure ids s.
Proof.
  intros ids s s1 i p x Hi Es Eq Ep H. unfold measure. rewrite Es, Eq, Ep, app_length.
  pose proof (sumf_upd spc wsub (List.length ids) (subs s) i p Hi). lia.
Qed.

Lemma measure_decreases : forall rep ids s l s1, stepb rep ids s l = Some s1 -> measure ids s1 < measure ids s.
Proof.
  intros rep ids s l s1 H. destruct l as [i|]; cbn [stepb] in H.
  - destruct (Nat.ltb i (List.length ids)) eqn:Hi; [|discriminate]. apply Nat.ltb_lt in Hi.
    (* every step but sending moves the program counter down and sends nothing *)
    assert (D : forall p, wsub p < wsub (subs s i) -> measure ids (set_sub s i p) < measure ids s).
    { intros p D. apply (sub_step_decreases ids s _ i p [] Hi); try reflexivity; [symmetry; apply app_nil_r|].
      cbn [List.length]. lia. }
    unfold step_sub in H. destruct (subs s i) eqn:Es; cbn [wsub] in D.
    2:{ inversion H. apply (sub_step_decreases ids s _ i (S2 t) [(idof ids i, i)] Hi); try reflexivity.
        rewrite Es. cbn [wsub List.length]. lia. }
    + destruct (locked s); [discriminate|].
      destruct (tlookup (idof ids i) (tracker s)); inversion H; [apply D|apply (D (S1 (ntasks s)))]; cbn [wsub]; lia.
    + destruct rep; [|destruct (res_of s t)]; inversion H; apply D; cbn [wsub]; lia.
    + destruct rep; [discriminate|]. inversion H. apply D. cbn [wsub]. lia.
    + destruct rep; [|discriminate]. destruct (res_of s t); inversion H; apply D; cbn [wsub]; lia.
    + destruct (Nat.ltb e (epoch_of s t)); [|discriminate]. inversion H. apply D. cbn [wsub]. lia.
    + destruct (res_of s t); [|discriminate]. inversion H. apply D. cbn [wsub]. lia.
    + discriminate.
  - unfold step_pipe in H. unfold measure. destruct (pipe s) eqn:Ep.
    + destruct (queue s) as [|[id r] q] eqn:Eq; [discriminate|]. inversion H. cbn [subs queue pipe wpipe List.length]. lia.
    + destruct (locked s); [discriminate|]. destruct (tlookup id (tracker s)); inversion H; cbn [subs queue pipe wpipe]; lia.
    + inversion H. cbn [subs queue pipe wpipe]. lia.
    + inversion H. cbn [subs queue pipe wpipe]. lia.
Qed.

Lemma exec_measure : forall rep ids s tr s', exec rep ids s tr s' -> List.length tr + measure ids s' <= measure ids s.
Proof.
  intros rep ids s tr s' H. induction H as [s|s l s1 tr s2 Hs _ IH]; cbn [List.length]; [lia|].
  apply measure_decreases in Hs. lia.
Qed.

Lemma measure_init : forall ids, measure ids init = 10 * List.length ids.
Proof. intros ids. unfold measure, init. cbn [subs queue pipe wsub wpipe List.length]. rewrite sumf_const. lia. Qed.

(** No trace from the initial state is longer than [10 * n]: there is no infinite trace, under
    any scheduler, fair or not. *)
Theorem traces_bounded : forall rep ids tr s, exec rep ids init tr s -> List.length tr <= 10 * List.length ids.
Proof. intros rep ids tr s H. apply exec_measure in H. rewrite measure_init in H. lia. Qed.

Definition pipe_locks (p : ppc) : bool := match p with P2 _ _ | P3 _ => true | _ => false end.

(** A task instance is *owned* while it can still be completed. *)
Definition owned (s : state) (t : nat) : Prop :=
  tlookup (t_id (tasks s t)) (tracker s) = Some t \/ exists r, pipe s = P2 t r.

(** An event for [id] is still on its way to [mark_as_done] (I1 of DESIGN Appendix B). *)
Definition pending (ids : list nat) (s : state) (id : nat) : Prop :=
  (exists r, In (id, r) (queue s)) \/ (exists r, pipe s = P1 id r) \/
  (exists j t, j < List.length ids /\ subs s j = S1 t /\ idof ids j = id).

Definition task_of (ids : list nat) (s : state) (i t : nat) : Prop :=
  t < ntasks s /\ t_id (tasks s t) = idof ids i.

(** The wake-up of a submitter that waits on [t] with snapshot [e] is not lost (I2 of DESIGN
    Appendix B): the signal has fired since, or the result is still to be set by whoever owns
    [t], or the pipeline is just about to notify. *)
Definition wake (s : state) (t e : nat) : Prop :=
  e < epoch_of s t \/ (res_of s t = None /\ owned s t) \/ pipe s = P3 t.

Definition sub_ok (rep : bool) (ids : list nat) (s : state) (i : nat) (p : spc) : Prop :=
  match p with
  | S0 => True
  | S1 t | S2 t => task_of ids s i t
  | S3 t => task_of ids s i t /\ rep = false
  | S3r t e => task_of ids s i t /\ e <= epoch_of s t
  | S4 t e => task_of ids s i t /\ e <= epoch_of s t /\ (rep = true -> wake s t e)
  | S5 t => task_of ids s i t /\ 0 < epoch_of s t
  | SDone r => r < List.length ids /\ idof ids r = idof ids i
  end.

Record Inv (rep : bool) (ids : list nat) (s : state) : Prop := {
  (* the tracker lock is held across steps exactly while the pipeline completes a task *)
  i_lock : locked s = pipe_locks (pipe s);
  i_sub : forall i, i < List.length ids -> sub_ok rep ids s i (subs s i);
  i_trk_valid : forall id t, tlookup id (tracker s) = Some t -> t < ntasks s /\ t_id (tasks s t) = id;
  (* an event's result is the number of the submitter that sent it *)
  i_pipe_valid : match pipe s with
                 | P0 => True
                 | P1 id r => r < List.length ids /\ idof ids r = id
                 | P2 t r => t < ntasks s /\ r < List.length ids /\ idof ids r = t_id (tasks s t)
                 | P3 t => t < ntasks s /\ t_res (tasks s t) <> None
                 end;
  i_queue_valid : forall id r, In (id, r) (queue s) -> r < List.length ids /\ idof ids r = id;
  i_res_own : forall t r, t < ntasks s -> t_res (tasks s t) = Some r ->
                r < List.length ids /\ idof ids r = t_id (tasks s t);
  i_epoch_res : forall t, t < ntasks s -> 0 < t_epoch (tasks s t) -> t_res (tasks s t) <> None;
  i_owned : forall t, t < ntasks s -> t_res (tasks s t) <> None \/ owned s t;
  i_pending : forall id t, tlookup id (tracker s) = Some t -> pending ids s id }.

Lemma inv_init : forall rep ids, Inv rep ids init.
Proof.
  intros rep ids. constructor; cbn [init locked pipe pipe_locks subs sub_ok tracker tlookup queue ntasks tasks t_res t_epoch In];
    intros; try discriminate; try contradiction; try lia; auto.
Qed.

Lemma sub_ok_frame : forall rep ids s s' i p,
  ntasks s <= ntasks s' ->
  (forall t, t < ntasks s -> t_id (tasks s' t) = t_id (tasks s t) /\ epoch_of s t <= epoch_of s' t) ->
  (forall t e, t < ntasks s -> e <= epoch_of s t -> wake s t e -> wake s' t e) ->
  sub_ok rep ids s i p -> sub_ok rep ids s' i p.
Proof.
  intros rep ids s s' i p Hn Ht Hw G.
  assert (T : forall t, task_of ids s i t -> task_of ids s' i t /\ epoch_of s t <= epoch_of s' t).
  { intros t [Tv Tid]. destruct (Ht t Tv) as [A B]. split; [split; [lia|congruence]|exact B]. }
  destruct p as [|t|t|t|t e|t e|t|r]; cbn [sub_ok] in *; try exact G.
  - exact (proj1 (T t G)).
  - exact (proj1 (T t G)).
  - destruct G as [G R]. split; [exact (proj1 (T t G))|exact R].
  - destruct G as [G L]. destruct (T t G). split; [assumption|lia].
  - destruct G as (G & L & W). destruct (T t G). split; [assumption|split; [lia|]].
    intros R. apply Hw; [exact (proj1 G)|exact L|exact (W R)].
  - destruct G as [G L]. destruct (T t G). split; [assumption|lia].
Qed.

Lemma owned_frame : forall s s' t,
  tracker s' = tracker s -> t_id (tasks s' t) = t_id (tasks s t) ->
  (forall r, pipe s = P2 t r -> pipe s' = P2 t r) -> owned s t -> owned s' t.
Proof.
  intros s s' t Et Ei Ep [O|[r O]]; [left; rewrite Et, Ei; exact O|right; exists r; apply Ep; exact O].
Qed.

Lemma wake_frame : forall s s' t e,
  epoch_of s t <= epoch_of s' t -> res_of s' t = res_of s t -> (owned s t -> owned s' t) ->
  (pipe s = P3 t -> pipe s' = P3 t) -> wake s t e -> wake s' t e.
Proof.
  intros s s' t e He Hr Ho Hp [W|[[W O]|W]]; [left; lia|right; left; rewrite Hr; auto|right; right; auto].
Qed.

(** Not away from [S1]: that would drop a pending event. *)
Lemma inv_set_sub : forall rep ids s i p,
  Inv rep ids s -> sub_ok rep ids s i p -> (forall t, subs s i <> S1 t) ->
  Inv rep ids (set_sub s i p).
Proof.
  intros rep ids s i p I Hp Hn1. destruct I as [Hlock Hsub Htv Hpv Hqv Hro Her Hown Hpend].
  constructor; cbn [set_sub locked pipe tasks ntasks tracker queue subs]; auto.
  - apply (upd_all spc (sub_ok rep ids s)); assumption.
  - intros id t Ht. destruct (Hpend id t Ht) as [Q|[Q|(j & t' & Hj & Hs & Hid)]]; [left; exact Q|right; left; exact Q|].
    right; right. exists j, t'. repeat split; try assumption. cbn [subs set_sub].
    rewrite upd_neq; [assumption|]. intros ->. exact (Hn1 t' Hs).
Qed.

Lemma inv_track_new : forall rep ids s i s1,
  Inv rep ids s -> i < List.length ids -> subs s i = S0 -> tlookup (idof ids i) (tracker s) = None ->
  step_sub rep ids s i = Some s1 -> Inv rep ids s1.
Proof.
  intros rep ids s i s1 I Hi Hs0 Hnone H. destruct I as [Hlock Hsub Htv Hpv Hqv Hro Her Hown Hpend].
  unfold step_sub in H. rewrite Hs0, Hnone in H. destruct (locked s); [discriminate|]. injection H as E.
  set (k := {| t_id := idof ids i; t_res := None; t_epoch := 0 |}) in E.
  assert (Fr : forall t, t < ntasks s -> upd (tasks s) (ntasks s) k t = tasks s t)
    by (intros t Ht; apply upd_neq; lia).
  assert (Own : forall t, t < ntasks s -> owned s t -> owned s1 t).
  { subst s1. intros t Ht [O|O]; [left|right; exact O]. cbn [tasks tracker]. rewrite Fr by assumption. cbn [tlookup].
    destruct (Nat.eqb (t_id (tasks s t)) (idof ids i)) eqn:E; [|exact O].
    apply Nat.eqb_eq in E. rewrite E in O. congruence. }
  subst s1.
  constructor; cbn [locked pipe tasks ntasks tracker queue subs].
  - exact Hlock.
  - apply upd_all.
    + intros j Hj. apply (sub_ok_frame rep ids s); cbn [ntasks tasks]; [lia| | |apply Hsub; exact Hj].
      * intros t Ht. unfold epoch_of. cbn [tasks]. rewrite Fr by assumption. split; [reflexivity|lia].
      * intros t e Ht _. apply wake_frame; unfold epoch_of, res_of; cbn [tasks pipe]; rewrite ?Fr by assumption; auto.
    + split; [cbn [ntasks]; lia|cbn [tasks]; rewrite upd_eq; reflexivity].
  - intros id t. cbn [tlookup]. destruct (Nat.eqb id (idof ids i)) eqn:E.
    + apply Nat.eqb_eq in E. intros H; inversion H; subst. rewrite upd_eq. split; [lia|reflexivity].
    + intros H. destruct (Htv id t H) as [A B]. rewrite Fr by assumption. split; [lia|exact B].
  - destruct (pipe s) as [|id r|t r|t]; [exact Logic.I|exact Hpv| |].
    + destruct Hpv as (A & B & C). rewrite Fr by assumption. repeat split; try assumption; lia.
    + destruct Hpv as (A & B). rewrite Fr by assumption. split; [lia|exact B].
  - exact Hqv.
  - intros t r Ht. destruct (Nat.eq_dec t (ntasks s)) as [->|Hne].
    + rewrite upd_eq. discriminate.
    + rewrite Fr by lia. apply Hro. lia.
  - intros t Ht. destruct (Nat.eq_dec t (ntasks s)) as [->|Hne].
    + rewrite upd_eq. cbn [k t_epoch]. lia.
    + rewrite Fr by lia. apply Her. lia.
  - intros t Ht. destruct (Nat.eq_dec t (ntasks s)) as [->|Hne].
    + right. left. cbn [tasks tracker]. rewrite upd_eq. cbn [k t_id tlookup]. rewrite Nat.eqb_refl. reflexivity.
    + assert (Ht' : t < ntasks s) by lia. destruct (Hown t Ht') as [A|A]; [left; rewrite Fr by assumption; exact A|right; apply Own; assumption].
  - intros id t. cbn [tlookup]. destruct (Nat.eqb id (idof ids i)) eqn:E.
    + apply Nat.eqb_eq in E. intros _. right; right. exists i, (ntasks s). cbn [subs]. rewrite upd_eq. auto.
    + intros H. destruct (Hpend id t H) as [Q|[Q|(j & t' & Hj & Hs & Hid)]]; [left; exact Q|right; left; exact Q|].
      right; right. exists j, t'. cbn [subs]. rewrite upd_neq; [auto|]. congruence.
Qed.

Lemma inv_send : forall rep ids s i t s1,
  Inv rep ids s -> i < List.length ids -> subs s i = S1 t -> step_sub rep ids s i = Some s1 ->
  Inv rep ids s1.
Proof.
  intros rep ids s i t s1 I Hi Hs1 H. destruct I as [Hlock Hsub Htv Hpv Hqv Hro Her Hown Hpend].
  unfold step_sub in H. rewrite Hs1 in H. injection H as <-.
  constructor; cbn [locked pipe tasks ntasks tracker queue subs]; auto.
  - apply (upd_all spc (sub_ok rep ids s)); [exact Hsub|]. specialize (Hsub i Hi). rewrite Hs1 in Hsub. exact Hsub.
  - intros id r H. apply in_app_or in H. destruct H as [H|[H|[]]]; [apply Hqv; exact H|]. inversion H; subst. auto.
  - intros id t' H. destruct (Hpend id t' H) as [[r Q]|[Q|(j & t'' & Hj & Hs & Hid)]].
    + left. exists r. apply in_or_app. left. exact Q.
    + right; left; exact Q.
    + destruct (Nat.eq_dec j i) as [->|Hne].
      * left. exists i. apply in_or_app. right. left. rewrite Hid. reflexivity.
      * right; right. exists j, t''. cbn [subs]. rewrite upd_neq by assumption. auto.
Qed.

Lemma inv_pop : forall rep ids s s1,
  Inv rep ids s -> pipe s = P0 -> step_pipe s = Some s1 -> Inv rep ids s1.
Proof.
  intros rep ids s s1 I Hp H. destruct I as [Hlock Hsub Htv Hpv Hqv Hro Her Hown Hpend].
  unfold step_pipe in H. rewrite Hp in *. destruct (queue s) as [|[id r] q] eqn:Hq; [discriminate|]. injection H as <-.
  constructor; cbn [locked pipe tasks ntasks tracker queue subs pipe_locks]; auto.
  - intros j Hj. apply (sub_ok_frame rep ids s); auto.
    intros t e _ _. apply wake_frame; auto; [apply owned_frame; try reflexivity|]; congruence.
  - apply Hqv. left. reflexivity.
  - intros id' r' H. apply Hqv. right. exact H.
  - intros t Ht. destruct (Hown t Ht) as [A|A]; [left; exact A|right].
    revert A. apply owned_frame; try reflexivity. congruence.
  - intros id' t H. destruct (Hpend id' t H) as [[r' Q]|[[r' Q]|Q]].
    + rewrite Hq in Q. destruct Q as [Q|Q]; [inversion Q; subst; right; left; eexists; reflexivity|left; exists r'; exact Q].
    + congruence.
    + right; right. exact Q.
Qed.

Lemma inv_take : forall rep ids s id r t s1,
  Inv rep ids s -> pipe s = P1 id r -> tlookup id (tracker s) = Some t -> step_pipe s = Some s1 ->
  Inv rep ids s1.
Proof.
  intros rep ids s id r t s1 I Hp Ht H. destruct I as [Hlock Hsub Htv Hpv Hqv Hro Her Hown Hpend].
  unfold step_pipe in H. rewrite Hp in *. rewrite Hlock, Ht in H. injection H as E.
  destruct (Htv id t Ht) as [Tv Tid]. destruct Hpv as [Rv Rid].
  assert (Own : forall t', owned s t' -> owned s1 t').
  { subst s1. intros t' [O|[r0 O]]; [|congruence]. unfold owned. cbn [tasks tracker pipe].
    destruct (Nat.eq_dec (t_id (tasks s t')) id) as [E|E].
    - rewrite E in O. assert (t' = t) by congruence. subst t'. right. exists r. reflexivity.
    - left. rewrite tlookup_remove_neq by assumption. exact O. }
  subst s1.
  constructor; cbn [locked pipe tasks ntasks tracker queue subs pipe_locks]; auto.
  - intros j Hj. apply (sub_ok_frame rep ids s); auto.
    intros t' e _ _. apply wake_frame; auto. congruence.
  - intros id' t' H. destruct (Nat.eq_dec id' id) as [->|Hne]; [rewrite tlookup_remove_same in H; congruence|].
    rewrite tlookup_remove_neq in H by assumption. apply Htv. exact H.
  - repeat split; try assumption. congruence.
  - intros t' Ht'. destruct (Hown t' Ht') as [A|A]; [left; exact A|right; apply Own; exact A].
  - intros id' t' H. destruct (Nat.eq_dec id' id) as [->|Hne]; [rewrite tlookup_remove_same in H; congruence|].
    rewrite tlookup_remove_neq in H by assumption.
    destruct (Hpend id' t' H) as [Q|[[r' Q]|Q]]; [left; exact Q|inversion Q; congruence|right; right; exact Q].
Qed.

Lemma inv_skip : forall rep ids s id r s1,
  Inv rep ids s -> pipe s = P1 id r -> tlookup id (tracker s) = None -> step_pipe s = Some s1 ->
  Inv rep ids s1.
Proof.
  intros rep ids s id r s1 I Hp Ht H. destruct I as [Hlock Hsub Htv Hpv Hqv Hro Her Hown Hpend].
  unfold step_pipe in H. rewrite Hp in *. rewrite Hlock, Ht in H. injection H as <-.
  constructor; cbn [locked pipe tasks ntasks tracker queue subs pipe_locks]; auto.
  - intros j Hj. apply (sub_ok_frame rep ids s); auto.
    intros t' e _ _. apply wake_frame; auto; [apply owned_frame; try reflexivity|]; congruence.
  - intros t' Ht'. destruct (Hown t' Ht') as [A|A]; [left; exact A|right].
    revert A. apply owned_frame; try reflexivity. congruence.
  - intros id' t' H. destruct (Hpend id' t' H) as [Q|[[r' Q]|Q]]; [left; exact Q|inversion Q; congruence|right; right; exact Q].
Qed.

Lemma inv_set : forall rep ids s t r s1,
  Inv rep ids s -> pipe s = P2 t r -> step_pipe s = Some s1 -> Inv rep ids s1.
Proof.
  intros rep ids s t r s1 I Hp H. destruct I as [Hlock Hsub Htv Hpv Hqv Hro Her Hown Hpend].
  unfold step_pipe in H. rewrite Hp in *. injection H as <-. destruct Hpv as (Tv & Rv & Rid).
  set (k := {| t_id := t_id (tasks s t); t_res := Some r; t_epoch := t_epoch (tasks s t) |}).
  assert (Tid : forall t', t_id (upd (tasks s) t k t') = t_id (tasks s t')) by (intros t'; apply upd_field; reflexivity).
  assert (Tep : forall t', t_epoch (upd (tasks s) t k t') = t_epoch (tasks s t')) by (intros t'; apply upd_field; reflexivity).
  constructor; cbn [locked pipe tasks ntasks tracker queue subs pipe_locks]; auto.
  - intros j Hj. apply (sub_ok_frame rep ids s); cbn [ntasks tasks]; [lia| | |apply Hsub; exact Hj].
    + intros t' _. unfold epoch_of. cbn [tasks]. rewrite Tid, Tep. split; [reflexivity|lia].
    + (* the task whose result is set is the one the pipeline notifies next; the others keep their owner *)
      intros t' e _ _ W. destruct (Nat.eq_dec t' t) as [->|Hne]; [right; right; reflexivity|].
      revert W. apply wake_frame; unfold epoch_of, res_of; cbn [tasks pipe]; rewrite ?Tep; auto.
      * rewrite upd_neq by assumption. reflexivity.
      * intros [O|[r0 O]]; [left; cbn [tasks tracker]; rewrite Tid; exact O|congruence].
      * congruence.
  - intros id t' H. rewrite Tid. apply Htv; assumption.
  - split; [exact Tv|]. rewrite upd_eq. discriminate.
  - intros t' r' Ht'. rewrite Tid. unfold upd. destruct (Nat.eqb t' t) eqn:E.
    + apply Nat.eqb_eq in E. subst t'. cbn [k t_res]. intros H; inversion H; subst. auto.
    + apply Hro. exact Ht'.
  - intros t' Ht'. rewrite Tep. unfold upd. destruct (Nat.eqb t' t) eqn:E; [discriminate|apply Her; exact Ht'].
  - intros t' Ht'. destruct (Nat.eq_dec t' t) as [->|Hne].
    + left. rewrite upd_eq. discriminate.
    + destruct (Hown t' Ht') as [A|[A|[r0 A]]].
      * left. rewrite upd_neq by assumption. exact A.
      * right. left. cbn [tasks tracker]. rewrite Tid. exact A.
      * congruence.
  - intros id t' H. destruct (Hpend id t' H) as [Q|[[r' Q]|Q]]; [left; exact Q|congruence|right; right; exact Q].
Qed.

Lemma inv_notify : forall rep ids s t s1,
  Inv rep ids s -> pipe s = P3 t -> step_pipe s = Some s1 -> Inv rep ids s1.
Proof.
  intros rep ids s t s1 I Hp H. destruct I as [Hlock Hsub Htv Hpv Hqv Hro Her Hown Hpend].
  unfold step_pipe in H. rewrite Hp in *. injection H as <-. destruct Hpv as (Tv & Rset).
  set (k := {| t_id := t_id (tasks s t); t_res := t_res (tasks s t); t_epoch := S (t_epoch (tasks s t)) |}).
  assert (Tid : forall t', t_id (upd (tasks s) t k t') = t_id (tasks s t')) by (intros t'; apply upd_field; reflexivity).
  assert (Tres : forall t', t_res (upd (tasks s) t k t') = t_res (tasks s t')) by (intros t'; apply upd_field; reflexivity).
  assert (Tep : forall t', t_epoch (tasks s t') <= t_epoch (upd (tasks s) t k t')).
  { intros t'. unfold upd. destruct (Nat.eqb t' t) eqn:E; [apply Nat.eqb_eq in E; subst; cbn [k t_epoch]; lia|lia]. }
  constructor; cbn [locked pipe tasks ntasks tracker queue subs pipe_locks]; auto.
  - intros j Hj. apply (sub_ok_frame rep ids s); cbn [ntasks tasks]; [lia| | |apply Hsub; exact Hj].
    + intros t' _. unfold epoch_of. cbn [tasks]. rewrite Tid. split; [reflexivity|apply Tep].
    + (* the notified task's epoch moves past every snapshot; the others keep their owner *)
      intros t' e _ Le W. destruct (Nat.eq_dec t' t) as [->|Hne].
      * left. unfold epoch_of in *. cbn [tasks]. rewrite upd_eq. cbn [k t_epoch]. lia.
      * revert W. apply wake_frame; unfold epoch_of, res_of; cbn [tasks pipe]; rewrite ?Tres; auto.
        -- apply owned_frame; [reflexivity|apply Tid|congruence].
        -- congruence.
  - intros id t' H. rewrite Tid. apply Htv; assumption.
  - intros t' r' Ht'. rewrite Tid, Tres. apply Hro. exact Ht'.
  - intros t' Ht' He. rewrite Tres. destruct (Nat.eq_dec t' t) as [->|Hne]; [exact Rset|].
    rewrite upd_neq in He by assumption. apply Her; assumption.
  - intros t' Ht'. rewrite Tres. destruct (Hown t' Ht') as [A|A]; [left; exact A|right].
    revert A. apply owned_frame; [reflexivity|apply Tid|congruence].
  - intros id t' H. destruct (Hpend id t' H) as [Q|[[r' Q]|Q]]; [left; exact Q|congruence|right; right; exact Q].
Qed.

Theorem inv_step : forall rep ids s l s1, Inv rep ids s -> stepb rep ids s l = Some s1 -> Inv rep ids s1.
Proof.
  intros rep ids s l s1 I H. destruct l as [i|]; cbn [stepb] in H.
  - destruct (Nat.ltb i (List.length ids)) eqn:Hi; [|discriminate]. apply Nat.ltb_lt in Hi.
    assert (Res : forall t r, task_of ids s i t -> res_of s t = Some r -> sub_ok rep ids s i (SDone r)).
    { intros t r [Tv Tid] R. destruct (i_res_own _ _ _ I t r Tv R) as [A B]. split; [exact A|congruence]. }
    (* most steps set the program counter to some [p]: what is left is [sub_ok] of [p] *)
    pose proof (fun p => inv_set_sub rep ids s i p I) as Mv.
    pose proof (i_sub _ _ _ I i Hi) as G. unfold step_sub in H.
    destruct (subs s i) eqn:Es; cbn [sub_ok] in G.
    + (* S0 *) destruct (locked s) eqn:L; [discriminate|].
      destruct (tlookup (idof ids i) (tracker s)) as [t|] eqn:Et.
      * inversion H. apply Mv; [exact (i_trk_valid _ _ _ I _ t Et)|intros t0; congruence].
      * apply (inv_track_new rep ids s i s1 I Hi Es Et). unfold step_sub. rewrite Es, L, Et. exact H.
    + (* S1 *) apply (inv_send rep ids s i t s1 I Hi Es). unfold step_sub. rewrite Es. exact H.
    + (* S2 *) destruct rep.
      * inversion H. apply Mv; [split; [exact G|lia]|intros t0; congruence].
      * destruct (res_of s t) as [r|] eqn:R; inversion H; (apply Mv; [|intros t0; congruence]);
          [exact (Res t r G R)|split; [exact G|reflexivity]].
    + (* S3: only in the order before the repair *)
      destruct rep; [discriminate|]. inversion H. apply Mv; [|intros t0; congruence].
      split; [apply G|]. split; [lia|discriminate].
    + (* S3r: only in the repaired order; a submitter that finds no result goes to wait while
         the task still has its owner *)
      destruct rep; [|discriminate]. destruct G as [G Le].
      destruct (res_of s t) as [r|] eqn:R; inversion H; (apply Mv; [|intros t0; congruence]); [exact (Res t r G R)|].
      split; [exact G|]. split; [exact Le|]. intros _. right. left. split; [exact R|].
      destruct (i_owned _ _ _ I t (proj1 G)) as [A|A]; [unfold res_of in R; congruence|exact A].
    + (* S4 *) destruct (Nat.ltb e (epoch_of s t)) eqn:Lt; [|discriminate]. apply Nat.ltb_lt in Lt.
      inversion H. apply Mv; [split; [apply G|lia]|intros t0; congruence].
    + (* S5 *) destruct (res_of s t) as [r|] eqn:R; [|discriminate]. inversion H.
      apply Mv; [exact (Res t r (proj1 G) R)|intros t0; congruence].
    + discriminate.
  - destruct (pipe s) as [|id r|t r|t] eqn:Ep.
    + eapply inv_pop; eassumption.
    + destruct (tlookup id (tracker s)) eqn:Et; [eapply inv_take|eapply inv_skip]; eassumption.
    + eapply inv_set; eassumption.
    + eapply inv_notify; eassumption.
Qed.

Lemma inv_exec : forall rep ids s tr s', exec rep ids s tr s' -> Inv rep ids s -> Inv rep ids s'.
Proof. intros rep ids s tr s' H. induction H as [s|s l s1 tr s2 Hs _ IH]; intros I; [exact I|]. apply IH. eapply inv_step; eassumption. Qed.

Lemma inv_reachable : forall rep ids tr s, exec rep ids init tr s -> Inv rep ids s.
Proof. intros rep ids tr s H. eapply inv_exec; [exact H|apply inv_init]. Qed.

(** Safety, both orders: a submitter only ever returns the result of an event with its own id. *)
Theorem result_is_own : forall rep ids tr s i r,
  exec rep ids init tr s -> i < List.length ids -> subs s i = SDone r ->
  r < List.length ids /\ idof ids r = idof ids i.
Proof.
  intros rep ids tr s i r H Hi Hd. pose proof (i_sub _ _ _ (inv_reachable rep ids tr s H) i Hi) as G.
  rewrite Hd in G. exact G.
Qed.

Lemma forallb_seq_false : forall (f : nat -> bool) n, forallb f (seq 0 n) = false -> exists i, i < n /\ f i = false.
Proof.
  intros f n H. destruct (forallb f (seq 0 n)) eqn:E; [discriminate|]. clear H.
  induction n as [|n IH]; [discriminate|]. rewrite seq_S, forallb_app in E. cbn [forallb plus] in E.
  destruct (forallb f (seq 0 n)); [|destruct IH as (i & A & B); [reflexivity|exists i; auto]].
  exists n. split; [lia|]. destruct (f n); [discriminate|reflexivity].
Qed.

(** While some submitter has not returned, some step is enabled (no lost wake-up, no deadlock). *)
Theorem deadlock_free_inv : forall ids s,
  Inv true ids s -> all_doneb ids s = false -> exists l s', stepb true ids s l = Some s'.
Proof.
  intros ids s I Hnd. destruct I as [Hlock Hsub Htv Hpv Hqv Hro Her Hown Hpend].
  (* the pipeline thread moves unless it is idle with an empty channel *)
  destruct (step_pipe s) as [s'|] eqn:E; [exists LPipe, s'; exact E|]. unfold step_pipe in E.
  destruct (pipe s) as [|id r|t r|t] eqn:Ep; cbn [pipe_locks] in Hlock; try discriminate;
    [|rewrite Hlock in E; destruct (tlookup id (tracker s)); discriminate].
  destruct (queue s) as [|[id r] q] eqn:Eq; [clear E|discriminate].
  assert (Sub : forall j, j < List.length ids -> (exists s', step_sub true ids s j = Some s') ->
                exists l s', stepb true ids s l = Some s').
  { intros j Hj E. exists (LSub j). cbn [stepb]. apply Nat.ltb_lt in Hj. rewrite Hj. exact E. }
  destruct (forallb_seq_false _ _ Hnd) as (i & Hi & Hdi).
  destruct (step_sub true ids s i) as [s'|] eqn:E; [apply (Sub i Hi); exists s'; exact E|].
  (* [i] has not returned and cannot move: it waits for a signal *)
  pose proof (Hsub i Hi) as G. unfold step_sub in E.
  destruct (subs s i) eqn:Es; cbn [is_done sub_ok] in Hdi, G; try discriminate.
  - (* S0 *) rewrite Hlock in E. destruct (tlookup (idof ids i) (tracker s)); discriminate.
  - (* S3 does not occur in the repaired order *) destruct G as [_ G]. discriminate.
  - (* S3r *) destruct (res_of s t); discriminate.
  - (* S4: its task is still owned, so its event is on its way, and with the pipeline idle that
       means the event's submitter has yet to send it *)
    destruct G as (G & Le & W). destruct (Nat.ltb e (epoch_of s t)) eqn:Lt; [discriminate|]. apply Nat.ltb_ge in Lt.
    destruct (W eq_refl) as [B|[[B [C|[r0 C]]]|B]]; [lia| |congruence|congruence].
    destruct (Hpend _ _ C) as [[r Q]|[[r Q]|(j & t' & Hj & Hs & Hid)]]; [rewrite Eq in Q; destruct Q|congruence|].
    apply (Sub j Hj). unfold step_sub. rewrite Hs. eexists; reflexivity.
  - (* S5 *) destruct G as [G Pos]. pose proof (Her t (proj1 G) Pos) as R. unfold res_of in E.
    destruct (t_res (tasks s t)); [discriminate|congruence].
Qed.

Theorem deadlock_free : forall ids tr s,
  exec true ids init tr s -> all_doneb ids s = false -> exists l s', stepb true ids s l = Some s'.
Proof. intros ids tr s H. apply deadlock_free_inv. eapply inv_reachable. exact H. Qed.

Lemma all_done_spec : forall ids s, all_doneb ids s = true ->
  forall i, i < List.length ids -> exists r, subs s i = SDone r.
Proof.
  intros ids s H i Hi. unfold all_doneb in H. rewrite forallb_forall in H.
  specialize (H i). rewrite in_seq in H. specialize (H ltac:(lia)).
  destruct (subs s i); try discriminate. eexists; reflexivity.
Qed.

(** Every maximal trace (a trace that cannot be extended — and by [traces_bounded] every trace
    can be extended only finitely often) ends with every submitter having returned, each with the
    result of an event with its own id.  No fairness assumption is needed. *)
Theorem every_maximal_trace_returns : forall ids tr s,
  exec true ids init tr s -> (forall l, stepb true ids s l = None) ->
  forall i, i < List.length ids ->
    exists r, subs s i = SDone r /\ r < List.length ids /\ idof ids r = idof ids i.
Proof.
  intros ids tr s H Hmax i Hi.
  destruct (all_doneb ids s) eqn:D.
  - destruct (all_done_spec ids s D i Hi) as [r Hr]. exists r. split; [exact Hr|].
    exact (result_is_own true ids tr s i r H Hi Hr).
  - destruct (deadlock_free ids tr s H D) as (l & s' & Hs). rewrite Hmax in Hs. discriminate.
Qed.

Lemma exec_app : forall rep ids s tr1 s1 tr2 s2,
  exec rep ids s tr1 s1 -> exec rep ids s1 tr2 s2 -> exec rep ids s (tr1 ++ tr2) s2.
Proof.
  intros rep ids s tr1 s1 tr2 s2 H1 H2. induction H1 as [s|s l sa tr sb Hs _ IH]; cbn [app]; [exact H2|].
  econstructor; [exact Hs|apply IH; exact H2].
Qed.

(** From every reachable state the run can be completed: whatever has happened so far, there is
    a continuation after which every submitter has returned (and every continuation is finite). *)
Theorem can_always_complete : forall ids tr s,
  exec true ids init tr s -> exists tr' s', exec true ids s tr' s' /\ all_doneb ids s' = true.
Proof.
  intros ids tr s H. pose proof (inv_reachable true ids tr s H) as I. clear H tr.
  remember (measure ids s) as m eqn:Hm. revert s I Hm.
  induction m as [m IH] using lt_wf_ind. intros s I Hm.
  destruct (all_doneb ids s) eqn:D.
  - exists [], s. split; [constructor|exact D].
  - destruct (deadlock_free_inv ids s I D) as (l & s1 & Hs).
    pose proof (measure_decreases true ids s l s1 Hs) as Hd.
    destruct (IH (measure ids s1) ltac:(lia) s1 (inv_step true ids s l s1 I Hs) eq_refl) as (tr' & s' & He & Hdone).
    exists (l :: tr'), s'. split; [econstructor; eassumption|exact Hdone].
Qed.

(** The order before the repair loses the wake-up.  One submitter, one event: the submitter
    checks (no result yet), the pipeline then receives the event, removes the task, sets the
    result and calls notify_waiters; only then does the submitter create its Notified — too
    late, nobody will ever notify again. *)
Definition asis_schedule : list label := [LSub 0; LSub 0; LSub 0; LPipe; LPipe; LPipe; LPipe; LSub 0].

Definition run_labels (rep : bool) (ids : list nat) (s : state) (tr : list label) : option state :=
  fold_left (fun o l => match o with Some s => stepb rep ids s l | None => None end) tr (Some s).

Lemma fold_step_none : forall S L (step : S -> L -> option S) tr,
  fold_left (fun o l => match o with Some s => step s l | None => None end) tr None = None.
Proof. intros S L step. induction tr as [|l tr IH]; [reflexivity|exact IH]. Qed.

Lemma run_labels_exec : forall rep ids tr s s', run_labels rep ids s tr = Some s' -> exec rep ids s tr s'.
Proof.
  intros rep ids. induction tr as [|l tr IH]; intros s s' H; unfold run_labels in H; cbn [fold_left] in H.
  - inversion H. constructor.
  - destruct (stepb rep ids s l) as [s1|] eqn:E.
    + econstructor; [exact E|apply IH; exact H].
    + rewrite fold_step_none in H. discriminate.
Qed.

Theorem asis_order_deadlocks : exists s,
  exec false [0] init asis_schedule s /\ all_doneb [0] s = false /\ forall l, stepb false [0] s l = None.
Proof.
  eexists. split; [apply run_labels_exec; vm_compute; reflexivity|]. split; [reflexivity|].
  intros [[|i]|]; reflexivity.
Qed.

(** Non-vacuity: a reachable, not yet finished state of the repaired order with two concurrent
    submissions of the same operation, one waiting ([S4]) while the pipeline is between setting
    the result and notifying. *)
Example example_reachable : exists s,
  exec true [0; 0] init [LSub 0; LSub 1; LSub 0; LSub 0; LSub 0; LPipe; LPipe; LPipe] s /\
  all_doneb [0; 0] s = false /\ subs s 0 = S4 0 0 /\ pipe s = P3 0.
Proof. eexists. split; [apply run_labels_exec; vm_compute; reflexivity|]. repeat split. Qed.
