(** C21 refuted: for every buffer size [c] of [futures::mpsc::channel(c)] there are two replicas
    and a schedule of the joint model that ends with both sides parked inside [sink.send] --
    nobody reads any more.  Witness family: each side owns one log of [c + 1] operations the
    other side lacks (for [c = 0] the two Have messages already block each other). *)
From Coq Require Import List Arith NArith Bool Lia.
From PV Require Import Model.LogSync Proofs.LogSyncC20 Proofs.LogSyncOps Proofs.LogSyncNode
  Proofs.LogSyncJoint.
Import ListNotations.

Lemma both_parked_deadlocked cbuf rA rB y :
  n_parked (sa y) = true -> n_parked (sb y) = true -> deadlocked true cbuf rA rB y = true.
Proof.
  intros PA PB. apply deadlocked_true. split.
  - unfold finished, is_end. rewrite PA. destruct (ph (n_st (sa y))), (n_pend (sa y)); reflexivity.
  - split; apply parked_blocked; assumption.
Qed.

Lemma exec_app fixed cbuf rA rB l1 : forall y l2,
  exec fixed cbuf rA rB y (l1 ++ l2) =
  match exec fixed cbuf rA rB y l1 with Some y' => exec fixed cbuf rA rB y' l2 | None => None end.
Proof.
  induction l1 as [|l l1 IH]; intros y l2; [reflexivity|]. cbn [app exec].
  destruct (sys_step fixed cbuf rA rB y l); [apply IH|reflexivity].
Qed.

Lemma exec_cons fixed cbuf rA rB y l ls y1 (P : sys -> Prop) :
  sys_step fixed cbuf rA rB y l = Some y1 ->
  (exists z, exec fixed cbuf rA rB y1 ls = Some z /\ P z) ->
  exists z, exec fixed cbuf rA rB y (l :: ls) = Some z /\ P z.
Proof. intros S E. cbn [exec]. rewrite S. exact E. Qed.

(** Pushing [S k] pending messages into a queue that has room for all but the last one. *)
Lemma exec_pushA cb rA rB k : forall y ms1,
  length ms1 = S k -> n_pend (sa y) = ms1 -> n_parked (sa y) = false ->
  length (qab y) + S k = S cb ->
  exists n', exec true (Some cb) rA rB y (repeat LPushA (S k)) = Some (mksys n' (sb y) (qab y ++ ms1) (qba y)) /\
             n_parked n' = true.
Proof.
  induction k as [|k IH]; intros y ms1 L P Pa Q.
  - destruct ms1 as [|m [|? ?]]; try discriminate. cbn [repeat exec sys_step].
    unfold node_push. rewrite P, Pa. cbn [app option_map fst snd]. eexists. split; [reflexivity|].
    cbn [n_parked]. unfold parks. rewrite app_length. cbn [length]. apply Nat.ltb_lt. lia.
  - destruct ms1 as [|m ms1]; [discriminate|]. cbn [length] in L. injection L as L.
    change (repeat LPushA (S (S k))) with (LPushA :: repeat LPushA (S k)). cbn [exec sys_step].
    unfold node_push at 1. rewrite P, Pa. cbn [app option_map fst snd].
    set (y1 := mksys _ (sb y) (qab y ++ [m]) (qba y)).
    destruct (IH y1 ms1 L) as [n' [E Pn]].
    + reflexivity.
    + cbn [sa n_parked y1]. unfold parks. rewrite app_length. cbn [length]. apply Nat.ltb_ge. lia.
    + cbn [qab y1]. rewrite app_length. cbn [length]. lia.
    + exists n'. split; [|exact Pn]. rewrite E. cbn [sb qab qba y1]. rewrite <- app_assoc. reflexivity.
Qed.

Lemma exec_pushB cb rA rB k : forall y ms1,
  length ms1 = S k -> n_pend (sb y) = ms1 -> n_parked (sb y) = false ->
  length (qba y) + S k = S cb ->
  exists n', exec true (Some cb) rA rB y (repeat LPushB (S k)) = Some (mksys (sa y) n' (qab y) (qba y ++ ms1)) /\
             n_parked n' = true.
Proof.
  induction k as [|k IH]; intros y ms1 L P Pa Q.
  - destruct ms1 as [|m [|? ?]]; try discriminate. cbn [repeat exec sys_step].
    unfold node_push. rewrite P, Pa. cbn [app option_map fst snd]. eexists. split; [reflexivity|].
    cbn [n_parked]. unfold parks. rewrite app_length. cbn [length]. apply Nat.ltb_lt. lia.
  - destruct ms1 as [|m ms1]; [discriminate|]. cbn [length] in L. injection L as L.
    change (repeat LPushB (S (S k))) with (LPushB :: repeat LPushB (S k)). cbn [exec sys_step].
    unfold node_push at 1. rewrite P, Pa. cbn [app option_map fst snd].
    set (y1 := mksys (sa y) _ (qab y) (qba y ++ [m])).
    destruct (IH y1 ms1 L) as [n' [E Pn]].
    + reflexivity.
    + cbn [sb n_parked y1]. unfold parks. rewrite app_length. cbn [length]. apply Nat.ltb_ge. lia.
    + cbn [qba y1]. rewrite app_length. cbn [length]. lia.
    + exists n'. split; [|exact Pn]. rewrite E. cbn [sa qab qba y1]. rewrite <- app_assoc. reflexivity.
Qed.

Lemma rows_of_single k ws : rows_of [(k, ws)] k = ws.
Proof. cbn [rows_of]. unfold keyb. rewrite !N.eqb_refl. reflexivity. Qed.

Lemma single_heights a l ws m : maxseq ws = Some m -> log_heights [((a, l), ws)] a [l] = Some [(l, m)].
Proof. intros H. unfold log_heights, heights_of_logs. cbn [flat_map]. rewrite rows_of_single, H. reflexivity. Qed.

Lemma single_entries a l ws rg :
  filter (fun w => in_range rg (r_seq w)) ws = ws -> log_entries [((a, l), ws)] a l rg = ws.
Proof. intros H. unfold log_entries. rewrite rows_of_single. exact H. Qed.

Lemma single_size a l ws rg :
  filter (fun w => in_range rg (r_seq w)) ws = ws ->
  log_size [((a, l), ws)] a l rg = (N.of_nat (length ws), sum_sizes ws).
Proof. intros H. unfold log_size. rewrite (single_entries a l ws rg H). reflexivity. Qed.

Section Witness.
  Variables wsA wsB : list row.
  Variables mA mB : N.
  Hypothesis HmA : maxseq wsA = Some mA.
  Hypothesis HmB : maxseq wsB = Some mB.
  (* [0 +]: the shape in which the test appears in the run (the byte count of [PSendPreSync]
     starts at 0), so that [step1 with HsA] can rewrite with it. *)
  Hypothesis HsA : N.ltb 0 (0 + sum_sizes wsA) = true.
  Hypothesis HsB : N.ltb 0 (0 + sum_sizes wsB) = true.

  Definition wrA : replica := [((0, 0), wsA)]%N.
  Definition wrB : replica := [((1, 0), wsB)]%N.
  Definition wlA : list (N * list N) := [(0, [0])]%N.
  Definition wlB : list (N * list N) := [(1, [0])]%N.

  (** One label at a time: the step is computed on its own, with the store queries left alone;
      [step1 with L] puts in the value of the query the step makes by rewriting with [L]. *)
  Ltac eval_step := lazy beta iota zeta delta -[log_heights log_size log_entries maxseq sum_sizes
                                                N.ltb N.add N.of_nat dd_insert_all op_msgs].
  Tactic Notation "step1" := eapply exec_cons; [eval_step; reflexivity|].
  Tactic Notation "step1" "with" constr(L) := eapply exec_cons; [eval_step; rewrite L; eval_step; reflexivity|].

  Lemma deadlock_zero :
    exists y, exec true (Some 0) wrA wrB (sys0 wlA wlB 1)
                   [LTickA; LTickA; LTickA; LPushA; LTickB; LTickB; LTickB; LPushB] = Some y /\
              deadlocked true (Some 0) wrA wrB y = true.
  Proof.
    step1. step1 with (single_heights 0 0 wsA mA HmA). step1. step1.
    step1. step1 with (single_heights 1 0 wsB mB HmB). step1. step1.
    eexists. split; [reflexivity|]. apply both_parked_deadlocked; reflexivity.
  Qed.

  (** [c >= 1]: handshake, both enter the send arm, both fill their queue. *)
  Definition handshake : list label :=
    [LTickA; LTickA; LTickA; LPushA; LTickB; LTickB; LTickB; LPushB; LDelivA; LDelivB;
     LTickA; LTickA; LPushA; LTickB; LTickB; LPushB; LDelivA; LDelivB;
     LTickA; LTickA; LTickB; LTickB].

  Lemma handshake_state c :
    exists y, exec true (Some (S c)) wrA wrB (sys0 wlA wlB 1) handshake = Some y /\
              n_pend (sa y) = map (fun w => Operation 0 0 w) wsA /\ n_parked (sa y) = false /\ qab y = [] /\
              n_pend (sb y) = map (fun w => Operation 1 0 w) wsB /\ n_parked (sb y) = false /\ qba y = [].
  Proof.
    unfold handshake.
    step1. step1 with (single_heights 0 0 wsA mA HmA). step1. step1.
    step1. step1 with (single_heights 1 0 wsB mB HmB). step1. step1.
    step1. step1.
    step1 with (single_size 0 0 wsA _ (maxseq_upto wsA mA HmA)). step1 with HsA. step1.
    step1 with (single_size 1 0 wsB _ (maxseq_upto wsB mB HmB)). step1 with HsB. step1.
    step1. step1.
    step1. step1 with (single_entries 0 0 wsA _ (maxseq_upto wsA mA HmA)).
    step1. step1 with (single_entries 1 0 wsB _ (maxseq_upto wsB mB HmB)).
    eexists. split; [reflexivity|].
    cbn [sa sb qab qba n_pend n_parked]. rewrite !sent_op_msgs. repeat split; reflexivity.
  Qed.

  Theorem deadlock_succ c :
    length wsA = S (S c) -> length wsB = S (S c) ->
    exists ls y, exec true (Some (S c)) wrA wrB (sys0 wlA wlB 1) ls = Some y /\
                 deadlocked true (Some (S c)) wrA wrB y = true.
  Proof.
    intros LA LB. destruct (handshake_state c) as [y0 [E0 [PA [KA [QA [PB [KB QB]]]]]]].
    destruct (exec_pushA (S c) wrA wrB (S c) y0 (map (fun w => Operation 0 0 w) wsA)) as [nA [EA PnA]].
    - rewrite map_length. exact LA.
    - exact PA.
    - exact KA.
    - rewrite QA. reflexivity.
    - set (y1 := mksys nA (sb y0) (qab y0 ++ map (fun w => Operation 0 0 w) wsA) (qba y0)) in *.
      destruct (exec_pushB (S c) wrA wrB (S c) y1 (map (fun w => Operation 1 0 w) wsB)) as [nB [EB PnB]].
      + rewrite map_length. exact LB.
      + exact PB.
      + exact KB.
      + cbn [qba y1]. rewrite QB. reflexivity.
      + eexists (handshake ++ repeat LPushA (S (S c)) ++ repeat LPushB (S (S c))), _. split.
        * rewrite exec_app, E0, exec_app, EA. exact EB.
        * apply both_parked_deadlocked; [exact PnA|exact PnB].
  Qed.
End Witness.

Definition rows_from (a : N) (s n : nat) : list row :=
  map (fun i => mkrow (N.of_nat i) (a * 1000000 + N.of_nat i) 500) (seq s n).
Definition rows (a : N) (n : nat) : list row := rows_from a 0 n.

Lemma maxseq_rows a n : forall s, maxseq (rows_from a s (S n)) = Some (N.of_nat (s + n)).
Proof.
  unfold rows_from. induction n as [|n IH]; intros s.
  - cbn. rewrite Nat.add_0_r. reflexivity.
  - change (seq s (S (S n))) with (s :: seq (S s) (S n)). cbn [map maxseq]. rewrite IH. cbn [r_seq].
    f_equal. lia.
Qed.

Lemma rows_facts a n :
  maxseq (rows a (S n)) = Some (N.of_nat n) /\
  N.ltb 0 (0 + sum_sizes (rows a (S n))) = true /\
  length (rows a (S n)) = S n.
Proof.
  repeat split.
  - apply (maxseq_rows a n 0).
  - apply N.ltb_lt. unfold rows, rows_from. change (seq 0 (S n)) with (0 :: seq 1 n).
    unfold sum_sizes. cbn [map fold_right r_size]. lia.
  - unfold rows, rows_from. rewrite map_length, seq_length. reflexivity.
Qed.

Theorem refuted_family :
  forall c : nat, exists (rA rB : replica) (logsA logsB : list (N * list N)) (cap : nat) (ls : list label) (y : sys),
    exec true (Some c) rA rB (sys0 logsA logsB cap) ls = Some y /\
    deadlocked true (Some c) rA rB y = true.
Proof.
  intros c.
  destruct (rows_facts 0 c) as [MA [SA LA]]. destruct (rows_facts 1 c) as [MB [SB LB]].
  exists (wrA (rows 0 (S c))), (wrB (rows 1 (S c))), wlA, wlB, 1.
  destruct c as [|c].
  - destruct (deadlock_zero (rows 0 1) (rows 1 1) _ _ MA MB) as [y [E D]]. eexists _, y. split; [exact E|exact D].
  - destruct (deadlock_succ _ _ _ _ MA MB SA SB c LA LB) as [ls [y [E D]]].
    exists ls, y. split; [exact E|exact D].
Qed.
