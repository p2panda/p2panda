(** Progress of the joint system: no reachable state is a deadlock, provided the transport is
    unbounded, or is [futures::mpsc::channel(c)] with [c >= 1] and at least one side's sync-phase
    messages (operations + Done) fit into [c].  (C19 termination, C21 outside the known finding;
    that every run is finite is LogSyncTerm.) *)
From Coq Require Import List Arith NArith Bool Lia.
From PV Require Import Model.LogSync Proofs.LogSyncC20 Proofs.LogSyncScript Proofs.LogSyncNode
  Proofs.LogSyncJoint.
Import ListNotations.

Definition einv (s : st) (ms : list msg) : Prop :=
  match ph s with
  | PStart _ | PSendHave _ _ => length ms = 0
  | PReceiveHave _ | PSendPreSync _ _ _ _ => length ms = 1
  | PReceivePreSyncOrDone _ _ _ => length ms = 2
  | PSync _ _ | PEnd => 2 <= length ms
  | PFailed => True
  end.

Lemma move_einv s i s' o ms : move s i s' o -> einv s ms -> einv s' (ms ++ sent o).
Proof.
  unfold einv. destruct 1; cbn [ph sent failed set_ph]; rewrite ?app_nil_r, ?app_length; cbn [length];
    trivial; lia.
Qed.

Lemma move_end_silent s i s' o : move s i s' o -> ph s' = PEnd -> sent o = [].
Proof. destruct 1; trivial; discriminate. Qed.

Definition binv (n : node) : Prop :=
  einv (n_st n) (sent (n_hist n)) /\
  (ph (n_st n) = PEnd -> n_pend n = [] /\ n_parked n = false).

Definition B2 (y : sys) : Prop := binv (sa y) /\ binv (sb y).

Lemma binv_tick r n n' : binv n -> node_tick true r n = Some n' -> binv n'.
Proof.
  intros [E _] T. apply node_tick_some in T. destruct T as [_ [_ [_ ->]]].
  pose proof (step_move (n_st n) (Tick r)) as V. split; cbn [n_st n_hist n_pend n_parked].
  - rewrite sent_app. exact (move_einv _ _ _ _ _ V E).
  - intros PE. split; [exact (move_end_silent _ _ _ _ V PE)|reflexivity].
Qed.

Lemma binv_recv n q n' q' : binv n -> node_recv n q = Some (n', q') -> binv n'.
Proof.
  intros [E _] T. apply node_recv_some in T. destruct T as [m [_ [_ [_ [_ ->]]]]].
  split; cbn [n_st n_hist n_pend n_parked]; [|auto].
  rewrite sent_app. exact (move_einv _ _ _ _ _ (step_move (n_st n) (Recv m)) E).
Qed.

Lemma binv_push cbuf n q n' q' : binv n -> node_push cbuf n q = Some (n', q') -> binv n'.
Proof.
  intros [E P] T. apply node_push_some in T. destruct T as [m [p [Pe [_ [_ ->]]]]].
  split; [exact E|]. intros PE. destruct (P PE) as [Z _]. rewrite Z in Pe. discriminate.
Qed.

Lemma binv_unpark n : binv n -> binv (unpark n).
Proof.
  intros [E P]. split; [exact E|]. intros PE. destruct (P PE) as [Z _]. auto.
Qed.

Lemma B2_step rA rB cbuf y l y' : B2 y -> sys_step true cbuf rA rB y l = Some y' -> B2 y'.
Proof.
  intros [BA BB]. revert l y'. apply sys_step_cases; intros n'.
  - intros T. split; [exact (binv_tick _ _ _ BA T)|exact BB].
  - intros T. split; [exact BA|exact (binv_tick _ _ _ BB T)].
  - intros q' T. split; [exact (binv_push _ _ _ _ _ BA T)|exact BB].
  - intros q' T. split; [exact BA|exact (binv_push _ _ _ _ _ BB T)].
  - intros q' T. split; [exact (binv_recv _ _ _ _ BA T)|apply binv_unpark; exact BB].
  - intros q' T. split; [apply binv_unpark; exact BA|exact (binv_recv _ _ _ _ BB T)].
Qed.

Lemma B2_init logsA logsB cap : B2 (sys0 logsA logsB cap).
Proof. split; (split; [reflexivity|discriminate]). Qed.

Lemma B2_exec rA rB cbuf ls : forall y y', B2 y -> exec true cbuf rA rB y ls = Some y' -> B2 y'.
Proof. exact (exec_invariant true cbuf rA rB B2 (B2_step rA rB cbuf) ls). Qed.


Lemma prefix_length {A} (l suf full : list A) : l ++ suf = full -> length l <= length full.
Proof. intros <-. rewrite app_length. lia. Qed.

Lemma prefix_full {A} (l suf full : list A) : l ++ suf = full -> length l = length full -> l = full.
Proof.
  intros E L. rewrite <- E in L. rewrite app_length in L. destruct suf; [|cbn in L; lia].
  rewrite app_nil_r in E. exact E.
Qed.

Section Counts.
  Variable r : replica.
  Variable logs : list (N * list N).
  Variable h_peer : heights.
  Variable sc_peer : list msg.
  Hypothesis peer_word : complete_word sc_peer.

  Notation ninv := (ninv r logs h_peer sc_peer).

  Definition ecount (n : node) : nat := length (sent (n_hist n)).
  Definition kcount (n : node) : nat := length (n_cons n).

  Lemma emitted_le n : ninv n -> ecount n <= length (script r logs h_peer).
  Proof.
    intros NI. destruct (ninv_sent_prefix r logs h_peer sc_peer n NI) as [suf E].
    exact (prefix_length _ _ _ E).
  Qed.

  (** Up to its second message a node emits at most one message more than it has read (the
      handshake alternates); later messages go out only after the peer's second was read. *)
  Lemma emitted_after_consumed n :
    ninv n -> binv n -> ecount n <= kcount n + 1 \/ 2 <= kcount n.
  Proof.
    intros [_ [_ [_ C]]] [E _]. unfold einv in E. unfold ecount, kcount.
    (* before the sync loop both counts are fixed by the phase *)
    destruct (ph (n_st n)); try (rewrite (proj1 C), E; auto with arith; fail).
    - (* PSync *) destruct C as [C _]. auto.
    - (* PEnd *) right. rewrite C. exact (word_length _ peer_word).
    - (* PFailed *) destruct C.
  Qed.

  (** A node that cannot tick is at its end, or waits for a message that the peer has yet to
      produce; its own script it has sent completely, or it is still in the handshake, where it
      has emitted one message more than it has read. *)
  Lemma idle_classify n :
    ninv n -> binv n -> tick_enabled true (n_st n) = false ->
    (ph (n_st n) = PEnd /\ ecount n = length (script r logs h_peer) /\ kcount n = length sc_peer) \/
    (can_recv (n_st n) = true /\ kcount n < length sc_peer /\
     (ecount n = length (script r logs h_peer) \/ kcount n < ecount n)).
  Proof.
    intros NI [E _] T. pose proof NI as [K [_ [Pfx C]]].
    pose proof (word_length _ peer_word) as WL.
    unfold einv in E. unfold kinv in K. unfold tick_enabled in T. unfold ecount, kcount, can_recv.
    destruct (ph (n_st n)) eqn:P; try discriminate T.
    - (* PReceiveHave *) destruct C as [-> _]. right. cbn [length]. split; [reflexivity|lia].
    - (* PReceivePreSyncOrDone *) destruct C as [C _]. right. split; [reflexivity|lia].
    - (* PSync: the arm is off and the session not over, so Done is sent but not received *)
      destruct cur; [discriminate|]. apply orb_false_iff in T. destruct T as [Arm DD]. unfold arm_on in Arm.
      assert (DS : done_sent (n_st n) = true).
      { destruct (done_sent (n_st n)); [reflexivity|]. destruct rest; [destruct (K eq_refl eq_refl)|discriminate]. }
      rewrite DS, andb_true_r in DD. rewrite DD. right. split; [reflexivity|].
      pose proof (ninv_post_script r logs h_peer sc_peer n NI) as Q. rewrite P in Q.
      specialize (Q eq_refl). unfold remaining in Q. rewrite P, DS, app_nil_r in Q. rewrite Q.
      split; [|left; reflexivity].
      destruct C as [_ C]. destruct Pfx as [suf Pf]. pose proof (prefix_length _ _ _ Pf) as Le.
      destruct (Nat.eq_dec (length (n_cons n)) (length sc_peer)) as [Eq|Ne]; [|lia].
      apply (prefix_full _ _ _ Pf), C in Eq. congruence.
    - (* PEnd *) left. destruct (end_facts r logs h_peer sc_peer n NI P) as [-> ->]. auto.
    - destruct C.
  Qed.
End Counts.

Section Progress.
  Variables rA rB : replica.
  Variables logsA logsB : list (N * list N).
  Variable cbuf : option nat.

  Notation scA := (scA rA rB logsA logsB).
  Notation scB := (scB rA rB logsA logsB).
  Notation hA := (hA rA logsA).
  Notation hB := (hB rB logsB).
  Notation J := (J rA rB logsA logsB cbuf).

  (** Messages a side sends in the sync phase: its operations and the final Done (0 if it has
      nothing to send: its Done then goes out in place of PreSync). *)
  Definition msgs (sc : list msg) : nat := length sc - 2.

  Definition safe : Prop :=
    match cbuf with
    | None => True
    | Some c => 1 <= c /\ (msgs scA <= c \/ msgs scB <= c)
    end.

  Lemma stuck_node n r q_out q_in :
    node_tick true r n = None -> node_push cbuf n q_out = None -> node_recv n q_in = None ->
    n_parked n = true \/
    (n_parked n = false /\ n_pend n = [] /\ tick_enabled true (n_st n) = false /\
     (can_recv (n_st n) = true -> q_in = [])).
  Proof.
    unfold node_tick, node_push, node_recv. destruct (n_parked n); [left; reflexivity|].
    destruct (n_pend n); [|discriminate]. intros T _ R. right.
    destruct (tick_enabled true (n_st n)); [discriminate|].
    repeat split. destruct q_in; [reflexivity|].
    destruct (can_recv (n_st n)); discriminate.
  Qed.

  Lemma link_counts x y q :
    link cbuf x y q -> ecount x = kcount y + length q + length (n_pend x).
  Proof. intros [L _]. unfold ecount, kcount. rewrite L, !app_length. lia. Qed.

  Lemma link_parked x y q :
    link cbuf x y q -> n_parked x = true -> exists c, cbuf = Some c /\ c < length q.
  Proof.
    intros [_ P] Pa. specialize (P Pa). destruct cbuf as [c|]; [|destruct P]. exists c. auto.
  Qed.

  Theorem deadlock_free y : J y -> B2 y -> safe -> deadlocked true cbuf rA rB y = false.
  Proof.
    intros [NA [NB [LAB LBA]]] [BA BB] Safe.
    destruct (deadlocked true cbuf rA rB y) eqn:D; [exfalso|reflexivity].
    apply deadlocked_true in D. destruct D as [NF [[TA [UA RA]] [TB [UB RB]]]].
    pose proof (link_counts _ _ _ LAB) as CA. pose proof (link_counts _ _ _ LBA) as CB.
    pose proof (emitted_le rA logsA hB scB (sa y) NA) as EA.
    pose proof (emitted_le rB logsB hA scA (sb y) NB) as EB.
    destruct (stuck_node _ _ _ _ TA UA RA) as [PA|[PA [PeA [SA QA]]]];
      destruct (stuck_node _ _ _ _ TB UB RB) as [PB|[PB [PeB [SB QB]]]];
      clear TA UA RA TB UB RB.
    - (* both parked: both queues hold more than [c] messages, so each side has emitted at least
         [c + 3] and neither script fits *)
      destruct (link_parked _ _ _ LAB PA) as [c [Ec FA]]. destruct (link_parked _ _ _ LBA PB) as [c' [Ec' FB]].
      unfold safe, msgs, scA, scB in Safe. rewrite Ec in Safe, Ec'. injection Ec' as <-.
      pose proof (emitted_after_consumed rA logsA hB scB (scB_word rA rB logsA logsB) (sa y) NA BA).
      pose proof (emitted_after_consumed rB logsB hA scA (scA_word rA rB logsA logsB) (sb y) NB BB).
      lia.
    - (* A parked, so [qab] is not empty; B does not read it, so B is at its end and has read
         all of [scA], yet [qab] holds more *)
      destruct (link_parked _ _ _ LAB PA) as [c [_ FA]].
      destruct (idle_classify rB logsB hA scA (scA_word rA rB logsA logsB) (sb y) NB BB SB)
        as [[_ [_ KB]]|[CrB _]]; [unfold scA in KB; lia|].
      rewrite (QB CrB) in FA. inversion FA.
    - (* the same with the sides exchanged *)
      destruct (link_parked _ _ _ LBA PB) as [c [_ FB]].
      destruct (idle_classify rA logsA hB scB (scB_word rA rB logsA logsB) (sa y) NA BA SA)
        as [[_ [_ KA]]|[CrA _]]; [unfold scB in KA; lia|].
      rewrite (QA CrA) in FB. inversion FB.
    - (* nobody parked, nothing pending: whoever waits has an empty queue before it, so the
         peer has emitted exactly what it has consumed *)
      rewrite PeA in CA. rewrite PeB in CB.
      destruct (idle_classify rA logsA hB scB (scB_word rA rB logsA logsB) (sa y) NA BA SA)
        as [[PEA [EA1 KA]]|[CrA [KA EA1]]];
        destruct (idle_classify rB logsB hA scA (scA_word rA rB logsA logsB) (sb y) NB BB SB)
          as [[PEB [EB1 KB]]|[CrB [KB EB1]]];
        try rewrite (QA CrA) in CB; try rewrite (QB CrB) in CA; cbn [length] in CA, CB;
        unfold scA, scB in *; try lia.
      (* both ended: the state is finished *)
      unfold finished, is_end in NF. rewrite PEA, PEB, PeA, PeB, PA, PB in NF. discriminate.
  Qed.
End Progress.
