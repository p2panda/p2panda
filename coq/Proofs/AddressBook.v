(** Proofs about the address-book model (C27).

    Trusted assumptions (section variables / hypotheses, nothing global):
    - [sigT], [verify]: an arbitrary signature type and verification function; every theorem of
      section [Book] holds for all of them.
    - section [Ideal]: [sign] and the hypothesis [verify_ideal] (a signature verifies for a node
      and a payload iff it is the one the node's key produces for exactly that payload) — used
      only by [stored_signed_by_node]; shown satisfiable by the symbolic scheme
      ([sym_verify_ideal]). *)
From Coq Require Import List NArith Bool Lia Permutation.
From PV Require Import Lib.ListFacts Model.AddressBook.
Import ListNotations.
Local Open Scope N_scope.

(** [ts_ltb s r = false] reads "[s] is at least as new as [r]"; the lemmas are named for that
    order ([ts_le_trans a b c]: b <= a, c <= b give c <= a). *)
Lemma ts_ltb_spec a b :
  ts_ltb a b = true <-> (fst a < fst b \/ (fst a = fst b /\ snd a < snd b)).
Proof.
  unfold ts_ltb. rewrite orb_true_iff, andb_true_iff, !N.ltb_lt, N.eqb_eq. reflexivity.
Qed.

Lemma ts_ltb_false a b :
  ts_ltb a b = false <-> (fst b < fst a \/ (fst a = fst b /\ snd b <= snd a)).
Proof. rewrite <- not_true_iff_false, ts_ltb_spec. lia. Qed.

Lemma ts_ltb_irrefl a : ts_ltb a a = false.
Proof. apply ts_ltb_false. right. split; reflexivity. Qed.

Lemma ts_le_trans a b c : ts_ltb a b = false -> ts_ltb b c = false -> ts_ltb a c = false.
Proof. intros H1 H2. apply ts_ltb_false in H1, H2. apply ts_ltb_false. lia. Qed.

Lemma ts_antisym a b : ts_ltb a b = false -> ts_ltb b a = false -> a = b.
Proof.
  intros H1 H2. apply ts_ltb_false in H1, H2. destruct a, b. cbn [fst snd] in *. f_equal; lia.
Qed.

Lemma ts_lt_asym a b : ts_ltb a b = true -> ts_ltb b a = false.
Proof. intros H. apply ts_ltb_spec in H. apply ts_ltb_false. lia. Qed.

Lemma ts_lt_le_trans a b c : ts_ltb b a = true -> ts_ltb b c = false -> ts_ltb a c = false.
Proof. intros H. apply ts_le_trans, ts_lt_asym, H. Qed.

Section Book.
  Variable sigT : Type.
  Variable verify : N -> payload -> sigT -> bool.

  (* These notations shadow the constants: to unfold one, name it qualified
     ([unfold AddressBook.stored]). *)
  Notation tinfo := (tinfo sigT).
  Notation authentic := (authentic sigT verify).
  Notation update_transports := (update_transports sigT verify).
  Notation arrive := (arrive sigT verify).
  Notation newest_authentic := (newest_authentic sigT verify).
  Notation newer_of := (newer_of sigT).
  Notation info_ts := (info_ts sigT).
  Notation lookup := (lookup sigT).
  Notation upsert := (upsert sigT).
  Notation stored := (stored sigT).
  Notation actor_step := (actor_step sigT verify).
  Notation actor_run := (actor_run sigT verify).
  Notation transports_for := (transports_for sigT).
  Notation only_transport_ops := (only_transport_ops sigT).
  Notation verify_info := (verify_info sigT verify).
  Notation verify_node_info := (verify_node_info sigT verify).

  Lemma lookup_upsert b n v m : lookup (upsert b n v) m = if n =? m then Some v else lookup b m.
  Proof.
    induction b as [|[k w] r IH]; cbn [upsert lookup]; [reflexivity|].
    destruct (N.eqb_spec k n) as [->|Hkn]; cbn [lookup].
    - destruct (n =? m); reflexivity.
    - rewrite IH. destruct (N.eqb_spec k m) as [->|]; [|reflexivity].
      destruct (N.eqb_spec n m) as [->|]; [contradiction|reflexivity].
  Qed.

  Lemma stored_upsert b n v m :
    stored (upsert b n v) m = if n =? m then ni_transports v else stored b m.
  Proof. unfold AddressBook.stored. rewrite lookup_upsert. destruct (n =? m); reflexivity. Qed.

  Lemma authentic_verify_info node r : authentic node r = true <-> verify_info node r = None.
  Proof.
    unfold AddressBook.authentic. destruct (verify_info node r); split; (reflexivity || discriminate).
  Qed.

  Lemma update_rejects node cur r :
    authentic node r = false ->
    exists e, update_transports node cur r = (cur, Err e).
  Proof.
    unfold AddressBook.authentic, update_transports. destruct (verify_info node r); [|discriminate].
    eauto.
  Qed.

  Lemma update_accepts node cur r :
    authentic node r = true ->
    exists nw, update_transports node cur r = (newer_of cur r, Ok nw) /\
               (nw = true <-> newer_of cur r = Some r /\ (cur = None \/ exists c, cur = Some c /\ ts_ltb (info_ts c) (info_ts r) = true)).
  Proof.
    intros A. apply authentic_verify_info in A. unfold update_transports, AddressBook.newer_of.
    rewrite A. destruct cur as [c|].
    - destruct (ts_ltb (info_ts c) (info_ts r)) eqn:E.
      + exists true. split; [reflexivity|]. split; [|reflexivity]. intros _. split; [reflexivity|].
        right. exists c. auto.
      + exists false. split; [reflexivity|]. split; [discriminate|].
        intros [_ [H|[c' [H1 H2]]]]; [discriminate|]. injection H1 as <-. congruence.
    - exists true. split; [reflexivity|]. split; auto.
  Qed.

  Lemma update_fst node cur r :
    fst (update_transports node cur r) = if authentic node r then newer_of cur r else cur.
  Proof.
    destruct (authentic node r) eqn:A.
    - destruct (update_accepts node cur r A) as [nw [U _]]. rewrite U. reflexivity.
    - destruct (update_rejects node cur r A) as [e U]. rewrite U. reflexivity.
  Qed.

  Lemma arrive_is_newest_authentic node rs cur :
    arrive node cur rs = newest_authentic node cur rs.
  Proof.
    unfold AddressBook.arrive, AddressBook.newest_authentic.
    revert cur. induction rs as [|r rs IH]; intros cur; cbn [fold_left filter]; [reflexivity|].
    rewrite IH, update_fst. destruct (authentic node r); reflexivity.
  Qed.

  Lemma newer_of_spec c y :
    exists s, newer_of c y = Some s /\ (c = Some s \/ s = y) /\
              ts_ltb (info_ts s) (info_ts y) = false /\
              forall x, c = Some x -> ts_ltb (info_ts s) (info_ts x) = false.
  Proof.
    unfold AddressBook.newer_of. destruct c as [c|].
    - destruct (ts_ltb (info_ts c) (info_ts y)) eqn:E.
      + exists y. repeat split; auto using ts_ltb_irrefl.
        intros x H. injection H as <-. apply ts_lt_asym, E.
      + exists c. repeat split; auto.
        intros x H. injection H as <-. apply ts_ltb_irrefl.
    - exists y. repeat split; auto using ts_ltb_irrefl. discriminate.
  Qed.

  Lemma fold_newer_spec l : forall init,
    match fold_left newer_of l init with
    | None => init = None /\ l = []
    | Some s => (init = Some s \/ In s l) /\
                forall x, init = Some x \/ In x l -> ts_ltb (info_ts s) (info_ts x) = false
    end.
  Proof.
    induction l as [|y l IH]; intros init; cbn [fold_left].
    - destruct init as [c|]; [|auto]. split; [auto|].
      intros x [E|[]]. injection E as <-. apply ts_ltb_irrefl.
    - destruct (newer_of_spec init y) as [m [E [Ho [Hy Hi]]]].
      specialize (IH (newer_of init y)). rewrite E in *.
      destruct (fold_left newer_of l (Some m)) as [s|]; [|destruct IH; discriminate].
      destruct IH as [IH1 IH2]. cbn [In].
      assert (Hm : ts_ltb (info_ts s) (info_ts m) = false) by auto.
      split.
      + destruct IH1 as [IH1|IH1]; [|auto]. injection IH1 as <-. destruct Ho as [Ho| ->]; auto.
      + intros x [Hx|[<-|Hx]]; [| |auto]; apply (ts_le_trans _ _ _ Hm); auto.
  Qed.

  Theorem arrive_spec node cur rs :
    match arrive node cur rs with
    | None => cur = None /\ forall r, In r rs -> authentic node r = false
    | Some s =>
        (cur = Some s \/ In s rs /\ authentic node s = true) /\
        forall r, cur = Some r \/ In r rs /\ authentic node r = true ->
                  ts_ltb (info_ts s) (info_ts r) = false
    end.
  Proof.
    rewrite arrive_is_newest_authentic. unfold AddressBook.newest_authentic.
    pose proof (fold_newer_spec (filter (authentic node) rs) cur) as H.
    destruct (fold_left newer_of _ cur) as [s|].
    - destruct H as [H1 H2]. split.
      + destruct H1 as [H1|H1]; [left; exact H1|right; apply filter_In, H1].
      + intros r [Hr|Hr]; apply H2; [left; exact Hr|right; apply filter_In, Hr].
    - destruct H as [H1 H2]. split; [exact H1|]. intros r Hr.
      destruct (authentic node r) eqn:A; [|reflexivity].
      assert (F : In r (filter (authentic node) rs)) by (apply filter_In; auto).
      rewrite H2 in F. destruct F.
  Qed.

  Theorem stored_is_max_authentic node rs :
    match arrive node None rs with
    | None => forall r, In r rs -> authentic node r = false
    | Some s =>
        In s rs /\ authentic node s = true /\
        forall r, In r rs -> authentic node r = true -> ts_ltb (info_ts s) (info_ts r) = false
    end.
  Proof.
    pose proof (arrive_spec node None rs) as H. destruct (arrive node None rs) as [s|].
    - destruct H as [[H|[H1 H2]] H3]; [discriminate|]. split; [exact H1|]. split; [exact H2|].
      intros r Hr Ha. apply H3. auto.
    - apply H.
  Qed.

  Theorem forged_never_stored node rs r :
    arrive node None rs = Some r -> In r rs /\ authentic node r = true.
  Proof.
    intros H. pose proof (stored_is_max_authentic node rs) as S. rewrite H in S.
    destruct S as [S1 [S2 _]]. auto.
  Qed.

  (** The [NoDup] hypothesis on [rs] alone is enough: only the two stored records are compared,
      and both lie in [rs]. *)
  Theorem arrive_same_records node rs rs' :
    (forall r, In r rs <-> In r rs') ->
    NoDup (map info_ts (filter (authentic node) rs)) ->
    arrive node None rs = arrive node None rs'.
  Proof.
    intros HI Hnd.
    pose proof (stored_is_max_authentic node rs) as H1.
    pose proof (stored_is_max_authentic node rs') as H2.
    destruct (arrive node None rs) as [s|], (arrive node None rs') as [s'|]; auto.
    - destruct H1 as [I1 [A1 M1]], H2 as [I2 [A2 M2]]. apply HI in I2.
      f_equal. apply (NoDup_map_inj_in info_ts (filter (authentic node) rs) s s' Hnd).
      + apply filter_In. auto.
      + apply filter_In. auto.
      + apply ts_antisym; [apply M1; assumption|apply M2; [apply HI, I1|exact A1]].
    - destruct H1 as [I1 [A1 _]]. rewrite (H2 s) in A1; [discriminate|apply HI, I1].
    - destruct H2 as [I2 [A2 _]]. rewrite (H1 s') in A2; [discriminate|apply HI, I2].
  Qed.

  Theorem arrival_order_irrelevant node rs rs' :
    Permutation rs rs' ->
    NoDup (map info_ts (filter (authentic node) rs)) ->
    arrive node None rs = arrive node None rs'.
  Proof.
    intros HP. apply arrive_same_records. intros r.
    split; apply Permutation_in; [exact HP|apply Permutation_sym, HP].
  Qed.

  Lemma actor_step_transport b n r :
    fst (actor_step b (InsertTransport n r)) =
    if authentic n r
    then upsert b n {| ni_bootstrap := match lookup b n with Some i => ni_bootstrap i | None => false end;
                       ni_transports := newer_of (stored b n) r |}
    else b.
  Proof.
    unfold AddressBook.actor_step, AddressBook.stored, AddressBook.authentic.
    destruct (verify_info n r) eqn:V; [reflexivity|]. apply authentic_verify_info in V.
    destruct (update_accepts n (match lookup b n with Some i => ni_transports i | None => None end) r V)
      as [nw [U _]].
    destruct (lookup b n); cbn [ni_transports ni_bootstrap]; rewrite U; reflexivity.
  Qed.

  Lemma actor_step_node b n bs r :
    fst (actor_step b (InsertNode n bs r)) =
    match verify_node_info n r with
    | Some _ => b
    | None => upsert b n {| ni_bootstrap := bs; ni_transports := r |}
    end.
  Proof. unfold AddressBook.actor_step. destruct (verify_node_info n r); reflexivity. Qed.

  Lemma actor_transport_stored b n r m :
    stored (fst (actor_step b (InsertTransport n r))) m =
    if n =? m then fst (update_transports n (stored b n) r) else stored b m.
  Proof.
    rewrite actor_step_transport, update_fst. destruct (authentic n r).
    - apply stored_upsert.
    - destruct (N.eqb_spec n m) as [->|]; reflexivity.
  Qed.

  Lemma actor_transport_keeps_bootstrap b n r m i :
    lookup b m = Some i ->
    exists i', lookup (fst (actor_step b (InsertTransport n r))) m = Some i' /\
               ni_bootstrap i' = ni_bootstrap i.
  Proof.
    intros L. rewrite actor_step_transport. destruct (authentic n r); [|eauto].
    rewrite lookup_upsert. destruct (N.eqb_spec n m) as [->|]; [|eauto].
    rewrite L. eexists. split; reflexivity.
  Qed.

  (** Outside "records arriving" (scope note of DESIGN.md §5 C27): InsertNodeInfo is a local
      overwrite, whatever the timestamps. *)
  Lemma insert_node_info_overwrites b n bs r :
    verify_node_info n r = None ->
    lookup (fst (actor_step b (InsertNode n bs r))) n = Some {| ni_bootstrap := bs; ni_transports := r |}.
  Proof. intros V. rewrite actor_step_node, V, lookup_upsert, N.eqb_refl. reflexivity. Qed.

  Lemma insert_node_info_rejects b n bs r e :
    verify_node_info n r = Some e -> actor_step b (InsertNode n bs r) = (b, Err e).
  Proof. intros V. unfold AddressBook.actor_step. rewrite V. reflexivity. Qed.

  Lemma actor_run_fst_cons b o ops :
    fst (actor_run b (o :: ops)) = fst (actor_run (fst (actor_step b o)) ops).
  Proof.
    cbn [AddressBook.actor_run]. destruct (actor_step b o) as [b1 x]. cbn [fst].
    destruct (actor_run b1 ops). reflexivity.
  Qed.

  Lemma book_stored_arrive ops : forall b n,
    only_transport_ops ops = true ->
    stored (fst (actor_run b ops)) n = arrive n (stored b n) (transports_for n ops).
  Proof.
    induction ops as [|o ops IH]; intros b n Hops; [reflexivity|].
    cbn [AddressBook.only_transport_ops forallb] in Hops. apply andb_true_iff in Hops.
    destruct Hops as [Ho Hops]. destruct o as [k r|k bs r]; [|discriminate].
    rewrite actor_run_fst_cons, IH, actor_transport_stored by exact Hops.
    cbn [AddressBook.transports_for]. destruct (N.eqb_spec k n) as [->|]; reflexivity.
  Qed.

  Theorem book_stored_is_newest ops : forall b n,
    only_transport_ops ops = true ->
    stored (fst (actor_run b ops)) n = newest_authentic n (stored b n) (transports_for n ops).
  Proof.
    intros b n Hops. rewrite book_stored_arrive by exact Hops. apply arrive_is_newest_authentic.
  Qed.

  Definition book_authentic (b : book sigT) : Prop :=
    forall n r, stored b n = Some r -> authentic n r = true.

  Lemma book_authentic_upsert b k v :
    book_authentic b -> (forall r, ni_transports v = Some r -> authentic k r = true) ->
    book_authentic (upsert b k v).
  Proof.
    intros Hb Hv n r. rewrite stored_upsert.
    destruct (N.eqb_spec k n) as [<-|]; [apply Hv|apply Hb].
  Qed.

  Lemma actor_step_authentic b o : book_authentic b -> book_authentic (fst (actor_step b o)).
  Proof.
    intros Hb. destruct o as [k x|k bs x].
    - rewrite actor_step_transport. destruct (authentic k x) eqn:A; [|exact Hb].
      apply book_authentic_upsert; [exact Hb|]. cbn [ni_transports]. intros r H.
      destruct (newer_of_spec (stored b k) x) as [s [E [[Ho| ->] _]]];
        rewrite E in H; injection H as <-; auto.
    - rewrite actor_step_node. destruct (verify_node_info k x) eqn:V; [exact Hb|].
      apply book_authentic_upsert; [exact Hb|]. cbn [ni_transports]. intros r ->.
      apply authentic_verify_info, V.
  Qed.

  Theorem book_never_stores_forged ops : forall b,
    book_authentic b -> book_authentic (fst (actor_run b ops)).
  Proof.
    induction ops as [|o ops IH]; intros b Hb; [exact Hb|].
    rewrite actor_run_fst_cons. apply IH, actor_step_authentic, Hb.
  Qed.

  Lemma empty_book_authentic : book_authentic [].
  Proof. intros n r H. discriminate. Qed.

  Corollary book_never_stores_forged_from_empty ops n r :
    stored (fst (actor_run [] ops)) n = Some r -> authentic n r = true.
  Proof. apply (book_never_stores_forged ops [] empty_book_authentic). Qed.

  Lemma in_transports_for n ops r :
    In r (transports_for n ops) <-> In (InsertTransport n r) ops.
  Proof.
    induction ops as [|[k x|k bs x] ops IH]; cbn [AddressBook.transports_for In].
    - reflexivity.
    - destruct (N.eqb_spec k n) as [->|Hk]; cbn [In]; rewrite IH.
      + split; (intros [H|H]; [left; congruence|right; exact H]).
      + split; [auto|]. intros [H|H]; [congruence|exact H].
    - rewrite IH. split; [auto|]. intros [H|H]; [discriminate|exact H].
  Qed.

  Lemma transports_for_spec n ops :
    only_transport_ops ops = true ->
    forall r, In r (transports_for n ops) <-> In (InsertTransport n r) ops.
  Proof using verify. intros _ r. apply in_transports_for. Qed.

  (** From the empty book: the timestamp of a record already stored for [n] would have to join
      the [NoDup] hypothesis. *)
  Theorem book_order_irrelevant ops ops' n :
    only_transport_ops ops = true -> only_transport_ops ops' = true ->
    Permutation (transports_for n ops) (transports_for n ops') ->
    NoDup (map info_ts (filter (authentic n) (transports_for n ops))) ->
    stored (fst (actor_run [] ops)) n = stored (fst (actor_run [] ops')) n.
  Proof.
    intros H1 H2 HP Hnd. rewrite !book_stored_arrive by assumption.
    apply arrival_order_irrelevant; assumption.
  Qed.

  Section Ideal.
    Variable sign : N -> payload -> sigT.
    Hypothesis verify_ideal : forall node p s, verify node p s = true <-> s = sign node p.

    Theorem stored_signed_by_node ops n r :
      stored (fst (actor_run [] ops)) n = Some r ->
      match r with
      | Authenticated t s a => s = sign n (t, a)
      | Trusted _ a => forall x, In x a -> fst x = n
      end.
    Proof.
      intros H. apply book_never_stores_forged_from_empty, authentic_verify_info in H.
      unfold AddressBook.verify_info in H. destruct r as [t a|t s a].
      - destruct (forallb (addr_ok n) a) eqn:F; [|discriminate].
        intros x Hx. rewrite forallb_forall in F. apply N.eqb_eq, F, Hx.
      - destruct (verify n (t, a) s) eqn:V; [|discriminate]. apply verify_ideal. exact V.
    Qed.
  End Ideal.
End Book.

Lemma list_eqb_eq {A} (e : A -> A -> bool) (He : forall x y, e x y = true <-> x = y) a b :
  list_eqb e a b = true <-> a = b.
Proof.
  revert b. induction a as [|x a IH]; intros [|y b]; cbn [list_eqb]; try (split; [discriminate|congruence]).
  - tauto.
  - rewrite andb_true_iff, He, IH. split; [intros [-> ->]; reflexivity|intros H; injection H; auto].
Qed.

(** the component-wise boolean equality of pairs, in the shape all the [_eqb] below have *)
Lemma pair_eqb_eq {A B} (ea : A -> A -> bool) (eb : B -> B -> bool) :
  (forall x y, ea x y = true <-> x = y) -> (forall x y, eb x y = true <-> x = y) ->
  forall p q : A * B, ea (fst p) (fst q) && eb (snd p) (snd q) = true <-> p = q.
Proof.
  intros Ha Hb [a b] [c d]. cbn [fst snd]. rewrite andb_true_iff, Ha, Hb.
  split; [intros [-> ->]; reflexivity|intros H; injection H; auto].
Qed.

Lemma ts_eqb_eq a b : ts_eqb a b = true <-> a = b.
Proof. apply (pair_eqb_eq N.eqb N.eqb N.eqb_eq N.eqb_eq). Qed.

Lemma addr_eqb_eq a b : addr_eqb a b = true <-> a = b.
Proof. apply (pair_eqb_eq N.eqb N.eqb N.eqb_eq N.eqb_eq). Qed.

Lemma payload_eqb_eq p q : payload_eqb p q = true <-> p = q.
Proof. apply (pair_eqb_eq _ _ ts_eqb_eq (list_eqb_eq addr_eqb addr_eqb_eq)). Qed.

Lemma sym_verify_ideal node p s : sym_verify node p s = true <-> s = sym_sign node p.
Proof.
  (* [sym_verify node p s] unfolds to the pair shape at [s] and [(node, p)] = [sym_sign node p] *)
  apply (pair_eqb_eq _ _ N.eqb_eq payload_eqb_eq s (node, p)).
Qed.

Lemma sym_sig_eqb_eq a b : sym_sig_eqb a b = true <-> a = b.
Proof. apply (pair_eqb_eq _ _ N.eqb_eq payload_eqb_eq). Qed.

Lemma tinfo_eqb_eq a b : tinfo_eqb a b = true <-> a = b.
Proof.
  destruct a as [t x|t s x], b as [u y|u r y]; cbn [tinfo_eqb]; try (split; [discriminate|congruence]).
  - rewrite (pair_eqb_eq _ _ ts_eqb_eq (list_eqb_eq addr_eqb addr_eqb_eq) (t, x) (u, y)).
    split; intros H; injection H as -> ->; reflexivity.
  - rewrite (pair_eqb_eq _ _ (pair_eqb_eq _ _ ts_eqb_eq sym_sig_eqb_eq)
               (list_eqb_eq addr_eqb addr_eqb_eq) (t, s, x) (u, r, y)).
    split; intros H; injection H as -> -> ->; reflexivity.
Qed.

(** Non-vacuity, for node 1: a newer forged record, an older and a newer authentic one, a
    tampered one, a trusted record naming another node. *)
Definition ex_a1 : tinfo sym_sig := Authenticated (5, 0) (sym_sign 1 ((5, 0), [(1, 7)])) [(1, 7)].
Definition ex_a2 : tinfo sym_sig := Authenticated (9, 1) (sym_sign 1 ((9, 1), [(1, 8)])) [(1, 8)].
Definition ex_forged : tinfo sym_sig := Authenticated (20, 0) (sym_sign 2 ((20, 0), [(1, 9)])) [(1, 9)].
Definition ex_tampered : tinfo sym_sig := Authenticated (30, 0) (sym_sign 1 ((3, 0), [(1, 9)])) [(1, 9)].
Definition ex_mismatch : tinfo sym_sig := Trusted (40, 0) [(2, 1)].
Definition ex_recs := [ex_forged; ex_a2; ex_mismatch; ex_a1; ex_tampered].

Example ex_stored : arrive sym_sig sym_verify 1 None ex_recs = Some ex_a2.
Proof. vm_compute. reflexivity. Qed.

Example ex_order_hyps :
  NoDup (map (info_ts sym_sig) (filter (authentic sym_sig sym_verify 1) ex_recs)) /\
  Permutation ex_recs (rev ex_recs) /\
  arrive sym_sig sym_verify 1 None (rev ex_recs) = Some ex_a2.
Proof.
  split; [|split].
  - vm_compute. repeat constructor; cbn; intuition discriminate.
  - apply Permutation_rev.
  - vm_compute. reflexivity.
Qed.

Example ex_book :
  only_transport_ops sym_sig (map (InsertTransport 1) ex_recs ++ [InsertTransport 2 ex_mismatch]) = true /\
  stored sym_sig (fst (actor_run sym_sig sym_verify [] (map (InsertTransport 1) ex_recs ++ [InsertTransport 2 ex_mismatch]))) 2
    = Some ex_mismatch.
Proof. split; vm_compute; reflexivity. Qed.
