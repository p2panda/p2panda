(** Soundness of the C18 oracle: what it accepts satisfies the property statement. *)
From Coq Require Import List NArith Bool Sorted.
From PV Require Import Model.Timestamp Proofs.Timestamp Oracle.C18.
Import ListNotations.
Local Open Scope N_scope.

Lemma check_seq_sound :
  forall nows h outs,
    check_seq h nows outs false = true ->
    length outs = length nows /\ StronglySorted hlt (h :: outs).
Proof.
  induction nows as [|n r IH]; intros h [|o os] H; try discriminate H.
  - split; [reflexivity|repeat constructor].
  - cbn [check_seq] in H. apply andb_true_iff in H as [L H].
    apply hltb_spec in L. destruct (IH o os H) as [Hlen Hs].
    split; [cbn [length]; f_equal; exact Hlen|exact (hlt_chain h o os L Hs)].
Qed.

Lemma check_net_sound :
  forall rounds cur outs,
    check_net cur rounds outs false = true ->
    length outs = length rounds /\ Forall (fun p => snd p = true) outs /\
    StronglySorted hlt (cur :: map fst outs).
Proof.
  induction rounds as [|[c n] r IH]; intros cur [|[o acc] os] H; try discriminate H.
  - repeat split; repeat constructor.
  - cbn [check_net] in H. apply andb_true_iff in H as [H1 H].
    apply andb_true_iff in H1 as [A L]. apply hltb_spec in L.
    destruct (IH o os H) as [Hlen [Hacc Hs]].
    repeat split; [cbn [length]; f_equal; exact Hlen|constructor; [exact A|exact Hacc]|].
    exact (hlt_chain cur o (map fst os) L Hs).
Qed.

Lemma model_passes_check_seq :
  forall nows h, check_seq h nows (fst (run h nows)) (negb (snd (run h nows))) = true.
Proof.
  induction nows as [|n r IH]; intros h; [reflexivity|].
  destruct (increment h n) as [h1|] eqn:E.
  - rewrite (run_cons r E). cbn [fst snd check_seq]. rewrite IH, andb_true_r.
    apply hltb_spec. exact (increment_lt E).
  - rewrite (run_panic r E). apply increment_none_iff in E. destruct E as [H L].
    apply N.leb_le in H, L. cbn [fst snd check_seq negb]. rewrite H, L. reflexivity.
Qed.
