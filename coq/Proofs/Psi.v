(** C30, confidential discovery (Model/Psi.v).

    Trusted assumptions (section hypotheses, see DESIGN §3):
    - [teqb_spec]   : [Topic]'s [Eq]/[Hash] is equality of the 32 bytes;
    - [H_inj]       : for a fixed salt the salted hash is injective in the topic
                      (BLAKE3 collision resistance);
    - [H_not_raw]   : no salted hash equals a raw topic ([raw] is the set of raw topics in
                      play; BLAKE3 collision/preimage resistance: a hash output that equals a
                      secret random 32-byte topic). *)
From Coq Require Import List NArith Bool.
From PV Require Import Model.Psi.
Import ListNotations.

Lemma bt_insert_In k v m e : In e (bt_insert k v m) -> e = (k, v) \/ In e m.
Proof.
  induction m as [|[k' v'] r IH]; cbn [bt_insert].
  - intros [<-|[]]. left. reflexivity.
  - destruct (N.ltb k k'); [|destruct (N.eqb k k')]; cbn [In]; intros [<-|Hin]; auto.
    destruct (IH Hin); auto.
Qed.

Lemma bt_insert_keys k v m : incl (k :: map fst m) (map fst (bt_insert k v m)).
Proof.
  induction m as [|[k' v'] r IH]; cbn [bt_insert map fst]; [apply incl_refl|].
  destruct (N.ltb k k'); [apply incl_refl|].
  destruct (N.eqb_spec k k') as [<-|NE].
  - apply incl_cons; [left; reflexivity|apply incl_refl].
  - intros x [<-|[<-|Hin]]; [right; apply IH; left|left|right; apply IH; right; exact Hin]; reflexivity.
Qed.

Lemma in_keys {A B} (l : list (A * B)) k : In k (map fst l) -> exists v, In (k, v) l.
Proof.
  intros Hin. apply in_map_iff in Hin. destruct Hin as [[k' v] [<- Hin]]. exists v. exact Hin.
Qed.

Lemma interleave_In {A} (l1 l2 : list A) x : In x (interleave l1 l2) <-> In x l1 \/ In x l2.
Proof.
  revert l2; induction l1 as [|a r1 IH]; intros [|b r2]; cbn [interleave In].
  1-3: split; [auto|intros [Hin|Hin]; solve [destruct Hin|exact Hin]].
  rewrite IH. split.
  - intros [E|[E|[Hin|Hin]]]; auto.
  - intros [[E|Hin]|[E|Hin]]; auto.
Qed.

Section PsiProofs.
  Variable topic : Type.
  Variable half : Type.
  Variable teqb : topic -> topic -> bool.
  Hypothesis teqb_spec : forall a b, teqb a b = true <-> a = b.
  Variable H : topic -> salt half -> topic.
  Hypothesis H_inj : forall s t1 t2, H t1 s = H t2 s -> t1 = t2.
  Variable raw : topic -> Prop.
  Hypothesis H_not_raw : forall t s, ~ raw (H t s).

  (* A bare model name below is the model's constant applied to the parameters of this section;
     [Psi.x] is the constant itself, as [unfold] and [cbn] want it. *)
  Local Notation mem := (mem topic teqb).
  Local Notation dedup := (dedup topic teqb).
  Local Notation hash_set := (hash_set topic half teqb H).
  Local Notation compute_intersection := (compute_intersection topic half teqb H).
  Local Notation node := (node topic).
  Local Notation party := (party topic).
  Local Notation msg := (msg topic half).
  Local Notation selected := (selected topic teqb).
  Local Notation gather := (gather topic teqb).
  Local Notation assemble := (assemble topic).
  Local Notation alice_run := (alice_run topic half teqb H).
  Local Notation bob_run := (bob_run topic half teqb H).
  Local Notation session := (session topic half teqb H).
  Local Notation transcript := (transcript topic half teqb H).
  Local Notation alice_sent := (alice_sent topic half teqb H).
  Local Notation bob_sent := (bob_sent topic half teqb H).
  Local Notation alice_outcome := (alice_outcome topic half teqb H).
  Local Notation bob_outcome := (bob_outcome topic half teqb H).
  Local Notation send_nodes := (send_nodes topic half teqb).
  Local Notation occurs := (occurs topic half).
  Local Notation words := (words topic half).
  Local Notation infos_of := (infos_of topic half).
  Local Notation rxs := (rxs topic half).
  Local Notation expect := (expect topic half).
  Local Notation shares_common := (shares_common topic).
  Local Notation in_scope := (in_scope topic).
  Local Notation in_scope_of := (in_scope_of topic).
  Local Notation outcome_err := (outcome_err topic).

  Lemma mem_In t l : mem t l = true <-> In t l.
  Proof.
    unfold Psi.mem. rewrite existsb_exists. split.
    - intros [x [Hin Heq]]. apply teqb_spec in Heq. subst. exact Hin.
    - intros Hin. exists t. split; [exact Hin|]. apply teqb_spec. reflexivity.
  Qed.

  Lemma mem_false t l : mem t l = false <-> ~ In t l.
  Proof.
    rewrite <- mem_In. destruct (mem t l); split; intros Hx; congruence.
  Qed.

  Lemma dedup_incl t l : In t (dedup l) -> In t l.
  Proof.
    induction l as [|x r IH]; cbn [Psi.dedup]; [auto|].
    destruct (mem x r); cbn [In]; [auto|]. intros [E|Hin]; auto.
  Qed.

  Lemma dedup_In t l : In t (dedup l) <-> In t l.
  Proof.
    split; [apply dedup_incl|].
    induction l as [|x r IH]; cbn [Psi.dedup]; [auto|].
    destruct (mem x r) eqn:E; cbn [In]; intros [<-|Hin]; auto.
    apply IH, mem_In, E.
  Qed.

  Lemma dedup_NoDup l : NoDup (dedup l).
  Proof.
    induction l as [|x r IH]; cbn [Psi.dedup]; [constructor|].
    destruct (mem x r) eqn:E; [exact IH|].
    constructor; [|exact IH]. rewrite dedup_In. apply mem_false. exact E.
  Qed.

  Lemma hash_set_In h ts s : In h (hash_set ts s) <-> exists t, In t ts /\ h = H t s.
  Proof.
    unfold Psi.hash_set, Psi.hash_vector. rewrite dedup_In, in_map_iff. split.
    - intros [t [E Hin]]. exists t. auto.
    - intros [t [Hin E]]. exists t. auto.
  Qed.

  Lemma compute_intersection_In t local remote s :
    In t (compute_intersection local remote s) <-> In t local /\ In (H t s) remote.
  Proof.
    unfold Psi.compute_intersection. rewrite dedup_In, filter_In, mem_In. reflexivity.
  Qed.

  Lemma compute_intersection_incl t local remote s :
    In t (compute_intersection local remote s) -> In t local.
  Proof. intros Hin. apply dedup_incl, filter_In in Hin. apply Hin. Qed.

  Lemma compute_intersection_NoDup local remote s : NoDup (compute_intersection local remote s).
  Proof. apply dedup_NoDup. Qed.

  Lemma common_in_intersection t mine theirs s :
    In t mine -> In t theirs -> In t (compute_intersection mine (hash_set theirs s) s).
  Proof.
    intros Hm Ht. apply compute_intersection_In. split; [exact Hm|]. apply hash_set_In. exists t. auto.
  Qed.

  (** The heart of the protocol, and the only place where [H_inj] is used. *)
  Lemma intersection_of_hashed t mine theirs s :
    In t (compute_intersection mine (hash_set theirs s) s) <-> In t mine /\ In t theirs.
  Proof.
    split; [|intros [Hm Ht]; apply common_in_intersection; assumption].
    intros Hin. apply compute_intersection_In in Hin. destruct Hin as [Hm Hh].
    apply hash_set_In in Hh. destruct Hh as [t' [Ht E]]. apply H_inj in E. subst t'. auto.
  Qed.

  Definition put (m : list (N * N)) (n : node) : list (N * N) :=
    match ntransport topic n with
    | Some tr => bt_insert (nid topic n) tr m
    | None => m
    end.

  Lemma fold_put_In (ns : list node) acc e :
    In e (fold_left put ns acc) ->
    In e acc \/ exists n, In n ns /\ nid topic n = fst e /\ ntransport topic n = Some (snd e).
  Proof.
    revert acc; induction ns as [|n r IH]; intros acc Hin; cbn [fold_left] in Hin; [left; exact Hin|].
    destruct (IH _ Hin) as [Hacc|[n' [Hn' Hp]]].
    - unfold put in Hacc. destruct (ntransport topic n) as [tr|] eqn:E; [|left; exact Hacc].
      destruct (bt_insert_In _ _ _ _ Hacc) as [->|Hacc']; [|left; exact Hacc'].
      right. exists n. cbn [In fst snd]. auto.
    - right. exists n'. cbn [In]. tauto.
  Qed.

  Lemma fold_put_keys (ns : list node) acc k :
    In k (map fst acc) \/ (exists n tr, In n ns /\ nid topic n = k /\ ntransport topic n = Some tr) ->
    In k (map fst (fold_left put ns acc)).
  Proof.
    revert acc; induction ns as [|n0 r IH]; intros acc Hk; cbn [fold_left].
    - destruct Hk as [Hacc|[n [tr [[] _]]]]. exact Hacc.
    - apply IH. unfold put. destruct Hk as [Hacc|[n [tr [[->|Hin] [Hid Htr]]]]].
      + left. destruct (ntransport topic n0); [apply bt_insert_keys; right|]; exact Hacc.
      + left. rewrite Htr. apply bt_insert_keys. left. exact Hid.
      + right. exists n, tr. auto.
  Qed.

  Lemma assemble_fold (ns : list node) : assemble ns = fold_left put ns [].
  Proof. reflexivity. Qed.

  Lemma assemble_In (ns : list node) k v :
    In (k, v) (assemble ns) -> exists n, In n ns /\ nid topic n = k /\ ntransport topic n = Some v.
  Proof. rewrite assemble_fold. intros Hin. destruct (fold_put_In _ _ _ Hin) as [[]|Hn]. exact Hn. Qed.

  (* [exists v], not [tr]: two rows of a book may carry the same id, and the later one
     overwrites the earlier in [bt_insert]. *)
  Lemma assemble_complete (ns : list node) n tr :
    In n ns -> ntransport topic n = Some tr -> exists v, In (nid topic n, v) (assemble ns).
  Proof. rewrite assemble_fold. intros Hin Htr. apply in_keys, fold_put_keys. right. exists n, tr. auto. Qed.

  Lemma by_topics_In n ts b :
    In n (node_infos_by_topics topic teqb ts b) <->
    In n b /\ nstale topic n = false /\ shares_common n ts.
  Proof.
    unfold Psi.node_infos_by_topics, Psi.shares_common.
    rewrite filter_In, andb_true_iff, negb_true_iff, existsb_exists.
    split; intros [Hin [Hs [t [Ht Hm]]]]; apply mem_In in Hm; eauto 6.
  Qed.

  Lemma node_info_Some id b n : node_info topic id b = Some n -> In n b /\ nid topic n = id.
  Proof.
    intros Hf. apply find_some in Hf. destruct Hf as [Hin E]. apply N.eqb_eq in E. auto.
  Qed.

  Lemma selected_restricted_cases n me b common :
    In n (selected true me b common) ->
    In n (node_infos_by_topics topic teqb common b) \/ node_info topic me b = Some n.
  Proof.
    unfold Psi.selected. intros Hin.
    destruct (existsb _ (node_infos_by_topics topic teqb common b)); [left; exact Hin|].
    destruct (node_info topic me b) as [n0|]; [|left; exact Hin].
    apply in_app_iff in Hin. destruct Hin as [Hin|[<-|[]]]; [left; exact Hin|right; reflexivity].
  Qed.

  Lemma selected_restricted_In n me b common :
    In n (selected true me b common) ->
    In n b /\ (nid topic n = me \/ (nstale topic n = false /\ shares_common n common)).
  Proof.
    intros Hin. destruct (selected_restricted_cases _ _ _ _ Hin) as [Hby|Hme].
    - apply by_topics_In in Hby. destruct Hby as [Hb Hsc]. auto.
    - apply node_info_Some in Hme. destruct Hme as [Hb Hid]. auto.
  Qed.

  Lemma selected_restricted_by_topics n me b common :
    In n (node_infos_by_topics topic teqb common b) -> In n (selected true me b common).
  Proof.
    intros Hby. unfold Psi.selected.
    destruct (existsb _ (node_infos_by_topics topic teqb common b)); [exact Hby|].
    destruct (node_info topic me b); [apply in_app_iff; left|]; exact Hby.
  Qed.

  Lemma selected_unrestricted_In n me b common :
    In n (selected false me b common) <-> In n b /\ nstale topic n = false.
  Proof.
    unfold Psi.selected, Psi.all_node_infos. rewrite filter_In, negb_true_iff. reflexivity.
  Qed.

  Lemma gather_restricted_scope me b common id tr :
    In (id, tr) (gather true me b common) ->
    exists n, In n b /\ nid topic n = id /\ ntransport topic n = Some tr /\
              (id = me \/ (nstale topic n = false /\ shares_common n common)).
  Proof.
    intros Hin. apply assemble_In in Hin.
    destruct Hin as [n [Hsel [<- Htr]]]. apply selected_restricted_In in Hsel.
    destruct Hsel as [Hb Hsc]. exists n. auto.
  Qed.

  Lemma gather_unrestricted_scope me b common id tr :
    In (id, tr) (gather false me b common) ->
    exists n, In n b /\ nid topic n = id /\ ntransport topic n = Some tr /\ nstale topic n = false.
  Proof.
    intros Hin. apply assemble_In in Hin.
    destruct Hin as [n [Hsel [Hid Htr]]]. apply selected_unrestricted_In in Hsel.
    destruct Hsel as [Hb Hs]. exists n. auto.
  Qed.

  Lemma gather_restricted_complete me b common n tr :
    In n b -> nstale topic n = false -> shares_common n common -> ntransport topic n = Some tr ->
    exists v, In (nid topic n, v) (gather true me b common).
  Proof.
    intros Hin Hs Hc Htr. apply assemble_complete with (tr := tr); [|exact Htr].
    apply selected_restricted_by_topics, by_topics_In. tauto.
  Qed.

  (** "plus itself": the own entry is shared when the book's one row for the own id has
      transport info. *)
  Lemma gather_restricted_self me b common n tr :
    node_info topic me b = Some n -> ntransport topic n = Some tr ->
    (forall n', In n' b -> nid topic n' = me -> n' = n) ->
    exists v, In (me, v) (gather true me b common).
  Proof.
    intros Hme Htr Huniq. destruct (node_info_Some _ _ _ Hme) as [Hin <-].
    apply assemble_complete with (tr := tr); [|exact Htr]. unfold Psi.selected.
    destruct (existsb _ (node_infos_by_topics topic teqb common b)) eqn:E.
    - apply existsb_exists in E. destruct E as [n' [Hn' Hid']]. apply N.eqb_eq in Hid'.
      rewrite <- (Huniq n'); [exact Hn'| |exact Hid']. apply by_topics_In in Hn'. tauto.
    - rewrite Hme. apply in_app_iff. right. left. reflexivity.
  Qed.

  Lemma send_nodes_restricted (p : party) common id tr :
    p_restricted topic p = true ->
    In (id, tr) (infos_of (send_nodes p common)) -> in_scope_of p common id tr.
  Proof. cbn [Psi.infos_of Psi.send_nodes]. intros ->. apply gather_restricted_scope. Qed.

  Lemma in_scope_of_common (p other : party) common id tr :
    (forall t, In t common -> In t (p_topics topic p) /\ In t (p_topics topic other)) ->
    in_scope_of p common id tr -> in_scope p other id tr.
  Proof.
    intros Hc [n [Hb [Hid [Htr Hsc]]]]. exists n. repeat (split; [assumption|]).
    destruct Hsc as [E|[Hs [t [Ht Hin]]]]; [left; exact E|right].
    split; [exact Hs|]. exists t. split; [exact Ht|]. apply Hc. exact Hin.
  Qed.

  Definition asalt (sa sb : half) : salt half := combine_salt half sa sb ALICE_SALT_BYTE.
  Definition bsalt (sa sb : half) : salt half := combine_salt half sa sb BOB_SALT_BYTE.

  Definition m1 (sa : half) : msg := AliceSaltHalf sa.
  Definition m2 (pb : party) sa sb : msg := BobSaltHalfAndHashedData sb (hash_set (p_topics topic pb) (bsalt sa sb)).
  Definition m3 (pa : party) sa sb : msg := AliceHashedData (hash_set (p_topics topic pa) (asalt sa sb)).

  Definition alice_matched (p : party) sa sb hs := compute_intersection (p_topics topic p) hs (bsalt sa sb).
  Definition bob_matched (p : party) sa sb hs := compute_intersection (p_topics topic p) hs (asalt sa sb).

  Definition clean (m : msg) : Prop := forall t, raw t -> ~ occurs t m.

  Lemma clean_no_words m : words m = [] -> clean m.
  Proof. unfold clean, Psi.occurs. intros -> t _ []. Qed.

  Lemma clean_hashed m ts s : words m = hash_set ts s -> clean m.
  Proof.
    unfold clean, Psi.occurs. intros -> t Hraw Hin.
    apply dedup_incl, in_map_iff in Hin. destruct Hin as [t' [<- _]]. exact (H_not_raw _ _ Hraw).
  Qed.

  (* The six forms of a stream: closed, one of the four messages first, an error first; [l]
     is then what follows. *)
  Ltac destruct_rx l := destruct l as [|[[?|? ?|?|?]|] l].

  (** Whatever arrives, a side has sent a prefix of its messages, each computed from what the
      peer sent before, and finishes only after all of them.  The theorems below that do not
      speak of the stream itself are read off these shapes. *)
  Inductive alice_shape (p : party) (sa : half) : list msg * outcome topic -> Prop :=
  | alice_stop1 e : alice_shape p sa ([m1 sa], Fail e)
  | alice_stop2 sb e : alice_shape p sa ([m1 sa; m3 p sa sb], Fail e)
  | alice_done sb hs infos :
      alice_shape p sa
        ([m1 sa; m3 p sa sb; send_nodes p (alice_matched p sa sb hs)],
         Done {| res_remote := p_remote topic p; res_infos := infos; res_topics := alice_matched p sa sb hs |}).

  Inductive bob_shape (p : party) (sb : half) : list msg * outcome topic -> Prop :=
  | bob_stop0 e : bob_shape p sb ([], Fail e)
  | bob_stop1 sa e : bob_shape p sb ([m2 p sa sb], Fail e)
  | bob_stop2 sa hs e : bob_shape p sb ([m2 p sa sb; send_nodes p (bob_matched p sa sb hs)], Fail e)
  | bob_done sa hs infos :
      bob_shape p sb
        ([m2 p sa sb; send_nodes p (bob_matched p sa sb hs)],
         Done {| res_remote := p_remote topic p; res_infos := infos; res_topics := bob_matched p sa sb hs |}).

  Lemma alice_run_shape p sa inc : alice_shape p sa (alice_run p sa inc).
  Proof. destruct_rx inc; try apply alice_stop1. destruct_rx inc; constructor. Qed.

  Lemma bob_run_shape p sb inc : bob_shape p sb (bob_run p sb inc).
  Proof.
    destruct_rx inc; try apply bob_stop0. destruct_rx inc; try apply bob_stop1.
    destruct_rx inc; constructor.
  Qed.

  Theorem alice_never_sends_raw p sa inc m :
    In m (fst (alice_run p sa inc)) -> forall t, raw t -> ~ occurs t m.
  Proof.
    revert m. apply (proj1 (Forall_forall clean _)). destruct (alice_run_shape p sa inc); cbn [fst];
      repeat constructor; solve [apply clean_no_words; reflexivity|eapply clean_hashed; reflexivity].
  Qed.

  Theorem bob_never_sends_raw p sb inc m :
    In m (fst (bob_run p sb inc)) -> forall t, raw t -> ~ occurs t m.
  Proof.
    revert m. apply (proj1 (Forall_forall clean _)). destruct (bob_run_shape p sb inc); cbn [fst];
      repeat constructor; solve [apply clean_no_words; reflexivity|eapply clean_hashed; reflexivity].
  Qed.

  Theorem alice_result_within_own_topics p sa inc r :
    snd (alice_run p sa inc) = Done r -> forall t, In t (res_topics topic r) -> In t (p_topics topic p).
  Proof.
    destruct (alice_run_shape p sa inc); cbn [snd]; intros [= <-] t. apply compute_intersection_incl.
  Qed.

  Theorem bob_result_within_own_topics p sb inc r :
    snd (bob_run p sb inc) = Done r -> forall t, In t (res_topics topic r) -> In t (p_topics topic p).
  Proof.
    destruct (bob_run_shape p sb inc); cbn [snd]; intros [= <-] t. apply compute_intersection_incl.
  Qed.

  (** Under restricted sharing the node infos a side sends are limited to itself and
      non-stale nodes of a topic it reported as common (a subset of its own topics). *)
  Theorem alice_restricted_scope_any_peer p sa inc r :
    p_restricted topic p = true -> snd (alice_run p sa inc) = Done r ->
    forall m id tr, In m (fst (alice_run p sa inc)) -> In (id, tr) (infos_of m) ->
    in_scope_of p (res_topics topic r) id tr.
  Proof.
    intros Hr. destruct (alice_run_shape p sa inc); cbn [snd fst]; intros [= <-] m id tr Hm.
    destruct Hm as [<-|[<-|[<-|[]]]]; [intros [] ..|]. apply send_nodes_restricted, Hr.
  Qed.

  (* Bob may have sent his node infos without ever reaching a result: of the topics he took for
     common it is then only known that they are his own. *)
  Theorem bob_restricted_scope_any_peer p sb inc :
    p_restricted topic p = true ->
    forall m id tr, In m (fst (bob_run p sb inc)) -> In (id, tr) (infos_of m) ->
    exists common, (forall t, In t common -> In t (p_topics topic p)) /\ in_scope_of p common id tr.
  Proof.
    intros Hr m id tr Hm Hin.
    enough (exists sa hs, m = send_nodes p (bob_matched p sa sb hs)) as [sa [hs ->]].
    { exists (bob_matched p sa sb hs). split; [|apply send_nodes_restricted; assumption].
      intros t. apply compute_intersection_incl. }
    destruct (bob_run_shape p sb inc); cbn [fst] in Hm.
    - destruct Hm.
    - destruct Hm as [<-|[]]. destruct Hin.
    - destruct Hm as [<-|[<-|[]]]; [destruct Hin|eauto].
    - destruct Hm as [<-|[<-|[]]]; [destruct Hin|eauto].
  Qed.

  (** Success exactly when the expected kinds arrive in order; a message of another kind at
      any position is [UnexpectedMessage], a closed or failing stream is [StreamErr]; Alice has
      sent one message more than she accepted, Bob as many, at most two. *)
  Theorem alice_message_order p sa inc :
    outcome_err (snd (alice_run p sa inc)) = fst (expect (alice_expects) inc 0) /\
    length (fst (alice_run p sa inc)) = S (snd (expect (alice_expects) inc 0)).
  Proof.
    destruct_rx inc; try (split; reflexivity).
    destruct_rx inc; split; reflexivity.
  Qed.

  Theorem bob_message_order p sb inc :
    outcome_err (snd (bob_run p sb inc)) = fst (expect (bob_expects) inc 0) /\
    length (fst (bob_run p sb inc)) = Nat.min 2 (snd (expect (bob_expects) inc 0)).
  Proof.
    destruct_rx inc; try (split; reflexivity).
    destruct_rx inc; try (split; reflexivity).
    destruct_rx inc; split; reflexivity.
  Qed.

  (** Causality: what a side has sent after reading a prefix of its stream is a prefix of what
      it sends after reading more (so the ping-pong composition in [session] is the only run).
      Once the side has stopped or finished, what follows is not read ([later = []]); where
      [inc] ends, [more] continues a run that has sent the same messages so far. *)
  Theorem alice_sent_monotone p sa inc more :
    exists later, fst (alice_run p sa (inc ++ more)) = fst (alice_run p sa inc) ++ later.
  Proof.
    destruct_rx inc; try (exists []; reflexivity).
    - (* [inc = []] *)
      cbn [app]. destruct (alice_run_shape p sa more); eexists; reflexivity.
    - (* Bob's message first *)
      destruct_rx inc; try (exists []; reflexivity).
      (* and nothing after it *)
      destruct_rx more; eexists; reflexivity.
  Qed.

  Theorem bob_sent_monotone p sb inc more :
    exists later, fst (bob_run p sb (inc ++ more)) = fst (bob_run p sb inc) ++ later.
  Proof.
    destruct_rx inc; try (exists []; reflexivity).
    - (* [inc = []] *)
      eexists. reflexivity.
    - (* Alice's salt half first *)
      destruct_rx inc; try (exists []; reflexivity).
      + (* and nothing after it: two more items of [more] may be read *)
        destruct_rx more; try (eexists; reflexivity).
        destruct_rx more; eexists; reflexivity.
      + (* then her hashes *)
        destruct_rx inc; try (exists []; reflexivity).
        (* and nothing after them *)
        destruct_rx more; eexists; reflexivity.
  Qed.

  Theorem alice_sink_failure k p sa inc :
    alice_run_k topic half teqb H k p sa inc = with_sink topic half k (alice_run p sa inc).
  Proof.
    (* [k] is only ever compared with the number of messages sent so far *)
    destruct_rx inc; try (destruct k; reflexivity).
    destruct_rx inc; try (destruct k as [|[|k]]; reflexivity).
    destruct k as [|[|[|k]]]; reflexivity.
  Qed.

  Theorem bob_sink_failure k p sb inc :
    bob_run_k topic half teqb H k p sb inc = with_sink topic half k (bob_run p sb inc).
  Proof.
    destruct_rx inc; try reflexivity.
    destruct_rx inc; try (destruct k; reflexivity).
    destruct_rx inc; destruct k as [|[|k]]; reflexivity.
  Qed.

  Definition common_a (pa pb : party) sa sb := alice_matched pa sa sb (hash_set (p_topics topic pb) (bsalt sa sb)).
  Definition common_b (pa pb : party) sa sb := bob_matched pb sa sb (hash_set (p_topics topic pa) (asalt sa sb)).

  Lemma alice_sent_eq pa pb sa sb :
    alice_sent pa pb sa sb = [m1 sa; m3 pa sa sb; send_nodes pa (common_a pa pb sa sb)].
  Proof. reflexivity. Qed.

  Lemma bob_sent_eq pa pb sa sb :
    bob_sent pa pb sa sb = [m2 pb sa sb; send_nodes pb (common_b pa pb sa sb)].
  Proof. reflexivity. Qed.

  Lemma alice_outcome_eq pa pb sa sb :
    alice_outcome pa pb sa sb =
    Done {| res_remote := p_remote topic pa;
            res_infos := infos_of (send_nodes pb (common_b pa pb sa sb));
            res_topics := common_a pa pb sa sb |}.
  Proof. reflexivity. Qed.

  Lemma bob_outcome_eq pa pb sa sb :
    bob_outcome pa pb sa sb =
    Done {| res_remote := p_remote topic pb;
            res_infos := infos_of (send_nodes pa (common_a pa pb sa sb));
            res_topics := common_b pa pb sa sb |}.
  Proof. reflexivity. Qed.

  Lemma transcript_eq pa pb sa sb :
    transcript pa pb sa sb =
    [m1 sa; m2 pb sa sb; m3 pa sa sb; send_nodes pb (common_b pa pb sa sb); send_nodes pa (common_a pa pb sa sb)].
  Proof. reflexivity. Qed.

  Theorem session_closed pa pb sa sb :
    alice_run pa sa (rxs (bob_sent pa pb sa sb)) = (alice_sent pa pb sa sb, alice_outcome pa pb sa sb) /\
    bob_run pb sb (rxs (alice_sent pa pb sa sb)) = (bob_sent pa pb sa sb, bob_outcome pa pb sa sb).
  Proof. split; reflexivity. Qed.

  Lemma common_a_In pa pb sa sb t :
    In t (common_a pa pb sa sb) <-> In t (p_topics topic pa) /\ In t (p_topics topic pb).
  Proof. apply intersection_of_hashed. Qed.

  Lemma common_b_In pa pb sa sb t :
    In t (common_b pa pb sa sb) <-> In t (p_topics topic pa) /\ In t (p_topics topic pb).
  Proof. unfold common_b, bob_matched. rewrite intersection_of_hashed. tauto. Qed.

  Theorem both_get_intersection pa pb sa sb :
    exists ra rb,
      alice_outcome pa pb sa sb = Done ra /\ bob_outcome pa pb sa sb = Done rb /\
      (forall t, In t (res_topics topic ra) <-> In t (p_topics topic pa) /\ In t (p_topics topic pb)) /\
      (forall t, In t (res_topics topic rb) <-> In t (p_topics topic pa) /\ In t (p_topics topic pb)) /\
      NoDup (res_topics topic ra) /\ NoDup (res_topics topic rb).
  Proof.
    rewrite alice_outcome_eq, bob_outcome_eq.
    eexists. eexists. split; [reflexivity|]. split; [reflexivity|]. cbn [res_topics].
    split; [intros t; apply common_a_In|]. split; [intros t; apply common_b_In|].
    split; apply compute_intersection_NoDup.
  Qed.

  Theorem results_carry_peer_infos pa pb sa sb :
    exists ra rb,
      alice_outcome pa pb sa sb = Done ra /\ bob_outcome pa pb sa sb = Done rb /\
      In (Nodes (res_infos topic ra)) (bob_sent pa pb sa sb) /\
      In (Nodes (res_infos topic rb)) (alice_sent pa pb sa sb) /\
      res_remote topic ra = p_remote topic pa /\ res_remote topic rb = p_remote topic pb.
  Proof.
    rewrite alice_outcome_eq, bob_outcome_eq, alice_sent_eq, bob_sent_eq.
    eexists. eexists. split; [reflexivity|]. split; [reflexivity|]. cbn [res_infos res_remote].
    split; [right; left; reflexivity|]. split; [right; right; left; reflexivity|]. split; reflexivity.
  Qed.

  (** Every message of the session is one that Alice or Bob sends in reaction to some stream. *)
  Theorem no_raw_word_in_messages pa pb sa sb m :
    In m (transcript pa pb sa sb) -> forall t, raw t -> ~ occurs t m.
  Proof.
    intros Hm. apply interleave_In in Hm. destruct (session_closed pa pb sa sb) as [Ea Eb].
    destruct Hm as [Hm|Hm].
    - apply (alice_never_sends_raw pa sa (rxs (bob_sent pa pb sa sb))). rewrite Ea. exact Hm.
    - apply (bob_never_sends_raw pb sb (rxs (alice_sent pa pb sa sb))). rewrite Eb. exact Hm.
  Qed.

  Theorem no_raw_topic_in_messages pa pb sa sb :
    Forall raw (p_topics topic pa) -> Forall raw (p_topics topic pb) ->
    forall m, In m (transcript pa pb sa sb) ->
    forall t, In t (p_topics topic pa) \/ In t (p_topics topic pb) -> ~ occurs t m.
  Proof using teqb_spec H_not_raw.
    intros Ha Hb m Hm t Ht. apply (no_raw_word_in_messages pa pb sa sb m Hm).
    rewrite Forall_forall in Ha, Hb. destruct Ht; auto.
  Qed.

  Theorem restricted_sharing_scope pa pb sa sb :
    (p_restricted topic pa = true ->
     forall m id tr, In m (alice_sent pa pb sa sb) -> In (id, tr) (infos_of m) -> in_scope pa pb id tr) /\
    (p_restricted topic pb = true ->
     forall m id tr, In m (bob_sent pa pb sa sb) -> In (id, tr) (infos_of m) -> in_scope pb pa id tr).
  Proof.
    rewrite alice_sent_eq, bob_sent_eq. split; intros Hr m id tr Hm.
    - destruct Hm as [<-|[<-|[<-|[]]]]; [intros [] ..|]. intros Hin.
      apply in_scope_of_common with (common := common_a pa pb sa sb); [apply common_a_In|].
      apply send_nodes_restricted; assumption.
    - destruct Hm as [<-|[<-|[]]]; [intros []|]. intros Hin.
      apply in_scope_of_common with (common := common_b pa pb sa sb).
      + intros t Ht. apply common_b_In in Ht. tauto.
      + apply send_nodes_restricted; assumption.
  Qed.

  (** Without the restriction everything non-stale (with transport info) is shared, nothing else. *)
  Theorem unrestricted_sharing_scope pa pb sa sb :
    p_restricted topic pa = false ->
    forall m id tr, In m (alice_sent pa pb sa sb) -> In (id, tr) (infos_of m) ->
    exists n, In n (p_book topic pa) /\ nid topic n = id /\ ntransport topic n = Some tr /\ nstale topic n = false.
  Proof.
    rewrite alice_sent_eq. intros Hr m id tr [<-|[<-|[<-|[]]]]; [intros [] ..|].
    cbn [Psi.infos_of Psi.send_nodes]. rewrite Hr. apply gather_unrestricted_scope.
  Qed.

  Theorem restricted_sharing_complete pa pb sa sb n tr :
    p_restricted topic pa = true ->
    In n (p_book topic pa) -> nstale topic n = false -> ntransport topic n = Some tr ->
    (exists t, In t (ntopics topic n) /\ In t (p_topics topic pa) /\ In t (p_topics topic pb)) ->
    exists m v, In m (alice_sent pa pb sa sb) /\ In (nid topic n, v) (infos_of m).
  Proof.
    intros Hr Hin Hs Htr [t [Ht Hc]].
    rewrite alice_sent_eq.
    destruct (gather_restricted_complete (p_me topic pa) (p_book topic pa) (common_a pa pb sa sb) n tr Hin Hs) as [v Hv].
    - exists t. split; [exact Ht|]. apply common_in_intersection; apply Hc.
    - exact Htr.
    - exists (send_nodes pa (common_a pa pb sa sb)), v. split; [right; right; left; reflexivity|].
      cbn [Psi.infos_of Psi.send_nodes]. rewrite Hr. exact Hv.
  Qed.
End PsiProofs.
