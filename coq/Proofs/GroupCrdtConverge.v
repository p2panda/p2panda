(** C31, last part: accepted sets, heads, current state and the queries of two replicas that
    processed one operation set in two causal orders coincide; the refutation with conditions;
    soundness of the oracle. *)
From Coq Require Import List NArith Bool Permutation.
From PV Require Import Lib.ListFacts Lib.AListC31 Model.GroupCrdt Proofs.GroupCrdt Proofs.GroupCrdtRun
     Proofs.GroupCrdtMembers Oracle.C31.
Import ListNotations.

Lemma memN_in x l : memN x l = true <-> In x l.
Proof.
  unfold memN. split; intros H.
  - apply existsb_exists in H. destruct H as [y [Hy E]]. apply N.eqb_eq in E. subst. exact Hy.
  - apply existsb_exists. exists x. split; [exact H|apply N.eqb_refl].
Qed.

Lemma in_heads i ops :
  In i (heads_of ops) <->
  exists o, In o ops /\ oid o = i /\ forall o', In o' ops -> ~ In i (deps o').
Proof.
  unfold heads_of. split.
  - intros H. apply in_map_iff in H. destruct H as [o [E Ho]]. apply filter_In in Ho. destruct Ho as [Ho Hf].
    exists o. split; [exact Ho|]. split; [exact E|]. intros o' Ho' Hd.
    rewrite (proj2 (existsb_exists _ _)) in Hf; [discriminate|].
    exists o'. split; [exact Ho'|]. apply memN_in. rewrite E. exact Hd.
  - intros [o [Ho [E Hn]]]. apply in_map_iff. exists o. split; [exact E|]. apply filter_In. split; [exact Ho|].
    destruct (existsb (fun o' => memN (oid o) (deps o')) ops) eqn:X; [|reflexivity].
    apply existsb_exists in X. destruct X as [o' [Ho' Hm]].
    destruct (Hn o' Ho'). rewrite <- E. apply memN_in. exact Hm.
Qed.

Lemma heads_nodup ops : NoDup (ids ops) -> NoDup (heads_of ops).
Proof. apply NoDup_map_filter. Qed.

Lemma heads_incl ops : incl (heads_of ops) (ids ops).
Proof.
  intros i Hi. apply in_heads in Hi. destruct Hi as [o [Ho [E _]]]. rewrite <- E. apply in_map. exact Ho.
Qed.

Lemma heads_sub a b i : same_ops a b -> In i (heads_of a) -> In i (heads_of b).
Proof.
  intros HS Hi. apply in_heads in Hi. destruct Hi as [o [Ho [E Hn]]].
  destruct (proj1 HS o Ho) as [o' [Ho' Hsim]]. apply in_heads. exists o'. repeat split.
  - exact Ho'.
  - rewrite <- (proj1 Hsim). exact E.
  - intros q' Hq' Hd. destruct (proj2 HS q' Hq') as [q [Hq Hsq]].
    apply (Hn q Hq). eapply Permutation_in; [apply Permutation_sym; apply Hsq|exact Hd].
Qed.

Lemma heads_perm a b :
  NoDup (ids a) -> NoDup (ids b) -> same_ops a b -> Permutation (heads_of a) (heads_of b).
Proof.
  intros Na Nb HS. apply NoDup_Permutation; try (apply heads_nodup; assumption).
  intros i. split; [apply heads_sub; exact HS|apply heads_sub; apply same_ops_sym; exact HS].
Qed.

Lemma accepted_sub la lb : good la -> good lb -> same_ops la lb ->
  forall o, In o (r_ops (run la)) -> exists o', In o' (r_ops (run lb)) /\ op_sim o o'.
Proof.
  intros Ga Gb Hab o Ho.
  rewrite (r_ops_filter la (g_nodup _ Ga)) in Ho. apply filter_In in Ho. destruct Ho as [Ho Hs].
  destruct (proj1 Hab o Ho) as [o' [Ho' Hsim]]. exists o'. split; [|exact Hsim].
  rewrite (r_ops_filter lb (g_nodup _ Gb)). apply filter_In. split; [exact Ho'|].
  rewrite <- (proj1 Hsim), <- Hs. symmetry. apply oeq_is_some.
  apply state_fn_of_history; assumption.
Qed.

Lemma accepted_nodup l : good l -> NoDup (ids (r_ops (run l))).
Proof. intros G. rewrite (r_ops_filter l (g_nodup _ G)). apply NoDup_map_filter. apply (g_nodup _ G). Qed.

Lemma current_ok l : good l -> wf (current (run l)) /\ gnc (current (run l)).
Proof.
  intros G. unfold current, current_of.
  destruct (state_at (r_sts (run l)) (heads_of (r_ops (run l)))) as [s|] eqn:E.
  - exact (state_at_ok _ _ s (run_ok l (g_nc _ G)) E).
  - split; [apply wf_nil|apply gnc_nil].
Qed.

Section Converge.
  Variables l1 l2 : list op.
  Hypothesis G1 : good l1.
  Hypothesis G2 : good l2.
  Hypothesis HS : same_ops l1 l2.

  Let y1 := run l1.
  Let y2 := run l2.

  Lemma accepted_same : same_ops (r_ops y1) (r_ops y2).
  Proof. apply same_ops_halves; apply accepted_sub; auto using same_ops_sym. Qed.

  Lemma current_geq : geq (current y1) (current y2).
  Proof.
    unfold current, current_of.
    assert (HP : Permutation (heads_of (r_ops y1)) (heads_of (r_ops y2))).
    { apply heads_perm; [apply accepted_nodup; exact G1|apply accepted_nodup; exact G2|apply accepted_same]. }
    pose proof (state_at_cong (r_sts y1) (r_sts y2) _ _ HP
                  (fun d _ => state_fn_of_history l1 l2 G1 G2 HS d)
                  (run_ok l1 (g_nc _ G1)) (run_ok l2 (g_nc _ G2))) as H.
    destruct (state_at (r_sts y1) (heads_of (r_ops y1))), (state_at (r_sts y2) (heads_of (r_ops y2)));
      try destruct H; [exact H|apply geq_refl].
  Qed.

  Theorem converge :
    (forall i, oeq (sget i (r_sts y1)) (sget i (r_sts y2))) /\
    same_ops (r_ops y1) (r_ops y2) /\
    (forall g m, mlookup m (members y1 g) = mlookup m (members y2 g)) /\
    (forall g, Permutation (root_members y1 g) (root_members y2 g)).
  Proof.
    destruct (current_ok l1 G1) as [W1 N1]. destruct (current_ok l2 G2) as [W2 _].
    repeat split.
    - apply state_fn_of_history; assumption.
    - apply (proj1 accepted_same).
    - apply (proj2 accepted_same).
    - intros g m. unfold members. apply members_query_deterministic; try assumption. apply current_geq.
    - intros g. unfold root_members. apply entries_perm; try assumption. apply current_geq.
  Qed.
End Converge.

(** Any two causal processing orders (dependency sets iterated in any order) of one set of
    condition-free operations: same per-operation states, same accepted operations, same
    members and root members for every group.  "No rebuild": [step] takes the stored
    per-operation states where [validate] rebuilds the state at the dependencies from a pruned
    graph, which is the same while the StrongRemove filter is empty (see Model/GroupCrdt.v). *)
Theorem converge_no_rebuild l1 l2 :
  good l1 -> good l2 -> same_ops l1 l2 ->
  (forall i, oeq (sget i (r_sts (run l1))) (sget i (r_sts (run l2)))) /\
  same_ops (r_ops (run l1)) (r_ops (run l2)) /\
  (forall g m, mlookup m (members (run l1) g) = mlookup m (members (run l2) g)) /\
  (forall g, Permutation (root_members (run l1) g) (root_members (run l2) g)).
Proof. intros G1 G2 HS. exact (converge l1 l2 G1 G2 HS). Qed.

Lemma same_ops_matching l1 l2 l2' : Forall2 op_sim l1 l2' -> Permutation l2' l2 -> same_ops l1 l2.
Proof.
  intros HF HP.
  assert (H : same_ops l1 l2').
  { clear HP. induction HF as [|x y r r' Hxy _ [IH1 IH2]]; [split; intros o []|]. split.
    - intros o [<-|Ho]; [exists y; split; [left; reflexivity|exact Hxy]|].
      destruct (IH1 o Ho) as [o' [Hi Hs]]. exists o'. split; [right; exact Hi|exact Hs].
    - intros o' [<-|Ho']; [exists x; split; [left; reflexivity|exact Hxy]|].
      destruct (IH2 o' Ho') as [o [Hi Hs]]. exists o. split; [right; exact Hi|exact Hs]. }
  destruct H as [H1 H2]. split.
  - intros o Ho. destruct (H1 o Ho) as [o' [Hi Hs]]. exists o'. split; [exact (Permutation_in _ HP Hi)|exact Hs].
  - intros o' Ho'. apply H2. exact (Permutation_in _ (Permutation_sym HP) Ho').
Qed.

Fixpoint causal_b (pre : list N) (l : list op) : bool :=
  match l with
  | [] => true
  | o :: r => forallb (fun d => memN d pre) (deps o) && causal_b (pre ++ [oid o]) r
  end.

Lemma causal_check l : causal_b [] l = true -> causal l.
Proof.
  assert (Gen : forall l0 pre0, causal_b pre0 l0 = true ->
    forall pre o post, l0 = pre ++ o :: post -> incl (deps o) (pre0 ++ ids pre)).
  { clear l. induction l0 as [|x r IH]; intros pre0 H pre o post E.
    - exfalso. exact (app_cons_not_nil _ _ _ E).
    - cbn [causal_b] in H. apply andb_true_iff in H. destruct H as [Hx Hr].
      destruct pre as [|p pre'].
      + injection E as -> ->. cbn [ids map]. rewrite app_nil_r.
        intros d Hd. apply memN_in. exact (proj1 (forallb_forall _ _) Hx d Hd).
      + injection E as -> ->.
        specialize (IH _ Hr pre' o post eq_refl). cbn [ids map]. rewrite <- app_assoc in IH. exact IH. }
  intros H pre o post E. exact (Gen l [] H pre o post E).
Qed.

Lemma nodup_causal_check l :
  nodupb N.eqb (ids l) && causal_b [] l = true -> NoDup (ids l) /\ causal l.
Proof.
  intros H. apply andb_prop in H. destruct H as [Hn Hc].
  split; [apply (nodupb_sound N.eqb N.eqb_spec); exact Hn|apply causal_check; exact Hc].
Qed.

(** The hypotheses are satisfiable by a history with real concurrency: two managers act
    concurrently on one group (a promotion and an add), a third operation joins both branches. *)
Definition ex_a (l : level) : access := {| cond := None; lvl := l |}.
Definition ex_o0 : op :=
  {| oid := 0; author := 0; group := 100;
     act := Create [((false, 0), ex_a Manage); ((false, 1), ex_a Manage); ((false, 2), ex_a Read)]; deps := [] |}%N.
Definition ex_o1 : op := {| oid := 1; author := 0; group := 100; act := Promote (false, 2) (ex_a Write); deps := [0] |}%N.
Definition ex_o2 : op := {| oid := 2; author := 1; group := 100; act := Add (false, 3) (ex_a Pull); deps := [0] |}%N.
Definition ex_o3 : op := {| oid := 3; author := 1; group := 100; act := Demote (false, 2) (ex_a Pull); deps := [1; 2] |}%N.
Definition ex_o3' : op := {| oid := 3; author := 1; group := 100; act := Demote (false, 2) (ex_a Pull); deps := [2; 1] |}%N.
Definition ex_ops : list op := [ex_o0; ex_o1; ex_o2; ex_o3].
Definition ex_ops' : list op := [ex_o0; ex_o2; ex_o1; ex_o3'].

Example converge_hyps_satisfiable :
  good ex_ops /\ good ex_ops' /\ same_ops ex_ops ex_ops' /\
  r_ops (run ex_ops) = ex_ops /\
  mlookup (false, 2%N) (members (run ex_ops) 100%N) = Some (ex_a Pull).
Proof.
  destruct (nodup_causal_check ex_ops eq_refl) as [N1 C1].
  destruct (nodup_causal_check ex_ops' eq_refl) as [N2 C2].
  refine (conj (Build_good _ N1 C1 _) (conj (Build_good _ N2 C2 _) (conj _ (conj eq_refl eq_refl)))).
  - repeat constructor.
  - repeat constructor.
  - apply (same_ops_matching _ _ [ex_o0; ex_o1; ex_o2; ex_o3']).
    + repeat constructor.
    + apply perm_skip, perm_swap.
Qed.

(** With access conditions the property fails on the model of the code as it is. *)
Definition cx_o0 : op :=
  {| oid := 0; author := 0; group := 100;
     act := Create [((false, 0), ex_a Manage); ((false, 1), ex_a Read)]; deps := [] |}%N.
Definition cx_o1 : op :=
  {| oid := 1; author := 0; group := 100; act := Promote (false, 1) (ex_a Write); deps := [0] |}%N.
Definition cx_o2 : op :=
  {| oid := 2; author := 0; group := 100;
     act := Promote (false, 1) {| cond := Some 1; lvl := Write |}; deps := [0] |}%N.
Definition cx_ops : list op := [cx_o0; cx_o1; cx_o2].
Definition cx_ops' : list op := [cx_o0; cx_o2; cx_o1].

(** [good] without [g_nc], the no-conditions clause. *)
Definition good_cond (l : list op) : Prop := NoDup (ids l) /\ causal l.

Theorem refuted_conditions :
  exists l1 l2 g m,
    good_cond l1 /\ good_cond l2 /\ same_ops l1 l2 /\
    mlookup m (members (run l1) g) <> mlookup m (members (run l2) g).
Proof.
  exists cx_ops, cx_ops', 100%N, (false, 1%N).
  split; [exact (nodup_causal_check cx_ops eq_refl)|].
  split; [exact (nodup_causal_check cx_ops' eq_refl)|]. split.
  - apply (same_ops_matching _ _ cx_ops).
    + repeat constructor.
    + apply perm_skip, perm_swap.
  - vm_compute. discriminate.
Qed.

(** A single replica, one state, two iteration orders of the same map: the answer of
    [members] differs (repeated queries need not agree). *)
Theorem refuted_conditions_query :
  exists cs cs' g m,
    wf cs /\ wf cs' /\ geq cs cs' /\
    mlookup m (members_cs cs g) <> mlookup m (members_cs cs' g).
Proof.
  pose (a := {| cond := None; lvl := Write |}).
  pose (b := {| cond := Some 1%N; lvl := Write |}).
  pose (cs := [((100, (false, 1)), {| mc := 1; acc := a; ac := 0 |});
               ((100, (true, 101)), {| mc := 1; acc := a; ac := 0 |});
               ((101, (false, 1)), {| mc := 1; acc := b; ac := 0 |})]%N).
  assert (W : wf cs) by (apply wf_check; reflexivity).
  exists cs, (rev cs), 100%N, (false, 1%N). repeat split.
  - exact W.
  - apply wf_check. reflexivity.
  - apply geq_rev. exact W.
  - vm_compute. discriminate.
Qed.

Lemma check_sound answers :
  check answers = true -> forall a b, In a answers -> In b answers -> a = b.
Proof.
  unfold check. destruct answers as [|x r]; [discriminate|].
  intros H. rewrite forallb_forall in H.
  assert (E : forall a, In a (x :: r) -> a = x).
  { intros a [<-|Ha]; [reflexivity|]. symmetry. apply String.eqb_eq. apply H. exact Ha. }
  intros a b Ha Hb. rewrite (E a Ha), (E b Hb). reflexivity.
Qed.

(** The class of histories the finding ([refuted_conditions]) lies in. *)
Definition has_conditions (l : list op) : Prop := ~ Forall op_nc l.

Lemma nc_dec a : {nc a} + {~ nc a}.
Proof. unfold nc. destruct (cond a); [right; discriminate|left; reflexivity]. Qed.

Lemma op_nc_dec o : {op_nc o} + {~ op_nc o}.
Proof.
  unfold op_nc. destruct (act o) as [init|m a|m|m a|m a]; try apply nc_dec; [|left; exact I].
  apply Forall_dec. intros e. apply nc_dec.
Qed.

Theorem converge_outside_known l1 l2 :
  good_cond l1 -> good_cond l2 -> same_ops l1 l2 ->
  ~ has_conditions l1 -> ~ has_conditions l2 ->
  (forall g m, mlookup m (members (run l1) g) = mlookup m (members (run l2) g)) /\
  (forall g, Permutation (root_members (run l1) g) (root_members (run l2) g)).
Proof.
  intros [N1 C1] [N2 C2] HS K1 K2.
  assert (F1 : Forall op_nc l1).
  { destruct (Forall_dec op_nc op_nc_dec l1) as [F|F]; [exact F|exfalso; apply K1; exact F]. }
  assert (F2 : Forall op_nc l2).
  { destruct (Forall_dec op_nc op_nc_dec l2) as [F|F]; [exact F|exfalso; apply K2; exact F]. }
  destruct (converge_no_rebuild l1 l2 (Build_good _ N1 C1 F1) (Build_good _ N2 C2 F2) HS) as (_ & _ & M & Rm).
  split; assumption.
Qed.
