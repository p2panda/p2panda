(** Top-level statements about the joint system, assembled from the invariants. *)
From Coq Require Import List Arith NArith Bool Lia.
From PV Require Import Model.LogSync Proofs.LogSyncC20 Proofs.LogSyncJoint Proofs.LogSyncLive
  Proofs.LogSyncTerm Proofs.LogSyncRecv.
Import ListNotations.

Theorem no_reachable_deadlock rA rB logsA logsB cbuf cap ls y :
  safe rA rB logsA logsB cbuf ->
  exec true cbuf rA rB (sys0 logsA logsB cap) ls = Some y ->
  deadlocked true cbuf rA rB y = false.
Proof.
  intros Safe E. apply (deadlock_free rA rB logsA logsB cbuf y); [| |exact Safe].
  - exact (J_reachable rA rB logsA logsB cbuf cap ls y E).
  - exact (B2_exec rA rB cbuf ls _ _ (B2_init logsA logsB cap) E).
Qed.

(** Every run is finite, with a bound that depends on the two replicas only. *)
Theorem run_length_bounded rA rB logsA logsB cbuf cap ls y :
  exec true cbuf rA rB (sys0 logsA logsB cap) ls = Some y ->
  length ls <= measure rA rB logsA logsB (sys0 logsA logsB cap).
Proof.
  intros E. pose proof (runs_bounded rA rB logsA logsB cbuf ls _ _ (J_init rA rB logsA logsB cbuf cap) E). lia.
Qed.

(** Over a safe transport a run can always be extended until the session is finished on both
    sides, and it cannot be extended for ever. *)
Theorem progress rA rB logsA logsB cbuf cap ls y :
  safe rA rB logsA logsB cbuf ->
  exec true cbuf rA rB (sys0 logsA logsB cap) ls = Some y ->
  (finished y = true \/ exists l, enabled true cbuf rA rB y l = true) /\
  length ls <= measure rA rB logsA logsB (sys0 logsA logsB cap).
Proof.
  intros Safe E. split; [|exact (run_length_bounded rA rB logsA logsB cbuf cap ls y E)].
  exact (not_deadlocked _ _ _ _ _ (no_reachable_deadlock rA rB logsA logsB cbuf cap ls y Safe E)).
Qed.

Theorem termination_unbounded rA rB logsA logsB cap ls y :
  exec true None rA rB (sys0 logsA logsB cap) ls = Some y ->
  (finished y = true \/ exists l, enabled true None rA rB y l = true) /\
  length ls <= measure rA rB logsA logsB (sys0 logsA logsB cap).
Proof. exact (progress rA rB logsA logsB None cap ls y I). Qed.

Theorem progress_bounded rA rB logsA logsB c cap ls y :
  1 <= c ->
  msgs (scA rA rB logsA logsB) <= c \/ msgs (scB rA rB logsA logsB) <= c ->
  exec true (Some c) rA rB (sys0 logsA logsB cap) ls = Some y ->
  (finished y = true \/ exists l, enabled true (Some c) rA rB y l = true) /\
  length ls <= measure rA rB logsA logsB (sys0 logsA logsB cap).
Proof. intros C1 M. exact (progress rA rB logsA logsB (Some c) cap ls y (conj C1 M)). Qed.

(** Non-vacuity: a concrete pair of replicas, a complete run, both sides finished. *)
Definition ex_rB : replica := [((0, 0), [mkrow 0 100 500]); ((1, 0), [mkrow 0 200 300; mkrow 1 201 300])]%N.
Definition ex_logs2 : list (N * list N) := [(0, [0]); (1, [0])]%N.
Definition ex_fair : list label := [LDelivA; LDelivB; LPushA; LPushB; LTickA; LTickB].

Example joint_example :
  let y := sim 200 true None ex_r ex_rB ex_fair (sys0 ex_logs2 ex_logs2 8) in
  finished y = true /\
  NoDup (ids (scA ex_r ex_rB ex_logs2 ex_logs2) ++ ids (scB ex_r ex_rB ex_logs2 ex_logs2)) /\
  ev_ops (n_hist (sa y)) = [(1, 0, mkrow 0 200 300); (1, 0, mkrow 1 201 300)]%N /\
  ev_ops (n_hist (sb y)) = [(0, 0, mkrow 1 101 500)]%N.
Proof.
  cbn zeta. split; [vm_compute; reflexivity|]. split.
  - vm_compute. repeat constructor; cbn; intuition discriminate.
  - vm_compute. split; reflexivity.
Qed.

(** Non-vacuity of [progress_bounded]: with [c = 3] both example scripts fit (2 and 3 sync-phase
    messages) and the adversarial scheduler ends finished; with [c = 1] neither fits and the same
    scheduler ends in a deadlock (the boundary of the known finding). *)
Definition ex_adversary : list label := [LPushA; LPushB; LTickA; LTickB; LDelivA; LDelivB].

Example progress_example :
  msgs (scA ex_r ex_rB ex_logs2 ex_logs2) = 2 /\ msgs (scB ex_r ex_rB ex_logs2 ex_logs2) = 3 /\
  finished (sim 300 true (Some 3) ex_r ex_rB ex_adversary (sys0 ex_logs2 ex_logs2 8)) = true /\
  deadlocked true (Some 1) ex_r ex_rB (sim 300 true (Some 1) ex_r ex_rB ex_adversary (sys0 ex_logs2 ex_logs2 8)) = true.
Proof. vm_compute. repeat split. Qed.
