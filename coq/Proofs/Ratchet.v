(** The decryption ratchet (C34).  One invariant, [Inv], ties a state to the head generation and
    the list of generations handed out; each of the four ways through [secret_for_decryption]
    has its lemma; the theorems are inductions over the request list. *)
From Coq Require Import List NArith Bool Lia.
From PV Require Import Lib.NList Model.Ratchet.
Import ListNotations.
Local Open Scope N_scope.

Lemma memN_In x l : memN x l = true <-> In x l.
Proof.
  unfold memN. rewrite existsb_exists. split.
  - intros (y & HI & E). apply N.eqb_eq in E. now subst.
  - intros HI. exists x. split; [exact HI|apply N.eqb_refl].
Qed.

Lemma memN_below U h g : (forall g', In g' U -> g' < h) -> h <= g -> memN g U = false.
Proof.
  intros Hu Hg. destruct (memN g U) eqn:E; [|reflexivity]. apply memN_In, Hu in E. lia.
Qed.

Lemma head_forward h g : h <= g -> N.max h (g + 1) = g + 1.
Proof. lia. Qed.

Lemma head_backward h g : g < h -> N.max h (g + 1) = h.
Proof. lia. Qed.

Lemma spec_run_cons b st r rest :
  snd (spec_run b st (r :: rest)) =
  snd (spec_step b st r) :: snd (spec_run b (fst (spec_step b st r)) rest).
Proof.
  cbn [spec_run]. destruct (spec_step b st r) as [st1 c]. cbn [fst snd].
  now destruct (spec_run b st1 rest).
Qed.

Section RatchetProofs.
  Variables (S K : Type).
  Variable chain : S -> S.
  Variable km : S -> K.
  Variable s0 : S.

  Notation rs := (rs S).
  Notation ds := (ds S K).
  Notation ratchet_forward := (ratchet_forward S K chain km).
  Notation push1 := (push1 S K chain km).
  Notation sfd := (secret_for_decryption S K chain km).
  Notation run := (run S K chain km).
  Notation sender := (sender S K chain km).

  Definition sec (n : N) : S := N.iter n chain s0.

  Lemma sec_succ n : sec (n + 1) = chain (sec n).
  Proof. unfold sec. rewrite N.add_1_r. apply N.iter_succ. Qed.

  Lemma rf_at h :
    ratchet_forward (rs_at h (sec h)) =
    if h =? U32MAX then None else Some (rs_at (h + 1) (sec (h + 1)), h, km (sec h)).
  Proof. unfold Ratchet.ratchet_forward. cbn [rs_at r_gen r_secret]. now rewrite sec_succ. Qed.

  Lemma run_cons y g fwd ooo r :
    snd (run y ((g, fwd, ooo) :: r)) =
    snd (sfd y g fwd ooo) :: snd (run (fst (sfd y g fwd ooo)) r).
  Proof.
    cbn [Ratchet.run]. destruct (sfd y g fwd ooo) as [y1 o]. cbn [fst snd].
    now destruct (run y1 r).
  Qed.

  (** [U] is the list of generations handed out so far.  The window entry of generation [g] is
      its key until [g] is handed out and [None] from then on; position [i] of a window below
      head [h] belongs to generation [h - 1 - i], which is never below the base [b]. *)
  Definition slot (U : list N) (g : N) : option K :=
    if memN g U then None else Some (km (sec g)).

  Definition slots (b : N) (U : list N) (h : N) (l : list (option K)) : Prop :=
    forall i o, nthN l i = Some o -> exists g, h = g + i + 1 /\ b <= g /\ o = slot U g.

  Lemma slot_used U g g' : slot (g :: U) g' = if g' =? g then None else slot U g'.
  Proof. unfold slot, memN. cbn [existsb]. now destruct (g' =? g). Qed.

  Lemma slots_nth b U h l g o :
    slots b U h l -> g < h -> nthN l (h - g - 1) = Some o -> b <= g /\ o = slot U g.
  Proof.
    intros H Hg E. destruct (H _ _ E) as (g' & Eh & Hb & ->).
    replace g' with g in * by lia. auto.
  Qed.

  Lemma slots_cons b U h l o :
    slots b U h l -> b <= h -> o = slot U h -> slots b U (h + 1) (o :: l).
  Proof.
    intros H Hb -> i o' E. destruct (N.eq_dec i 0) as [->|Hi].
    - injection E as <-. exists h. split; [lia|auto].
    - rewrite nthN_cons_pos in E by lia.
      destruct (H _ _ E) as (g & -> & Hg & ->). exists g. split; [lia|auto].
  Qed.

  Lemma slots_len b U h l : slots b U h l -> b <= h -> lenN l + b <= h.
  Proof.
    intros H Hb. destruct (N.eq_dec (lenN l) 0) as [E|E]; [lia|].
    destruct (nthN_lt_some l (lenN l - 1)) as [o Eo]; [lia|].
    destruct (H _ _ Eo) as (g & -> & Hg & _). lia.
  Qed.

  Lemma slots_truncN b U h l m : slots b U h l -> slots b U h (truncN m l).
  Proof. intros H i o E. exact (H i o (nthN_truncN _ _ _ _ E)). Qed.

  Lemma slots_used_above b U h l g : slots b U h l -> h <= g -> slots b (g :: U) h l.
  Proof.
    intros H Hg i o E. destruct (H _ _ E) as (g' & -> & Hb & ->). exists g'.
    rewrite slot_used. destruct (N.eqb_spec g' g); [lia|auto].
  Qed.

  Lemma slots_used_at b U h l g i :
    slots b U h l -> h = g + i + 1 -> i < lenN l -> slots b (g :: U) h (setN l i None).
  Proof.
    intros H -> L j o E. destruct (N.eq_dec i j) as [<-|Hj].
    - rewrite nthN_setN_same in E by exact L. injection E as <-.
      destruct (nthN_lt_some l i L) as [o E]. destruct (H _ _ E) as (g' & Eg & Hb & _).
      exists g. rewrite slot_used, N.eqb_refl. split; [reflexivity|]. split; [lia|reflexivity].
    - rewrite nthN_setN_other in E by exact Hj.
      destruct (H _ _ E) as (g' & Eg & Hb & ->). exists g'.
      rewrite slot_used. destruct (N.eqb_spec g' g); [lia|auto].
  Qed.

  (** Holds for arbitrary (even changing) window parameters.  [NoDup U] is carried along for
      [at_most_once] alone. *)
  Definition Inv (b h : N) (U : list N) (y : ds) : Prop :=
    head y = rs_at h (sec h) /\
    b <= h /\
    slots b U h (past y) /\
    (forall g, In g U -> g < h) /\
    NoDup U.

  Lemma Inv_init b : Inv b b [] (ds_at b (sec b)).
  Proof.
    split; [reflexivity|]. split; [lia|]. split; [intros i o E; discriminate|].
    split; [intros g []|constructor].
  Qed.

  Lemma Inv_gen b h U y : Inv b h U y -> r_gen (head y) = h.
  Proof. intros [Hh _]. now rewrite Hh. Qed.

  Lemma push1_inv b h U y :
    Inv b h U y ->
    match push1 (Some y) with
    | Some y' => Inv b (h + 1) U y' /\ lenN (past y') = lenN (past y) + 1
    | None => h = U32MAX
    end.
  Proof.
    intros (Hh & Hb & Hs & Hu & Hn). cbn [Ratchet.push1]. rewrite Hh, rf_at.
    destruct (N.eqb_spec h U32MAX) as [E|_]; [exact E|].
    cbn [past head]. split; [|rewrite lenN_cons; lia].
    split; [reflexivity|]. split; [lia|]. split.
    - apply slots_cons; [exact Hs|exact Hb|]. unfold slot. now rewrite (memN_below U h h Hu).
    - split; [|exact Hn]. intros g HI. apply Hu in HI. lia.
  Qed.

  Lemma iter_push1 b h U y n :
    Inv b h U y ->
    match N.iter n push1 (Some y) with
    | Some y' => Inv b (h + n) U y' /\ lenN (past y') = lenN (past y) + n
    | None => U32MAX < h + n
    end.
  Proof.
    intros HI. induction n as [|n IH] using N.peano_ind.
    - cbn [N.iter]. now rewrite !N.add_0_r.
    - rewrite N.iter_succ. destruct (N.iter n push1 (Some y)) as [y1|]; [|cbn [Ratchet.push1]; lia].
      destruct IH as [I1 L1]. pose proof (push1_inv _ _ _ _ I1) as H1.
      destruct (push1 (Some y1)) as [y2|]; [|lia].
      rewrite <- N.add_1_r, N.add_assoc. split; [apply H1|]. destruct H1 as [_ ->]. lia.
  Qed.

  Lemma sfd_too_future h y g fwd ooo :
    r_gen (head y) = h -> (h <? U32MAX - fwd) && (h + fwd <? g) = true ->
    sfd y g fwd ooo = (y, RErr TooFuture).
  Proof. intros <- C1. unfold Ratchet.secret_for_decryption. now rewrite C1. Qed.

  Lemma sfd_too_past h y g fwd ooo :
    r_gen (head y) = h -> (h <? U32MAX - fwd) && (h + fwd <? g) = false ->
    (g <? h) && (ooo <? h - g) = true ->
    sfd y g fwd ooo = (y, RErr TooPast).
  Proof. intros <- C1 C2. unfold Ratchet.secret_for_decryption. now rewrite C1, C2. Qed.

  (** The loop runs the head up to [g]; the entry of [g] itself enters the window already
      taken. *)
  Lemma sfd_forward b h U y g fwd ooo :
    Inv b h U y -> (h <? U32MAX - fwd) && (h + fwd <? g) = false -> h <= g ->
    match sfd y g fwd ooo with
    | (y', ROk k) =>
        k = km (sec g) /\ Inv b (g + 1) (g :: U) y' /\
        lenN (past y') = N.min ooo (lenN (past y) + (g - h) + 1)
    | (y', RPanic) => y' = y /\ U32MAX <= g
    | (_, RErr _) => False
    end.
  Proof.
    intros HI C1 Hge. pose proof HI as (Hh & Hb & _ & Hu & Hn).
    unfold Ratchet.secret_for_decryption. rewrite Hh. cbn [rs_at r_gen].
    rewrite C1, (proj2 (N.ltb_ge g h) Hge), (proj2 (N.leb_le h g) Hge). cbn [andb].
    pose proof (iter_push1 b h U y (g - h) HI) as H1.
    replace (h + (g - h)) with g in H1 by lia.
    destruct (N.iter (g - h) push1 (Some y)) as [y1|]; [|split; [reflexivity|lia]].
    destruct H1 as [(Hh1 & _ & Hs1 & _) L1]. rewrite Hh1, rf_at.
    destruct (N.eqb_spec g U32MAX) as [E|_]; [split; [reflexivity|lia]|].
    split; [reflexivity|]. split; [|cbn [past]; now rewrite lenN_truncN, lenN_cons, L1, N.add_1_r].
    split; [reflexivity|]. split; [lia|]. split.
    - apply slots_truncN, slots_cons; [now apply slots_used_above|lia|].
      now rewrite slot_used, N.eqb_refl.
    - split.
      + intros g' [<-|HI']; [lia|]. apply Hu in HI'. lia.
      + constructor; [|exact Hn]. intros HI'. apply Hu in HI'. lia.
  Qed.

  Lemma sfd_backward b h U y g fwd ooo :
    Inv b h U y -> (h <? U32MAX - fwd) && (h + fwd <? g) = false ->
    (g <? h) && (ooo <? h - g) = false -> g < h ->
    sfd y g fwd ooo =
    if h - g =? I32LIM then (y, RPanic)
    else if I32LIM <? h - g then (y, RErr TooPast)
    else if lenN (past y) <? h - g then (y, RErr IndexOOB)
    else if memN g U then (y, RErr Reuse)
    else ({| past := setN (past y) (h - g - 1) None; head := head y |}, ROk (km (sec g))).
  Proof.
    intros (Hh & _ & Hs & _) C1 C2 Hlt. unfold Ratchet.secret_for_decryption.
    rewrite Hh. cbn [rs_at r_gen]. rewrite C1, C2, (proj2 (N.leb_gt h g) Hlt).
    destruct (h - g =? I32LIM); [reflexivity|]. destruct (I32LIM <? h - g); [reflexivity|].
    destruct (N.ltb_spec (lenN (past y)) (h - g)) as [L|L].
    - destruct (nthN (past y) (h - g - 1)) eqn:E; [apply nthN_some_lt in E; lia|reflexivity].
    - destruct (nthN_lt_some (past y) (h - g - 1)) as [o E]; [lia|]. rewrite E.
      destruct (slots_nth _ _ _ _ _ _ Hs Hlt E) as [_ ->]. unfold slot.
      now destruct (memN g U).
  Qed.

  Lemma Inv_take b h U y g :
    Inv b h U y -> g < h -> h - g <= lenN (past y) -> memN g U = false ->
    Inv b h (g :: U) {| past := setN (past y) (h - g - 1) None; head := head y |}.
  Proof.
    intros (Hh & Hb & Hs & Hu & Hn) Hlt L Em.
    split; [exact Hh|]. split; [exact Hb|]. split.
    - apply slots_used_at; [exact Hs|lia|lia].
    - split.
      + intros g' [<-|HI']; auto.
      + constructor; [|exact Hn]. rewrite <- memN_In. congruence.
  Qed.

  Lemma step_inv b h U y g fwd ooo :
    Inv b h U y ->
    match sfd y g fwd ooo with
    | (y', ROk k) => k = km (sec g) /\ Inv b (N.max h (g + 1)) (g :: U) y'
    | (y', _) => y' = y
    end.
  Proof.
    intros HI. pose proof (Inv_gen _ _ _ _ HI) as Eh.
    destruct ((h <? U32MAX - fwd) && (h + fwd <? g)) eqn:C1;
      [now rewrite (sfd_too_future h y g fwd ooo Eh C1)|].
    destruct ((g <? h) && (ooo <? h - g)) eqn:C2;
      [now rewrite (sfd_too_past h y g fwd ooo Eh C1 C2)|].
    destruct (N.le_gt_cases h g) as [Hge|Hlt].
    - pose proof (sfd_forward b h U y g fwd ooo HI C1 Hge) as HF.
      destruct (sfd y g fwd ooo) as [y' [k| |]]; [|contradiction|apply HF].
      rewrite (head_forward h g Hge). split; apply HF.
    - rewrite (sfd_backward b h U y g fwd ooo HI C1 C2 Hlt).
      destruct (h - g =? I32LIM); [reflexivity|]. destruct (I32LIM <? h - g); [reflexivity|].
      destruct (N.ltb_spec (lenN (past y)) (h - g)); [reflexivity|].
      destruct (memN g U) eqn:Em; [reflexivity|].
      rewrite (head_backward h g Hlt). split; [reflexivity|]. now apply Inv_take.
  Qed.

  Fixpoint ok_gens (rqs : list (N * N * N)) (os : list (@res K)) : list N :=
    match rqs, os with
    | rq :: a, o :: c =>
        match o with ROk _ => rq_g rq :: ok_gens a c | _ => ok_gens a c end
    | _, _ => []
    end.

  Lemma run_inv : forall rqs b h U y,
    Inv b h U y ->
    Forall2 (fun rq o => forall k, o = ROk k -> k = km (sec (rq_g rq))) rqs (snd (run y rqs)) /\
    NoDup (rev (ok_gens rqs (snd (run y rqs))) ++ U).
  Proof.
    induction rqs as [|[[g fwd] ooo] rqs IH]; intros b h U y HI.
    - split; [constructor|apply HI].
    - rewrite run_cons. pose proof (step_inv b h U y g fwd ooo HI) as HS.
      destruct (sfd y g fwd ooo) as [y1 [k| |]]; cbn [fst snd ok_gens rq_g rev].
      2,3: subst y1; destruct (IH _ _ _ _ HI) as [F D];
        (split; [constructor; [discriminate|exact F]|exact D]).
      destruct HS as [-> HI1]. destruct (IH _ _ _ _ HI1) as [F D]. split.
      + constructor; [|exact F]. intros k' Ek. now injection Ek as <-.
      + now rewrite <- app_assoc.
  Qed.

  Theorem key_correct b rqs :
    Forall2 (fun rq o => forall k, o = ROk k -> k = km (sec (rq_g rq)))
            rqs (snd (run (ds_at b (sec b)) rqs)).
  Proof. exact (proj1 (run_inv rqs b b [] _ (Inv_init b))). Qed.

  Theorem at_most_once b rqs :
    NoDup (ok_gens rqs (snd (run (ds_at b (sec b)) rqs))).
  Proof.
    pose proof (proj2 (run_inv rqs b b [] _ (Inv_init b))) as HN.
    rewrite app_nil_r in HN. apply NoDup_rev in HN. now rewrite rev_involutive in HN.
  Qed.

  Theorem sender_keys : forall n b i g k,
    nth_error (sender (rs_at b (sec b)) n) i = Some (g, k) ->
    g = b + N.of_nat i /\ k = km (sec g).
  Proof.
    induction n as [|n IH]; intros b i g k H; [destruct i; discriminate|].
    cbn [Ratchet.sender] in H. rewrite rf_at in H.
    destruct (b =? U32MAX); [destruct i; discriminate|]. destruct i as [|i].
    - injection H as <- <-. split; [lia|reflexivity].
    - apply IH in H. destruct H as [-> ->]. split; [lia|reflexivity].
  Qed.

  (** With one [ooo] throughout, the window is never shorter than it may be: it reaches down to
      the base or holds [ooo] entries.  That is what makes a request that passes the [TooPast]
      test find its entry, unless it lies below the base. *)
  Definition filled (b ooo h l : N) : Prop := h <= l + b \/ ooo <= l.

  Lemma filled_forward b ooo h g l :
    h <= g -> filled b ooo h l -> filled b ooo (g + 1) (N.min ooo (l + (g - h) + 1)).
  Proof. unfold filled. lia. Qed.

  Lemma filled_lookup b ooo h g l :
    l + b <= h -> filled b ooo h l -> g < h -> h - g <= ooo -> (g <? b) = (l <? h - g).
  Proof.
    unfold filled. intros Hl Hf Hlt Ho. destruct (N.ltb_spec g b); symmetry; [apply N.ltb_lt|apply N.ltb_ge]; lia.
  Qed.

  Lemma step_refines b ooo h U y g fwd :
    Inv b h U y -> filled b ooo h (lenN (past y)) -> g < U32MAX -> ooo < I32LIM ->
    let '(y', r) := sfd y g fwd ooo in
    let '(h', U', c) := spec_step b (h, U) (g, fwd, ooo) in
    class_of r = c /\ Inv b h' U' y' /\ filled b ooo h' (lenN (past y')).
  Proof.
    intros HI HL Hg Ho. pose proof HI as (_ & Hb & Hs & Hu & _).
    pose proof (Inv_gen _ _ _ _ HI) as Eh. unfold spec_step.
    destruct (N.ltb_spec (h + fwd) g) as [Lf|Lf].
    { rewrite (sfd_too_future h y g fwd ooo Eh); [auto|].
      apply andb_true_intro. split; apply N.ltb_lt; [lia|exact Lf]. }
    assert (C1 : (h <? U32MAX - fwd) && (h + fwd <? g) = false).
    { rewrite (proj2 (N.ltb_ge _ _) Lf). apply andb_false_r. }
    destruct ((g <? h) && (ooo <? h - g)) eqn:C2.
    { rewrite (sfd_too_past h y g fwd ooo Eh C1 C2). auto. }
    destruct (N.le_gt_cases h g) as [Hge|Hlt].
    - rewrite (proj2 (N.ltb_ge g b) (N.le_trans _ _ _ Hb Hge)), (memN_below U h g Hu Hge).
      pose proof (sfd_forward b h U y g fwd ooo HI C1 Hge) as HF.
      (* [g < U32MAX] rules out the panic of the forward run *)
      destruct (sfd y g fwd ooo) as [y' [k| |]]; [|contradiction|lia].
      destruct HF as (_ & HI' & L'). rewrite (head_forward h g Hge).
      split; [reflexivity|]. split; [exact HI'|].
      rewrite L'. now apply filled_forward.
    - rewrite (sfd_backward b h U y g fwd ooo HI C1 C2 Hlt).
      apply andb_false_iff in C2. destruct C2 as [C2|C2]; apply N.ltb_ge in C2; [lia|].
      (* [h - g <= ooo < I32LIM]: the [as i32] cast is harmless *)
      destruct (N.eqb_spec (h - g) I32LIM) as [E|_]; [lia|].
      destruct (N.ltb_spec I32LIM (h - g)) as [L|_]; [lia|].
      rewrite (filled_lookup b ooo h g _ (slots_len _ _ _ _ Hs Hb) HL Hlt C2).
      destruct (N.ltb_spec (lenN (past y)) (h - g)) as [L|L]; [auto|].
      destruct (memN g U) eqn:Em; [auto|]. rewrite (head_backward h g Hlt).
      split; [reflexivity|]. split; [now apply Inv_take|].
      cbn [past]. now rewrite lenN_setN.
  Qed.

  Definition fixed (fwd ooo : N) (gs : list N) : list (N * N * N) :=
    map (fun g => (g, fwd, ooo)) gs.

  Lemma run_refines fwd ooo : forall gs b h U y,
    Inv b h U y -> filled b ooo h (lenN (past y)) ->
    ooo < I32LIM -> Forall (fun g => g < U32MAX) gs ->
    map class_of (snd (run y (fixed fwd ooo gs))) =
    snd (spec_run b (h, U) (fixed fwd ooo gs)).
  Proof.
    induction gs as [|g gs IH]; intros b h U y HI HL Ho HF; [reflexivity|].
    inversion HF as [|? ? Hg HF']; subst.
    cbn [fixed map]. fold (fixed fwd ooo gs). rewrite run_cons, spec_run_cons.
    pose proof (step_refines b ooo h U y g fwd HI HL Hg Ho) as HS.
    destruct (sfd y g fwd ooo) as [y1 r].
    destruct (spec_step b (h, U) (g, fwd, ooo)) as [[h' U'] c].
    destruct HS as (Hc & HI' & HL'). cbn [map fst snd]. f_equal; [exact Hc|].
    now apply IH.
  Qed.

  Theorem window_exact b fwd ooo gs :
    ooo < I32LIM -> Forall (fun g => g < U32MAX) gs ->
    map class_of (snd (run (ds_at b (sec b)) (fixed fwd ooo gs))) =
    snd (spec_run b (b, []) (fixed fwd ooo gs)).
  Proof.
    apply (run_refines fwd ooo gs b b [] _ (Inv_init b)). left. apply N.le_add_l.
  Qed.
End RatchetProofs.

Lemma too_past_spec g h ooo :
  BoolSpec (g < h /\ ooo < h - g) (h <= g \/ h - g <= ooo) ((g <? h) && (ooo <? h - g)).
Proof.
  destruct (N.ltb_spec g h); destruct (N.ltb_spec ooo (h - g)); constructor; auto.
Qed.

Lemma spec_step_ok_iff b h used g fwd ooo :
  snd (spec_step b (h, used) (g, fwd, ooo)) = COk <->
  (g <= h + fwd /\ (h <= g \/ h - g <= ooo) /\ b <= g /\ ~ In g used).
Proof.
  unfold spec_step. rewrite <- memN_In.
  destruct (N.ltb_spec (h + fwd) g).
  { split; [discriminate|lia]. }
  destruct (too_past_spec g h ooo) as [E|E].
  { split; [discriminate|lia]. }
  destruct (N.ltb_spec g b).
  { split; [discriminate|lia]. }
  destruct (memN g used).
  - split; [discriminate|]. intros (_ & _ & _ & Hn). now destruct Hn.
  - split; [|reflexivity]. intros _. split; [lia|]. split; [exact E|]. split; [lia|discriminate].
Qed.

Lemma spec_step_err b h used g fwd ooo :
  (snd (spec_step b (h, used) (g, fwd, ooo)) = CErr TooFuture <-> h + fwd < g) /\
  (snd (spec_step b (h, used) (g, fwd, ooo)) = CErr TooPast <-> (g <= h + fwd /\ g < h /\ ooo < h - g)) /\
  (b = 0 -> snd (spec_step b (h, used) (g, fwd, ooo)) <> CErr IndexOOB) /\
  snd (spec_step b (h, used) (g, fwd, ooo)) <> CPanic.
Proof.
  unfold spec_step.
  destruct (N.ltb_spec (h + fwd) g).
  { cbn [snd]. repeat split; intros; (congruence || lia). }
  destruct (too_past_spec g h ooo) as [E|E].
  { cbn [snd]. repeat split; intros; (congruence || lia). }
  destruct (N.ltb_spec g b).
  { cbn [snd]. repeat split; intros; (congruence || lia). }
  destruct (memN g used); cbn [snd]; repeat split; intros; (congruence || lia).
Qed.

Lemma spec_run_no_oob : forall rqs st,
  Forall (fun c => c <> CErr IndexOOB /\ c <> CPanic) (snd (spec_run 0 st rqs)).
Proof.
  induction rqs as [|[[g fwd] ooo] rqs IH]; intros [h used]; [constructor|].
  rewrite spec_run_cons. constructor; [|apply IH].
  destruct (spec_step_err 0 h used g fwd ooo) as (_ & _ & H3 & H4). auto.
Qed.

(** Inside a fixed configuration (and below the u32/i32 limits) the window index is always in
    bounds and nothing overflows: the answers [IndexOutOfBounds] and a panic never occur. *)
Theorem index_in_bounds (S K : Type) (chain : S -> S) (km : S -> K) (s0 : S) fwd ooo gs :
  ooo < I32LIM -> Forall (fun g => g < U32MAX) gs ->
  Forall (fun o => o <> RErr IndexOOB /\ o <> RPanic)
         (snd (run S K chain km (ds_at 0 s0) (fixed fwd ooo gs))).
Proof.
  intros Ho HF.
  pose proof (window_exact S K chain km s0 0 fwd ooo gs Ho HF) as HW.
  change (sec S chain s0 0) with s0 in HW.
  pose proof (spec_run_no_oob (fixed fwd ooo gs) (0, [])) as HS. rewrite <- HW in HS.
  apply Forall_map in HS. eapply Forall_impl; [|exact HS].
  intros o [H1 H2]. split; intros ->; [apply H1|apply H2]; reflexivity.
Qed.

(** Non-vacuity: the hypotheses of [window_exact] hold for ordinary inputs and the run below
    exercises every answer class (chain = successor on [N], key material = the secret itself). *)
Example window_exact_example :
  let gs := [0; 4; 3; 3; 1; 9; 5]%N in
  (3 < I32LIM)%N /\ Forall (fun g => g < U32MAX)%N gs /\
  map class_of (snd (run N N N.succ (fun s => s) (ds_at 0%N 0%N) (fixed 3 3 gs)))
  = [COk; COk; COk; CErr Reuse; CErr TooPast; CErr TooFuture; COk].
Proof.
  cbv zeta. split; [reflexivity|]. split; [|vm_compute; reflexivity].
  repeat constructor.
Qed.
