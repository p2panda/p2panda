(** Proofs about Model/Ingest.v (C03, C05, C04). *)
From Coq Require Import List NArith Bool Lia.
From PV Require Import Lib.ListFacts Model.Ingest.
Import ListNotations.
Local Open Scope N_scope.

Lemma in_log_true : forall a l r, in_log a l r = true <-> r_author r = a /\ r_log r = l.
Proof.
  intros a l r. unfold in_log. split.
  - intros H. apply andb_prop in H. destruct H as (Ha & Hl). split; apply N.eqb_eq; assumption.
  - intros (-> & ->). rewrite !N.eqb_refl. reflexivity.
Qed.

Lemma latest_none : forall s a l,
  latest s a l = None -> forall r, In r s -> in_log a l r = false.
Proof.
  induction s as [|x t IH]; intros a l H r Hr.
  - destruct Hr.
  - cbn [latest] in H. destruct (in_log a l x) eqn:Ex.
    + destruct (latest t a l) as [m|]; [destruct (r_seq x <? r_seq m)|]; discriminate.
    + destruct Hr as [->|Hr]; [exact Ex|]. eapply IH; eauto.
Qed.

Lemma latest_some : forall s a l m,
  latest s a l = Some m ->
  In m s /\ in_log a l m = true /\
  forall r, In r s -> in_log a l r = true -> r_seq r <= r_seq m.
Proof.
  induction s as [|x t IH]; intros a l m H.
  - discriminate.
  - cbn [latest] in H. destruct (in_log a l x) eqn:Ex.
    + destruct (latest t a l) as [m'|] eqn:El.
      * destruct (IH a l m' El) as (Hin & Hlog & Hmax).
        destruct (r_seq x <? r_seq m') eqn:Elt; injection H as <-.
        -- apply N.ltb_lt in Elt. split; [right; exact Hin|]. split; [exact Hlog|].
           intros r [->|Hr] Hl; [apply N.lt_le_incl; exact Elt|]. apply Hmax; assumption.
        -- apply N.ltb_ge in Elt. split; [left; reflexivity|]. split; [exact Ex|].
           intros r [->|Hr] Hl; [apply N.le_refl|]. exact (N.le_trans _ _ _ (Hmax r Hr Hl) Elt).
      * injection H as <-. split; [left; reflexivity|]. split; [exact Ex|].
        intros r [->|Hr] Hl; [apply N.le_refl|].
        rewrite (latest_none _ _ _ El r Hr) in Hl. discriminate.
    + destruct (IH a l m H) as (Hin & Hlog & Hmax).
      split; [right; exact Hin|]. split; [exact Hlog|].
      intros r [->|Hr] Hl; [congruence|]. apply Hmax; assumption.
Qed.

Lemma latest_exists : forall s a l r,
  In r s -> in_log a l r = true -> exists m, latest s a l = Some m.
Proof.
  intros s a l r Hr Hl. destruct (latest s a l) as [m|] eqn:E; [eauto|].
  rewrite (latest_none _ _ _ E r Hr) in Hl. discriminate.
Qed.

Lemma latest_author : forall s a l m, latest s a l = Some m -> r_author m = a.
Proof.
  intros s a l m H. destruct (latest_some _ _ _ _ H) as (_ & Hl & _).
  apply in_log_true in Hl. apply Hl.
Qed.

Lemma has_op_true : forall s id, has_op s id = true -> exists r, In r s /\ r_id r = id.
Proof.
  intros s id H. apply existsb_exists in H. destruct H as (r & Hr & E).
  exists r. split; [exact Hr|]. apply N.eqb_eq. exact E.
Qed.

Theorem validate_backlink_wrong_author : forall p o,
  r_author p <> o_author o -> validate_backlink p o = VErr ETooManyAuthors.
Proof.
  intros p o H. unfold validate_backlink. apply N.eqb_neq in H. rewrite H. reflexivity.
Qed.

Lemma validate_backlink_max : forall p o,
  r_author p = o_author o -> r_seq p = U32MAX -> validate_backlink p o = VPanic.
Proof.
  intros p o Ha Hm. unfold validate_backlink. rewrite Ha, Hm, !N.eqb_refl. reflexivity.
Qed.

Lemma validate_backlink_non_incremental : forall p o,
  r_author p = o_author o -> r_seq p <> U32MAX -> r_seq p + 1 <> o_seq o ->
  validate_backlink p o = VErr ESeqNonIncremental.
Proof.
  intros p o Ha Hm Hs. unfold validate_backlink. apply N.eqb_neq in Hm, Hs.
  rewrite Ha, N.eqb_refl, Hm, Hs. reflexivity.
Qed.

Lemma validate_backlink_successor : forall p o,
  r_author p = o_author o -> r_seq p <> U32MAX -> r_seq p + 1 = o_seq o ->
  validate_backlink p o =
  match o_backlink o with
  | Some b => if r_hh p =? b then VOk else VErr EBacklinkMismatch
  | None => VErr EBacklinkMissing
  end.
Proof.
  intros p o Ha Hm Hs. unfold validate_backlink. apply N.eqb_neq in Hm.
  rewrite Ha, Hs, !N.eqb_refl, Hm. reflexivity.
Qed.

Lemma validate_backlink_ok : forall p o,
  validate_backlink p o = VOk <->
  r_author p = o_author o /\ r_seq p <> U32MAX /\ r_seq p + 1 = o_seq o /\ o_backlink o = Some (r_hh p).
Proof.
  intros p o. split.
  - intros H.
    destruct (N.eq_dec (r_author p) (o_author o)) as [Ha|Ha];
      [|rewrite (validate_backlink_wrong_author _ _ Ha) in H; discriminate].
    destruct (N.eq_dec (r_seq p) U32MAX) as [Hm|Hm];
      [rewrite (validate_backlink_max _ _ Ha Hm) in H; discriminate|].
    destruct (N.eq_dec (r_seq p + 1) (o_seq o)) as [Hs|Hs];
      [|rewrite (validate_backlink_non_incremental _ _ Ha Hm Hs) in H; discriminate].
    rewrite (validate_backlink_successor _ _ Ha Hm Hs) in H.
    destruct (o_backlink o) as [b|]; [|discriminate].
    destruct (N.eqb_spec (r_hh p) b) as [->|]; [auto|discriminate].
  - intros (Ha & Hm & Hs & Hb).
    rewrite (validate_backlink_successor _ _ Ha Hm Hs), Hb, N.eqb_refl. reflexivity.
Qed.

Definition extends (p : option row) (o : op) : Prop :=
  match p with
  | None => o_seq o = 0 \/ o_prune o = true
  | Some p =>
      (o_prune o = false /\ r_author p = o_author o /\ r_seq p <> U32MAX /\
       r_seq p + 1 = o_seq o /\ o_backlink o = Some (r_hh p))
      \/ (o_prune o = true /\ r_seq p < o_seq o)
  end.

Lemma vpb_no_prune : forall p o,
  validate_prunable_backlink (Some p) o false = validate_backlink p o.
Proof. intros p o. unfold validate_prunable_backlink. destruct (0 <? o_seq o); reflexivity. Qed.

Lemma vpb_ok_iff : forall p o,
  validate_prunable_backlink p o (o_prune o) = VOk <-> extends p o.
Proof.
  intros [p|] o; cbn [extends]; destruct (o_prune o) eqn:Ep.
  - unfold validate_prunable_backlink. cbn [negb]. destruct (0 <? o_seq o) eqn:E0.
    + destruct (N.leb_spec (o_seq o) (r_seq p)) as [Hle|Hlt].
      * split; [discriminate|]. intros [(H & _)|(_ & H)]; [discriminate|lia].
      * split; [right; auto|reflexivity].
    + apply N.ltb_ge in E0. split.
      * intros H. apply validate_backlink_ok in H. destruct H as (_ & _ & H & _). lia.
      * intros [(H & _)|(_ & H)]; [discriminate|lia].
  - rewrite vpb_no_prune. split.
    + intros H. apply validate_backlink_ok in H. left. split; [reflexivity|exact H].
    + intros [(_ & H)|(H & _)]; [apply validate_backlink_ok; exact H|discriminate].
  - unfold validate_prunable_backlink. destruct (0 <? o_seq o); split; auto.
  - unfold validate_prunable_backlink. cbn [negb]. destruct (0 <? o_seq o) eqn:E0.
    + apply N.ltb_lt in E0. split; [discriminate|]. intros [H|H]; [lia|discriminate].
    + apply N.ltb_ge in E0. split; [left; lia|reflexivity].
Qed.

Lemma validate_backlink_same_author : forall p o,
  r_author p = o_author o -> validate_backlink p o <> VErr ETooManyAuthors.
Proof.
  intros p o Ha.
  destruct (N.eq_dec (r_seq p) U32MAX) as [Hm|Hm];
    [rewrite (validate_backlink_max _ _ Ha Hm); discriminate|].
  destruct (N.eq_dec (r_seq p + 1) (o_seq o)) as [Hs|Hs];
    [|rewrite (validate_backlink_non_incremental _ _ Ha Hm Hs); discriminate].
  rewrite (validate_backlink_successor _ _ Ha Hm Hs).
  destruct (o_backlink o) as [b|]; [destruct (r_hh p =? b)|]; discriminate.
Qed.

Lemma ingest_with_invalid : forall vpb s o,
  o_valid o = false -> ingest_with vpb s o = (s, Rejected EInvalid).
Proof. intros vpb s o H. unfold ingest_with. rewrite H. reflexivity. Qed.

Lemma ingest_with_stored : forall vpb s o,
  o_valid o = true -> has_op s (o_id o) = true -> ingest_with vpb s o = (s, AlreadyExists).
Proof. intros vpb s o Hv Hh. unfold ingest_with. rewrite Hv, Hh. reflexivity. Qed.

Lemma ingest_with_new : forall vpb s o,
  o_valid o = true -> has_op s (o_id o) = false ->
  ingest_with vpb s o =
  match vpb (latest s (o_author o) (o_log o)) o (o_prune o) with
  | VOk => (s ++ [row_of o], Inserted)
  | VErr e => (s, Rejected e)
  | VPanic => (s, Panicked)
  end.
Proof. intros vpb s o Hv Hh. unfold ingest_with. rewrite Hv, Hh. reflexivity. Qed.

Lemma ingest_shape : forall s o,
  (snd (ingest s o) = Inserted /\ fst (ingest s o) = s ++ [row_of o] /\
   o_valid o = true /\ has_op s (o_id o) = false /\ extends (latest s (o_author o) (o_log o)) o)
  \/ (snd (ingest s o) <> Inserted /\ fst (ingest s o) = s).
Proof.
  intros s o. unfold ingest, ingest_with.
  destruct (o_valid o); cbn [negb]; [|right; split; [discriminate|reflexivity]].
  destruct (has_op s (o_id o)); [right; split; [discriminate|reflexivity]|].
  destruct (validate_prunable_backlink (latest s (o_author o) (o_log o)) o (o_prune o)) eqn:Hok.
  - left. apply vpb_ok_iff in Hok. auto.
  - right. split; [discriminate|reflexivity].
  - right. split; [discriminate|reflexivity].
Qed.

Theorem ingest_inserted_iff : forall s o,
  snd (ingest s o) = Inserted <->
  o_valid o = true /\ has_op s (o_id o) = false /\ extends (latest s (o_author o) (o_log o)) o.
Proof.
  intros s o. split.
  - intros H. destruct (ingest_shape s o) as [(_ & _ & Hrest)|(Hr & _)]; [exact Hrest|contradiction].
  - intros (Hv & Hh & Hok). apply vpb_ok_iff in Hok.
    unfold ingest. rewrite (ingest_with_new _ _ _ Hv Hh), Hok. reflexivity.
Qed.

Theorem ingest_not_inserted_unchanged : forall s o,
  snd (ingest s o) <> Inserted -> fst (ingest s o) = s.
Proof.
  intros s o H. destruct (ingest_shape s o) as [(Hr & _)|(_ & Hs)]; [contradiction|exact Hs].
Qed.

Theorem ingest_inserted_appends : forall s o,
  snd (ingest s o) = Inserted -> fst (ingest s o) = s ++ [row_of o].
Proof.
  intros s o H. destruct (ingest_shape s o) as [(_ & Hs & _)|(Hr & _)]; [exact Hs|contradiction].
Qed.

Lemma ingest_keeps : forall s o r, In r s -> In r (fst (ingest s o)).
Proof.
  intros s o r Hr. destruct (ingest_shape s o) as [(_ & -> & _)|(_ & ->)]; [apply in_app_iff; left|]; exact Hr.
Qed.

Lemma res_ok_cases : forall s o,
  res_ok (snd (ingest s o)) = true ->
  o_valid o = true /\ (has_op s (o_id o) = true \/ snd (ingest s o) = Inserted).
Proof.
  intros s o H. unfold ingest in *.
  destruct (o_valid o) eqn:Ev; [|rewrite ingest_with_invalid in H by exact Ev; discriminate].
  split; [reflexivity|]. destruct (has_op s (o_id o)) eqn:Eh; [left; reflexivity|right].
  rewrite ingest_with_new in * by assumption.
  destruct (validate_prunable_backlink (latest s (o_author o) (o_log o)) o (o_prune o));
    [reflexivity|discriminate..].
Qed.

Lemma extends_above : forall s o,
  extends (latest s (o_author o) (o_log o)) o ->
  forall r, In r s -> in_log (o_author o) (o_log o) r = true -> r_seq r < o_seq o.
Proof.
  intros s o Hx r Hr Hl. destruct (latest s (o_author o) (o_log o)) as [m|] eqn:El.
  - destruct (latest_some _ _ _ _ El) as (_ & _ & Hmax). specialize (Hmax r Hr Hl).
    cbn [extends] in Hx. destruct Hx as [(_ & _ & _ & Hs & _)|(_ & Hs)]; lia.
  - rewrite (latest_none _ _ _ El r Hr) in Hl. discriminate.
Qed.

Theorem rejected_invalid : forall s o,
  o_valid o = false -> ingest s o = (s, Rejected EInvalid).
Proof. intros s o. apply ingest_with_invalid. Qed.

Lemma ingest_successor : forall s o p,
  o_valid o = true -> has_op s (o_id o) = false ->
  latest s (o_author o) (o_log o) = Some p -> o_prune o = false ->
  ingest s o = match validate_backlink p o with
               | VOk => (s ++ [row_of o], Inserted)
               | VErr e => (s, Rejected e)
               | VPanic => (s, Panicked)
               end.
Proof.
  intros s o p Hv Hh Hl Hp. unfold ingest.
  rewrite (ingest_with_new _ _ _ Hv Hh), Hl, Hp, vpb_no_prune. reflexivity.
Qed.

Theorem rejected_non_incremental : forall s o p,
  o_valid o = true -> has_op s (o_id o) = false ->
  latest s (o_author o) (o_log o) = Some p -> r_seq p <> U32MAX ->
  o_prune o = false -> r_seq p + 1 <> o_seq o ->
  ingest s o = (s, Rejected ESeqNonIncremental).
Proof.
  intros s o p Hv Hh Hl Hm Hp Hs. rewrite (ingest_successor _ _ _ Hv Hh Hl Hp).
  rewrite (validate_backlink_non_incremental _ _ (latest_author _ _ _ _ Hl) Hm Hs). reflexivity.
Qed.

Theorem rejected_wrong_backlink : forall s o p,
  o_valid o = true -> has_op s (o_id o) = false ->
  latest s (o_author o) (o_log o) = Some p -> r_seq p <> U32MAX ->
  o_prune o = false -> r_seq p + 1 = o_seq o -> o_backlink o <> Some (r_hh p) ->
  ingest s o = (s, Rejected (match o_backlink o with Some _ => EBacklinkMismatch | None => EBacklinkMissing end)).
Proof.
  intros s o p Hv Hh Hl Hm Hp Hs Hb. rewrite (ingest_successor _ _ _ Hv Hh Hl Hp).
  rewrite (validate_backlink_successor _ _ (latest_author _ _ _ _ Hl) Hm Hs).
  destruct (o_backlink o) as [b|]; [|reflexivity].
  destruct (N.eqb_spec (r_hh p) b); [congruence|reflexivity].
Qed.

Theorem rejected_missing_prefix : forall s o,
  o_valid o = true -> has_op s (o_id o) = false ->
  latest s (o_author o) (o_log o) = None -> 0 < o_seq o -> o_prune o = false ->
  ingest s o = (s, Rejected EBacklinkMissing).
Proof.
  intros s o Hv Hh Hl H0 Hp. unfold ingest. rewrite (ingest_with_new _ _ _ Hv Hh), Hl, Hp.
  unfold validate_prunable_backlink. apply N.ltb_lt in H0. rewrite H0. reflexivity.
Qed.

Theorem rejected_old_prune_point : forall s o p,
  o_valid o = true -> has_op s (o_id o) = false ->
  latest s (o_author o) (o_log o) = Some p -> o_prune o = true -> 0 < o_seq o -> o_seq o <= r_seq p ->
  ingest s o = (s, Rejected ESeqNonIncremental).
Proof.
  intros s o p Hv Hh Hl Hp H0 Hs. unfold ingest. rewrite (ingest_with_new _ _ _ Hv Hh), Hl, Hp.
  unfold validate_prunable_backlink. apply N.ltb_lt in H0. apply N.leb_le in Hs. rewrite H0, Hs. reflexivity.
Qed.

(** Overflow made visible: a non-prune successor of an entry at [u32::MAX] panics (debug build). *)
Lemma seq_max_panics : forall s o p,
  o_valid o = true -> has_op s (o_id o) = false ->
  latest s (o_author o) (o_log o) = Some p -> r_seq p = U32MAX -> o_prune o = false ->
  ingest s o = (s, Panicked).
Proof.
  intros s o p Hv Hh Hl Hm Hp. rewrite (ingest_successor _ _ _ Hv Hh Hl Hp).
  rewrite (validate_backlink_max _ _ (latest_author _ _ _ _ Hl) Hm). reflexivity.
Qed.

(** Within [ingest] the latest entry is looked up under the operation's own author, so
    [TooManyAuthors] is unreachable there. *)
Lemma ingest_never_too_many_authors : forall s o, snd (ingest s o) <> Rejected ETooManyAuthors.
Proof.
  intros s o. unfold ingest.
  destruct (o_valid o) eqn:Ev; [|rewrite (ingest_with_invalid _ _ _ Ev); discriminate].
  destruct (has_op s (o_id o)) eqn:Eh; [rewrite (ingest_with_stored _ _ _ Ev Eh); discriminate|].
  rewrite (ingest_with_new _ _ _ Ev Eh).
  assert (H : validate_prunable_backlink (latest s (o_author o) (o_log o)) o (o_prune o)
              <> VErr ETooManyAuthors).
  { unfold validate_prunable_backlink. destruct (latest s (o_author o) (o_log o)) as [m|] eqn:El.
    - pose proof (validate_backlink_same_author m o (latest_author _ _ _ _ El)) as B.
      destruct (0 <? o_seq o); [destruct (o_prune o); cbn [negb]|]; try exact B.
      destruct (o_seq o <=? r_seq m); discriminate.
    - destruct (0 <? o_seq o); [destruct (o_prune o)|]; discriminate. }
  destruct (validate_prunable_backlink (latest s (o_author o) (o_log o)) o (o_prune o));
    cbn [snd]; congruence.
Qed.

(** [unique_seq] and [chain_ok] are the property.  [prov] ties the store to the history [ds] the
    deliveries are drawn from: an [AlreadyExists] answer only says that some row carries the
    operation's id, and it takes [wf_history ds] and the row's origin in [ds] to place that row in
    the operation's slot with its prune flag ([stored_row_of_op]) -- which the prune that follows
    relies on. *)

Definition slot (r : row) : N * N * N := (r_author r, r_log r, r_seq r).

Definition unique_seq (s : store) : Prop := NoDup (map slot s).

Definition chain_ok (s : store) : Prop :=
  forall r, In r s -> r_prune r = false -> 0 < r_seq r ->
    exists p, In p s /\ r_author p = r_author r /\ r_log p = r_log r /\
              r_seq p + 1 = r_seq r /\ r_backlink r = Some (r_hh p).

Definition prov (ds : list op) (s : store) : Prop :=
  forall r, In r s -> exists d, In d ds /\ o_valid d = true /\ r = row_of d.

Definition Inv (ds : list op) (s : store) : Prop := unique_seq s /\ chain_ok s /\ prov ds s.

Lemma unique_seq_same : forall s x y,
  unique_seq s -> In x s -> In y s -> slot x = slot y -> x = y.
Proof. intros s. apply NoDup_map_inj_in. Qed.

Lemma slot_row_of_op : forall x o, slot x = slot (row_of o) ->
  in_log (o_author o) (o_log o) x = true /\ r_seq x = o_seq o.
Proof.
  intros x o E. unfold slot in E. cbn [row_of r_author r_log r_seq] in E. injection E as Ha Hl Hs.
  split; [apply in_log_true; split; assumption|exact Hs].
Qed.

Lemma ingest_preserves_Inv : forall ds s o,
  In o ds -> Inv ds s -> Inv ds (fst (ingest s o)).
Proof.
  intros ds s o Ho (Hu & Hc & Hp).
  destruct (ingest_shape s o) as [(_ & -> & Hv & _ & Hok)|(_ & ->)]; [|repeat split; assumption].
  split; [|split].
  - (* the new row lies above everything in its log *)
    unfold unique_seq. rewrite map_app. apply NoDup_snoc; [exact Hu|].
    intros Hin. apply in_map_iff in Hin. destruct Hin as (x & Ex & Hx).
    destruct (slot_row_of_op _ _ Ex) as (Hl & Hsq).
    pose proof (extends_above _ _ Hok x Hx Hl) as Hlt. rewrite Hsq in Hlt. exact (N.lt_irrefl _ Hlt).
  - (* its predecessor is the tip it was validated against *)
    intros x Hx Hpr H0. apply in_app_iff in Hx. destruct Hx as [Hx|[<-|[]]].
    + destruct (Hc x Hx Hpr H0) as (p & Hpin & Hrest). exists p. split; [apply in_app_iff; left; exact Hpin|exact Hrest].
    + cbn [row_of r_prune r_seq] in Hpr, H0. cbn [row_of r_seq r_author r_log r_backlink].
      destruct (latest s (o_author o) (o_log o)) as [p|] eqn:El; cbn [extends] in Hok.
      * destruct (latest_some _ _ _ _ El) as (Hpin & Hlog & _). apply in_log_true in Hlog.
        destruct Hok as [(_ & Ha & _ & Hsq & Hb)|(Hpt & _)]; [|congruence].
        exists p. split; [apply in_app_iff; left; exact Hpin|]. repeat split; try assumption. apply Hlog.
      * destruct Hok as [Hz|Hpt]; [|congruence]. rewrite Hz in H0. destruct (N.lt_irrefl _ H0).
  - intros x Hx. apply in_app_iff in Hx. destruct Hx as [Hx|[<-|[]]].
    + apply Hp; exact Hx.
    + exists o. auto.
Qed.

Lemma wf_history_iff : forall ds, wf_history ds = true <->
  (forall x, In x ds -> wf_one x = true) /\
  (forall x y, In x ds -> In y ds -> wf_pair x y = true).
Proof.
  intros ds. unfold wf_history. rewrite andb_true_iff, !forallb_forall.
  split; intros (H1 & H2); (split; [exact H1|]).
  - intros x y Hx Hy. specialize (H2 x Hx). rewrite forallb_forall in H2. exact (H2 y Hy).
  - intros x Hx. apply forallb_forall. intros y Hy. exact (H2 x y Hx Hy).
Qed.

Lemma same_header_true : forall x y, same_header x y = true ->
  o_author x = o_author y /\ o_log x = o_log y /\ o_seq x = o_seq y /\
  o_backlink x = o_backlink y /\ o_prune x = o_prune y.
Proof.
  intros x y H. unfold same_header in H.
  apply andb_prop in H. destruct H as (H & Hp). apply andb_prop in H. destruct H as (H & Hb).
  apply andb_prop in H. destruct H as (H & Hs). apply andb_prop in H. destruct H as (Ha & Hl).
  apply N.eqb_eq in Ha, Hl, Hs. apply eqb_prop in Hp.
  repeat split; try assumption.
  destruct (o_backlink x), (o_backlink y); try discriminate; [|reflexivity].
  apply N.eqb_eq in Hb. subst. reflexivity.
Qed.

Lemma wf_history_same_id : forall ds x y, wf_history ds = true -> In x ds -> In y ds ->
  o_valid x = true -> o_valid y = true -> o_id x = o_id y -> same_header x y = true.
Proof.
  intros ds x y H Hx Hy Hvx Hvy E. apply wf_history_iff in H. destruct H as (H1 & H2).
  pose proof (H1 x Hx) as Ix. pose proof (H1 y Hy) as Iy. specialize (H2 x y Hx Hy).
  unfold wf_one in Ix, Iy. unfold wf_pair in H2. rewrite Hvx in Ix. rewrite Hvy in Iy.
  apply N.eqb_eq in Ix, Iy. rewrite Hvx, Hvy, <- Ix, <- Iy, E, N.eqb_refl in H2.
  apply andb_prop in H2. apply H2.
Qed.

Lemma wf_history_app_l : forall a b, wf_history (a ++ b) = true -> wf_history a = true.
Proof.
  intros a b H. apply wf_history_iff in H. destruct H as (H1 & H2). apply wf_history_iff.
  split; intros; [apply H1|apply H2]; apply in_app_iff; left; assumption.
Qed.

Lemma stored_row_of_op : forall ds s o,
  wf_history ds = true -> prov ds s -> In o ds -> o_valid o = true -> has_op s (o_id o) = true ->
  exists x, In x s /\ slot x = slot (row_of o) /\ r_prune x = o_prune o.
Proof.
  intros ds s o Hwf Hp Ho Hv Hh. apply has_op_true in Hh. destruct Hh as (x & Hx & Eid).
  destruct (Hp x Hx) as (d & Hd & Hvd & ->). cbn [row_of r_id] in Eid.
  pose proof (wf_history_same_id ds d o Hwf Hd Ho Hvd Hv Eid) as Hsame.
  apply same_header_true in Hsame. destruct Hsame as (Ha & Hl & Hs & _ & Hpr).
  exists (row_of d). split; [exact Hx|]. unfold slot. cbn. rewrite Ha, Hl, Hs, Hpr. auto.
Qed.

Lemma ok_row_present : forall ds s o,
  wf_history ds = true -> prov ds s -> In o ds -> res_ok (snd (ingest s o)) = true ->
  exists x, In x (fst (ingest s o)) /\ slot x = slot (row_of o) /\ r_prune x = o_prune o.
Proof.
  intros ds s o Hwf Hp Ho Hok. destruct (res_ok_cases _ _ Hok) as (Hv & [Hh|Hi]).
  - destruct (stored_row_of_op ds s o Hwf Hp Ho Hv Hh) as (x & Hx & Hrest).
    exists x. split; [apply ingest_keeps; exact Hx|exact Hrest].
  - exists (row_of o). rewrite (ingest_inserted_appends _ _ Hi).
    split; [apply in_app_iff; right; left; reflexivity|]. split; reflexivity.
Qed.

Lemma prune_below_In : forall s a l n r,
  In r (prune_below s a l n) <-> In r s /\ ~ (in_log a l r = true /\ r_seq r < n).
Proof.
  intros s a l n r. unfold prune_below. rewrite filter_In. split.
  - intros (Hr & Hk). split; [exact Hr|]. intros (Hl & Hs). apply N.ltb_lt in Hs. rewrite Hl, Hs in Hk. discriminate.
  - intros (Hr & Hk). split; [exact Hr|]. destruct (in_log a l r); [|reflexivity].
    destruct (N.ltb_spec (r_seq r) n); [|reflexivity]. exfalso. apply Hk. auto.
Qed.

Lemma prune_preserves_Inv : forall ds s x,
  Inv ds s -> In x s -> r_prune x = true ->
  Inv ds (prune_below s (r_author x) (r_log x) (r_seq x)).
Proof.
  intros ds s x (Hu & Hc & Hp) Hx Hpx. split; [|split].
  - unfold unique_seq, prune_below. apply NoDup_map_filter. exact Hu.
  - intros r Hr Hpr H0. apply prune_below_In in Hr. destruct Hr as (Hr & Hk).
    destruct (Hc r Hr Hpr H0) as (p & Hpin & Ha & Hl & Hs & Hb).
    exists p. split; [|repeat split; assumption]. apply prune_below_In. split; [exact Hpin|].
    intros (Hpl & Hps). apply in_log_true in Hpl. destruct Hpl as (Hpa & Hpll).
    (* p is deleted, r is kept, r directly follows p: r sits in x's slot, so r = x, a prune row *)
    assert (Hrl : in_log (r_author x) (r_log x) r = true) by (apply in_log_true; split; congruence).
    assert (Hge : ~ r_seq r < r_seq x) by (intros H; apply Hk; auto).
    assert (Heq : r_seq r = r_seq x) by lia.
    assert (r = x) by (apply (unique_seq_same s); try assumption; unfold slot; congruence).
    subst r. congruence.
  - intros r Hr. apply prune_below_In in Hr. apply Hp. apply Hr.
Qed.

Lemma deliver_unfold : forall s o,
  deliver s o =
  (if res_ok (snd (ingest s o)) && o_prune o
   then prune_below (fst (ingest s o)) (o_author o) (o_log o) (o_seq o) else fst (ingest s o),
   snd (ingest s o)).
Proof.
  intros s o. unfold deliver, deliver_with. fold ingest. destruct (ingest s o). reflexivity.
Qed.

Lemma deliver_In_ingest : forall s o r, In r (fst (deliver s o)) -> In r (fst (ingest s o)).
Proof.
  intros s o r H. rewrite deliver_unfold in H. cbn [fst] in H.
  destruct (res_ok (snd (ingest s o)) && o_prune o); [apply prune_below_In in H; tauto|exact H].
Qed.

Lemma deliver_keeps_or_prunes : forall s o r,
  In r s ->
  In r (fst (deliver s o)) \/
  (o_valid o = true /\ o_prune o = true /\ res_ok (snd (deliver s o)) = true /\
   r_author r = o_author o /\ r_log r = o_log o /\ r_seq r < o_seq o).
Proof.
  intros s o r Hr. apply (ingest_keeps s o) in Hr. rewrite deliver_unfold. cbn [fst snd].
  destruct (res_ok (snd (ingest s o))) eqn:Hok; cbn [andb]; [|left; exact Hr].
  destruct (o_prune o); [|left; exact Hr].
  destruct (in_log (o_author o) (o_log o) r) eqn:Hl.
  - destruct (N.lt_ge_cases (r_seq r) (o_seq o)) as [Hlt|Hge].
    + right. apply in_log_true in Hl. destruct Hl as (Ha & Hl).
      destruct (res_ok_cases _ _ Hok) as (Hv & _). repeat split; assumption.
    + left. apply prune_below_In. split; [exact Hr|]. intros (_ & H). lia.
  - left. apply prune_below_In. split; [exact Hr|]. intros (H & _). congruence.
Qed.

(** The prune an event asks for stops below the event itself. *)
Lemma delivered_row_present : forall ds s o,
  wf_history ds = true -> prov ds s -> In o ds -> res_ok (snd (deliver s o)) = true ->
  exists x, In x (fst (deliver s o)) /\ slot x = slot (row_of o) /\ r_prune x = o_prune o.
Proof.
  intros ds s o Hwf Hp Ho Hok. rewrite deliver_unfold in *. cbn [fst snd] in *.
  destruct (ok_row_present ds s o Hwf Hp Ho Hok) as (x & Hx & Hslot & Hpr).
  exists x. split; [|auto].
  destruct (res_ok (snd (ingest s o)) && o_prune o); [|exact Hx].
  apply prune_below_In. split; [exact Hx|]. intros (_ & H).
  destruct (slot_row_of_op _ _ Hslot) as (_ & Hs). rewrite Hs in H. exact (N.lt_irrefl _ H).
Qed.

Lemma deliver_dominates : forall ds s o a l r,
  wf_history ds = true -> prov ds s -> In o ds -> In r s -> in_log a l r = true ->
  exists r', In r' (fst (deliver s o)) /\ in_log a l r' = true /\ r_seq r <= r_seq r'.
Proof.
  intros ds s o a l r Hwf Hp Ho Hr Hl.
  destruct (deliver_keeps_or_prunes s o r Hr) as [Hk|(_ & _ & Hok & Ha & Hlg & Hlt)].
  - exists r. split; [exact Hk|]. split; [exact Hl|apply N.le_refl].
  - destruct (delivered_row_present ds s o Hwf Hp Ho Hok) as (x & Hx & Hslot & _).
    destruct (slot_row_of_op _ _ Hslot) as (Hxl & Hxs).
    exists x. split; [exact Hx|]. split; [|rewrite Hxs; apply N.lt_le_incl; exact Hlt].
    apply in_log_true in Hl, Hxl. apply in_log_true. destruct Hl, Hxl. split; congruence.
Qed.

Theorem deliver_preserves_Inv : forall ds s o,
  wf_history ds = true -> In o ds -> Inv ds s -> Inv ds (fst (deliver s o)).
Proof.
  intros ds s o Hwf Ho HI. rewrite deliver_unfold. cbn [fst].
  pose proof (ingest_preserves_Inv ds s o Ho HI) as HI1.
  destruct (res_ok (snd (ingest s o))) eqn:Hok; cbn [andb]; [|exact HI1].
  destruct (o_prune o) eqn:Hpr; [|exact HI1].
  destruct HI as (_ & _ & Hp).
  destruct (ok_row_present ds s o Hwf Hp Ho Hok) as (x & Hx & Hslot & Hxp).
  (* [deliver] prunes at the operation's coordinates, [prune_preserves_Inv] at those of its row *)
  destruct (slot_row_of_op _ _ Hslot) as (Hl & <-). apply in_log_true in Hl. destruct Hl as (<- & <-).
  apply prune_preserves_Inv; [exact HI1|exact Hx|congruence].
Qed.

Lemma run_from_invariant : forall (P : store -> Prop) ds,
  wf_history ds = true ->
  (forall s o, In o ds -> Inv ds s -> P s -> P (fst (deliver s o))) ->
  forall xs s, (forall x, In x xs -> In x ds) -> Inv ds s -> P s ->
  Inv ds (run_from s xs) /\ P (run_from s xs).
Proof.
  intros P ds Hwf Hstep. induction xs as [|o t IH]; intros s Hsub HI HP; [split; assumption|].
  assert (Ho : In o ds) by (apply Hsub; left; reflexivity).
  cbn [run_from fold_left]. apply IH.
  - intros x Hx. apply Hsub. right. exact Hx.
  - apply deliver_preserves_Inv; assumption.
  - apply Hstep; assumption.
Qed.

Lemma run_prefix_Inv : forall pre post, wf_history (pre ++ post) = true -> Inv (pre ++ post) (run pre).
Proof.
  intros pre post Hwf.
  apply (run_from_invariant (fun _ => True) (pre ++ post) Hwf (fun _ _ _ _ _ => I) pre []).
  - intros x Hx. apply in_app_iff. left. exact Hx.
  - split; [constructor|]. split; intros r [].
  - exact I.
Qed.

Theorem deliveries_Inv_prefix : forall pre post,
  wf_history (pre ++ post) = true -> unique_seq (run pre) /\ chain_ok (run pre).
Proof. intros pre post H. destruct (run_prefix_Inv pre post H) as (A & B & _). split; assumption. Qed.

(** C03, chain part: after any delivery sequence from non-equivocating authors (any order,
    duplicates, gaps, forged or corrupted copies) every stored log has unique sequence numbers and
    every stored non-prune entry with seq > 0 links to the stored entry directly before it.
    (Every intermediate state is covered: a prefix of a well-formed history is well-formed.) *)
Theorem deliveries_Inv : forall ds, wf_history ds = true -> unique_seq (run ds) /\ chain_ok (run ds).
Proof. intros ds Hwf. apply (deliveries_Inv_prefix ds []). rewrite app_nil_r. exact Hwf. Qed.

Lemma height_mono_gen : forall s s' a l,
  (forall r, In r s -> in_log a l r = true ->
     exists r', In r' s' /\ in_log a l r' = true /\ r_seq r <= r_seq r') ->
  opt_le (height s a l) (height s' a l) = true.
Proof.
  intros s s' a l H. unfold height.
  destruct (latest s a l) as [m|] eqn:E; cbn [option_map opt_le]; [|reflexivity].
  destruct (latest_some _ _ _ _ E) as (Hm & Hml & _).
  destruct (H m Hm Hml) as (r' & Hr' & Hl' & Hle).
  destruct (latest_exists _ _ _ _ Hr' Hl') as (m' & E'). rewrite E'. cbn [option_map opt_le].
  destruct (latest_some _ _ _ _ E') as (_ & _ & Hmax).
  apply N.leb_le. exact (N.le_trans _ _ _ Hle (Hmax r' Hr' Hl')).
Qed.

Lemma run_app : forall a b, run (a ++ b) = run_from (run a) b.
Proof. intros a b. unfold run, run_from. apply fold_left_app. Qed.

(** C03, height part: no delivery lowers the height of any log. *)
Theorem height_monotone : forall ds o a l,
  wf_history (ds ++ [o]) = true ->
  opt_le (height (run ds) a l) (height (run (ds ++ [o])) a l) = true.
Proof.
  intros ds o a l Hwf. rewrite run_app. cbn [run_from fold_left].
  apply height_mono_gen. intros r.
  apply (deliver_dominates (ds ++ [o])); [exact Hwf|apply (run_prefix_Inv _ _ Hwf)|].
  apply in_app_iff. right. left. reflexivity.
Qed.

(** The log must also stay non-empty: into an empty log [ingest] accepts seq 0 or any prune point,
    whereas above a stored row at or over [n] it accepts only what lies higher still. *)
Definition low_water (a l n : N) (s : store) : Prop :=
  (forall r, In r s -> in_log a l r = true -> n <= r_seq r) /\
  (exists x, In x s /\ in_log a l x = true).

(** Whatever [ingest] appends to a log lies above the log's tip, hence above the mark. *)
Lemma low_water_ingest : forall s o a l n,
  low_water a l n s -> low_water a l n (fst (ingest s o)).
Proof.
  intros s o a l n (Hall & x & Hx & Hxl).
  destruct (ingest_shape s o) as [(_ & -> & _ & _ & Hok)|(_ & ->)].
  - split.
    + intros r Hr Hl. apply in_app_iff in Hr. destruct Hr as [Hr|[<-|[]]]; [apply Hall; assumption|].
      cbn [row_of r_seq]. apply in_log_true in Hl. cbn [row_of r_author r_log] in Hl. destruct Hl as (<- & <-).
      pose proof (extends_above _ _ Hok x Hx Hxl). specialize (Hall x Hx Hxl). lia.
    + exists x. split; [apply in_app_iff; left; exact Hx|exact Hxl].
  - split; [exact Hall|eauto].
Qed.

Lemma low_water_preserved : forall ds s o a l n,
  wf_history ds = true -> In o ds -> prov ds s ->
  low_water a l n s -> low_water a l n (fst (deliver s o)).
Proof.
  intros ds s o a l n Hwf Ho Hp HL. split.
  - intros r Hr. apply deliver_In_ingest in Hr. revert r Hr. apply low_water_ingest. exact HL.
  - destruct HL as (_ & x & Hx & Hxl).
    destruct (deliver_dominates ds s o a l x Hwf Hp Ho Hx Hxl) as (x' & Hx' & Hxl' & _). eauto.
Qed.

Lemma prune_point_low_water : forall pre o post,
  wf_history (pre ++ o :: post) = true ->
  o_prune o = true -> res_ok (snd (deliver (run pre) o)) = true ->
  Inv (pre ++ o :: post) (run (pre ++ [o])) /\
  low_water (o_author o) (o_log o) (o_seq o) (run (pre ++ [o])).
Proof.
  intros pre o post Hwf Hpr Hok. rewrite run_app. cbn [run_from fold_left].
  assert (Ho : In o (pre ++ o :: post)) by (apply in_app_iff; right; left; reflexivity).
  pose proof (run_prefix_Inv _ _ Hwf) as HI. split; [apply deliver_preserves_Inv; assumption|].
  destruct HI as (_ & _ & Hp). split.
  - intros r Hr Hl. rewrite deliver_unfold in *. cbn [fst snd] in *. rewrite Hok, Hpr in Hr.
    apply prune_below_In in Hr. destruct Hr as (_ & Hk).
    destruct (N.lt_ge_cases (r_seq r) (o_seq o)) as [H|H]; [exfalso; apply Hk; auto|exact H].
  - destruct (delivered_row_present _ _ o Hwf Hp Ho Hok) as (x & Hx & Hslot & _).
    exists x. split; [exact Hx|]. apply (slot_row_of_op _ _ Hslot).
Qed.

(** C05: once a prune-flagged operation at [N] was ingested for a log (inserted, or recognised
    as already stored), every later state -- whatever is delivered afterwards, in whatever
    order -- holds only entries of that log with seq >= N (and the log does not vanish). *)
Theorem no_resurrection : forall pre o post,
  wf_history (pre ++ o :: post) = true ->
  o_prune o = true -> res_ok (snd (deliver (run pre) o)) = true ->
  forall r, In r (run (pre ++ o :: post)) ->
    in_log (o_author o) (o_log o) r = true -> o_seq o <= r_seq r.
Proof.
  intros pre o post Hwf Hpr Hok.
  destruct (prune_point_low_water pre o post Hwf Hpr Hok) as (HI & HL).
  change (o :: post) with ([o] ++ post). rewrite app_assoc, run_app.
  apply (run_from_invariant (low_water _ _ _) _ Hwf); try assumption.
  - intros s o' Ho (_ & _ & Hp). apply (low_water_preserved (pre ++ o :: post)); assumption.
  - intros x Hx. apply in_app_iff. right. right. exact Hx.
Qed.

(** C04: pruning is authenticated and scoped; per pipeline step, no history hypotheses. *)

Theorem failed_event_changes_nothing : forall s o,
  res_ok (snd (deliver s o)) = false -> fst (deliver s o) = s.
Proof.
  intros s o H. rewrite deliver_unfold in *. cbn [fst snd] in *. rewrite H. cbn [andb].
  apply ingest_not_inserted_unchanged. intros E. rewrite E in H. discriminate.
Qed.

Theorem invalid_event_changes_nothing : forall s o,
  o_valid o = false -> deliver s o = (s, Rejected EInvalid).
Proof.
  intros s o H. rewrite deliver_unfold. rewrite (rejected_invalid s o H). reflexivity.
Qed.

(** Forged signature or not, prune flag or not: an operation not yet stored at or below the tip
    of its log (a fork, or an older prune point after a newer one) fails and changes nothing. *)
Theorem not_above_tip_changes_nothing : forall s o p,
  has_op s (o_id o) = false -> latest s (o_author o) (o_log o) = Some p -> o_seq o <= r_seq p ->
  fst (deliver s o) = s /\ res_ok (snd (deliver s o)) = false.
Proof.
  intros s o p Hh Hl Hle.
  assert (Hr : res_ok (snd (deliver s o)) = false).
  { rewrite deliver_unfold. cbn [snd]. apply not_true_is_false. intros Hok.
    destruct (res_ok_cases _ _ Hok) as (_ & [H|H]); [congruence|].
    apply ingest_inserted_iff in H. destruct H as (_ & _ & Hx). rewrite Hl in Hx.
    destruct Hx as [(_ & _ & _ & H & _)|(_ & H)]; lia. }
  split; [apply failed_event_changes_nothing; exact Hr|exact Hr].
Qed.

Theorem deleted_only_by_authentic_prune_in_scope : forall s o r,
  In r s -> ~ In r (fst (deliver s o)) ->
  o_valid o = true /\ o_prune o = true /\ res_ok (snd (deliver s o)) = true /\
  r_author r = o_author o /\ r_log r = o_log o /\ r_seq r < o_seq o.
Proof.
  intros s o r Hr Hnot. destruct (deliver_keeps_or_prunes s o r Hr) as [H|H]; [contradiction|exact H].
Qed.

Theorem prune_deletes_exactly_the_prefix : forall s o r,
  o_prune o = true -> res_ok (snd (deliver s o)) = true -> In r s ->
  (In r (fst (deliver s o)) <-> ~ (r_author r = o_author o /\ r_log r = o_log o /\ r_seq r < o_seq o)).
Proof.
  intros s o r Hpr Hok Hr. apply (ingest_keeps s o) in Hr.
  rewrite deliver_unfold in *. cbn [fst snd] in *. rewrite Hok, Hpr. cbn [andb].
  rewrite prune_below_In. split.
  - intros (_ & H) (Ha & Hl & Hs). apply H. split; [apply in_log_true; auto|exact Hs].
  - intros H. split; [exact Hr|]. intros (Hl & Hs). apply in_log_true in Hl. apply H. tauto.
Qed.

Theorem no_prune_flag_no_deletion : forall s o r,
  o_prune o = false -> In r s -> In r (fst (deliver s o)).
Proof.
  intros s o r Hpr Hr. destruct (deliver_keeps_or_prunes s o r Hr) as [H|(_ & H & _)]; [exact H|congruence].
Qed.

Definition w_op (a l sq id : N) (bl : option N) (pr : bool) (valid : bool) : op :=
  mkOp a l sq id id bl pr true valid.

(** C05 as it was: prune point 7 ingested and applied, then the older prune point 3 is stored. *)
Definition c05_witness : list op :=
  [w_op 1 1 7 8 (Some 7) true true; w_op 1 1 3 4 (Some 3) true true].

Theorem deliver_asis_prune_refuted :
  wf_history c05_witness = true /\
  map r_seq (fold_left (fun s o => fst (deliver_asis_prune s o)) c05_witness []) = [7; 3].
Proof. vm_compute. split; reflexivity. Qed.

(** C04 as it was: a forged (not validated) prune-flagged operation wipes the victim's log. *)
Definition c04_victim_log : list op :=
  [w_op 1 1 0 1 None false true; w_op 1 1 1 2 (Some 1) false true; w_op 1 1 2 3 (Some 2) false true].
Definition c04_forged : op := w_op 1 1 3 99 (Some 3) true false.

Theorem deliver_asis_pipeline_refuted :
  snd (deliver_asis_pipeline (run c04_victim_log) c04_forged) = Rejected EInvalid /\
  List.length (run c04_victim_log) = 3%nat /\
  fst (deliver_asis_pipeline (run c04_victim_log) c04_forged) = [].
Proof. vm_compute. repeat split; reflexivity. Qed.

(** ... and the repaired model on the same inputs. *)
Example c05_witness_repaired : map r_seq (run c05_witness) = [7].
Proof. vm_compute. reflexivity. Qed.
Example c04_witness_repaired : fst (deliver (run c04_victim_log) c04_forged) = run c04_victim_log.
Proof. vm_compute. reflexivity. Qed.

(** Open finding: the hash field of an [Operation] is not validated.
    [validate_operation] never compares [Operation.hash] with [header.hash()].  If an operation
    carrying a *foreign* hash field is accepted (here: author 2's own first operation stored under
    the hash of author 1's prune point), the genuine prune point is later answered
    [AlreadyExists] and log-prune runs although the prune point is not in the log: author 1's
    log is emptied and its height drops.  The history satisfies everything in [wf_history]
    except "hash field = header hash": [ids_ok] is that part (the checks' test for this known
    finding, [ids_ok] in vlib/props/ingestlib.py, is the same predicate), [pairs_ok] the rest. *)
Definition pairs_ok (ds : list op) : bool := forallb (fun x => forallb (wf_pair x) ds) ds.
Definition ids_ok (ds : list op) : bool := forallb wf_one ds.

Lemma wf_history_split : forall ds, wf_history ds = ids_ok ds && pairs_ok ds.
Proof. reflexivity. Qed.

Definition foreign_hash_witness : list op :=
  [ w_op 1 1 0 1 None false true; w_op 1 1 1 2 (Some 1) false true; w_op 1 1 2 3 (Some 2) false true;
    mkOp 2 1 0 4 5 None false true true ].
Definition foreign_hash_last : op := w_op 1 1 3 4 (Some 3) true true.

Theorem foreign_hash_field_refuted :
  pairs_ok (foreign_hash_witness ++ [foreign_hash_last]) = true /\
  height (run foreign_hash_witness) 1 1 = Some 2 /\
  height (run (foreign_hash_witness ++ [foreign_hash_last])) 1 1 = None.
Proof. vm_compute. repeat split; reflexivity. Qed.

(** Outside that class (every validated operation carries its own header hash) the height
    theorem holds. *)
Theorem height_monotone_ids_ok : forall ds o a l,
  pairs_ok (ds ++ [o]) = true -> ids_ok (ds ++ [o]) = true ->
  opt_le (height (run ds) a l) (height (run (ds ++ [o])) a l) = true.
Proof.
  intros ds o a l Hp Hi. apply height_monotone. rewrite wf_history_split, Hi, Hp. reflexivity.
Qed.

(** Non-vacuity: a well-formed history with two authors, a prune point, an out-of-order
    delivery, a duplicate and a forged copy; the theorems' hypotheses hold for it and the
    resulting store is not trivial. *)
Definition ex_history : list op :=
  [ w_op 1 1 1 2 (Some 1) false true;      (* arrives before its predecessor: rejected *)
    w_op 1 1 0 1 None false true;
    w_op 1 1 1 2 (Some 1) false true;
    w_op 2 1 0 11 None false true;
    w_op 1 1 1 2 (Some 1) false true;      (* duplicate *)
    w_op 1 1 2 3 (Some 2) true true;       (* prune point *)
    w_op 1 1 1 77 (Some 1) true false;     (* forged prune-flagged copy *)
    w_op 1 1 3 4 (Some 3) false true;
    w_op 1 1 0 1 None false true ].        (* pruned prefix arrives again: rejected *)

Example ex_history_wf : wf_history ex_history = true.
Proof. vm_compute. reflexivity. Qed.
Example ex_history_store : map (fun r => (r_author r, r_seq r)) (run ex_history) = [(2, 0); (1, 2); (1, 3)].
Proof. vm_compute. reflexivity. Qed.
Example ex_no_resurrection_hyp :
  res_ok (snd (deliver (run (firstn 5 ex_history)) (w_op 1 1 2 3 (Some 2) true true))) = true.
Proof. vm_compute. reflexivity. Qed.

Lemma chain_okb_sound : forall s, chain_okb s = true -> chain_ok s.
Proof.
  intros s H r Hr Hpr H0. unfold chain_okb in H. rewrite forallb_forall in H. specialize (H r Hr).
  unfold chain_row_ok in H. rewrite Hpr in H. cbn [orb] in H.
  apply orb_true_iff in H. destruct H as [H|H]; [apply N.eqb_eq in H; lia|].
  apply existsb_exists in H. destruct H as (p & Hp & H).
  apply andb_prop in H. destruct H as (H & Hb). apply andb_prop in H. destruct H as (Hl & Hs).
  apply in_log_true in Hl. apply N.eqb_eq in Hs. destruct Hl as (Ha & Hl).
  exists p. repeat split; try assumption.
  destruct (r_backlink r) as [b|]; [|discriminate]. apply N.eqb_eq in Hb. subst b. reflexivity.
Qed.

Lemma slot_eq_true : forall x y, slot x = slot y -> slot_eq x y = true.
Proof. intros x y [= Ha Hl Hs]. unfold slot_eq. rewrite Ha, Hl, Hs, !N.eqb_refl. reflexivity. Qed.

Lemma unique_seqb_sound : forall s, unique_seqb s = true -> unique_seq s.
Proof.
  unfold unique_seq. induction s as [|r t IH]; intros H.
  - constructor.
  - cbn [unique_seqb] in H. apply andb_prop in H. destruct H as (H1 & H2).
    cbn [map]. constructor; [|apply IH; exact H2].
    intros Hin. apply in_map_iff in Hin. destruct Hin as (y & Ey & Hy).
    apply negb_true_iff in H1. assert (existsb (slot_eq r) t = true); [|congruence].
    apply existsb_exists. exists y. split; [exact Hy|]. apply slot_eq_true. auto.
Qed.
