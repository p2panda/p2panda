(** Proofs about the hybrid timestamp model (C18; reused by C16).

    Two facts about one increment carry everything else: whenever it returns, the result is
    strictly greater ([increment_lt], no guard), and it fails exactly at the overflow boundary
    ([increment_none_iff]).  Sequences ([run], [republish]) are strictly sorted for the first
    reason alone and complete for the second. *)
From Coq Require Import List NArith Bool Lia Sorted.
From PV Require Import Model.Timestamp.
Import ListNotations.
Local Open Scope N_scope.

Lemma hltb_spec (a b : hts) : hltb a b = true <-> hlt a b.
Proof.
  unfold hltb, hlt. rewrite orb_true_iff, andb_true_iff, !N.ltb_lt, N.eqb_eq. tauto.
Qed.

Lemma hlt_irrefl (a : hts) : ~ hlt a a.
Proof. unfold hlt. lia. Qed.

Lemma hlt_trans (a b c : hts) : hlt a b -> hlt b c -> hlt a c.
Proof. unfold hlt. lia. Qed.

Lemma hlt_neq (a b : hts) : hlt a b -> a <> b.
Proof. intros H E. subst. exact (hlt_irrefl _ H). Qed.

Lemma hlt_chain (a b : hts) (l : list hts) :
  hlt a b -> StronglySorted hlt (b :: l) -> StronglySorted hlt (a :: b :: l).
Proof.
  intros L S. constructor; [exact S|]. constructor; [exact L|].
  apply StronglySorted_inv in S. eapply Forall_impl; [|exact (proj2 S)].
  intros x. exact (hlt_trans a b x L).
Qed.

Lemma sorted_nodup (l : list hts) : StronglySorted hlt l -> NoDup l.
Proof.
  induction 1 as [|a l Hs IH Hall]; constructor; [|exact IH].
  intros Hin. rewrite Forall_forall in Hall. exact (hlt_irrefl _ (Hall _ Hin)).
Qed.

Lemma increment_cases (h : hts) (now : N) :
  (fst h < now /\ increment h now = Some (now, 0)) \/
  (now <= fst h /\ snd h < u64max /\ increment h now = Some (fst h, snd h + 1)) \/
  (now <= fst h /\ u64max <= snd h /\ increment h now = None).
Proof.
  unfold increment, lamport_inc.
  destruct (N.ltb_spec (fst h) now) as [H|H].
  - left. auto.
  - right. destruct (N.ltb_spec (snd h) u64max) as [L|L]; [left|right]; auto.
Qed.

Theorem increment_none_iff (h : hts) (now : N) :
  increment h now = None <-> (now <= fst h /\ u64max <= snd h).
Proof.
  destruct (increment_cases h now) as [[H E]|[[H [L E]]|[H [L E]]]]; rewrite E; split;
    try discriminate; try lia; auto.
Qed.

Lemma increment_lt {h h' : hts} {now : N} : increment h now = Some h' -> hlt h h'.
Proof.
  destruct (increment_cases h now) as [[H E]|[[H [L E]]|[H [L E]]]]; rewrite E; intros [= <-].
  - left. exact H.
  - right. cbn [fst snd]. lia.
Qed.

Lemma increment_logical_bound {h h' : hts} {now : N} :
  increment h now = Some h' -> snd h' <= snd h + 1.
Proof.
  destruct (increment_cases h now) as [[H E]|[[H [L E]]|[H [L E]]]]; rewrite E; intros [= <-];
    cbn [snd]; lia.
Qed.

Theorem increment_gt (h : hts) (now : N) :
  (now <= fst h -> snd h < u64max) ->
  exists h', increment h now = Some h' /\ hlt h h'.
Proof.
  intros G. destruct (increment h now) as [h'|] eqn:E.
  - exists h'. split; [reflexivity|exact (increment_lt E)].
  - apply increment_none_iff in E. lia.
Qed.

Example increment_gt_nonvacuous_backwards :
  increment (1000, 0) 500 = Some (1000, 1) /\ hlt (1000, 0) (1000, 1).
Proof. split; [reflexivity|]. right. cbn. lia. Qed.
Example increment_gt_nonvacuous_forward :
  increment (1000, 7) 1001 = Some (1001, 0) /\ hlt (1000, 7) (1001, 0).
Proof. split; [reflexivity|]. left. cbn. lia. Qed.

(** With the clock not ahead and the logical counter at u64::MAX the debug build
    panics and the release build wraps the counter to 0, which is *not* greater. *)
Theorem increment_overflow_boundary (t now : N) :
  now <= t ->
  increment (t, u64max) now = None /\
  increment_wrap (t, u64max) now = (t, 0) /\
  ~ hlt (t, u64max) (increment_wrap (t, u64max) now).
Proof.
  intros H. assert (E : increment_wrap (t, u64max) now = (t, 0)).
  { unfold increment_wrap, lamport_inc_wrap. cbn [fst snd].
    destruct (N.ltb_spec t now); [lia|]. reflexivity. }
  split; [|split].
  - apply increment_none_iff. cbn [fst snd]. lia.
  - exact E.
  - rewrite E. unfold hlt, u64max. cbn [fst snd]. lia.
Qed.

Lemma increment_wrap_agrees (h h' : hts) (now : N) :
  increment h now = Some h' -> increment_wrap h now = h'.
Proof.
  unfold increment, increment_wrap, lamport_inc, lamport_inc_wrap.
  destruct (fst h <? now); [congruence|].
  destruct (snd h <? u64max); congruence.
Qed.

(** The code before the repair violated the statement (regression witness, replayed on the
    implementation on every run through findings/C18-clock-backwards.json). *)
Theorem increment_asis_refuted :
  exists h now h', increment_asis h now = Some h' /\ ~ hlt h h'.
Proof.
  exists (1000, 0), 500, (500, 0). split; [reflexivity|]. unfold hlt. cbn [fst snd]. lia.
Qed.

Lemma run_cons {h h1 : hts} {n : N} (r : list N) :
  increment h n = Some h1 -> run h (n :: r) = (h1 :: fst (run h1 r), snd (run h1 r)).
Proof. intros E. cbn [run]. rewrite E. destruct (run h1 r). reflexivity. Qed.

Lemma run_panic {h : hts} {n : N} (r : list N) :
  increment h n = None -> run h (n :: r) = ([], false).
Proof. intros E. cbn [run]. rewrite E. reflexivity. Qed.

Lemma run_chain (nows : list N) : forall h, StronglySorted hlt (h :: fst (run h nows)).
Proof.
  induction nows as [|n r IH]; intros h; [repeat constructor|].
  destruct (increment h n) as [h1|] eqn:E.
  - rewrite (run_cons r E). exact (hlt_chain h h1 _ (increment_lt E) (IH h1)).
  - rewrite (run_panic r E). repeat constructor.
Qed.

(** Each increment raises the logical counter by at most one, so a run that cannot reach the
    boundary does not panic. *)
Lemma run_complete (nows : list N) : forall h,
  snd h + N.of_nat (length nows) <= u64max ->
  snd (run h nows) = true /\ length (fst (run h nows)) = length nows.
Proof.
  induction nows as [|n r IH]; intros h G; [split; reflexivity|].
  cbn [length] in G. rewrite Nat2N.inj_succ in G.
  destruct (increment h n) as [h1|] eqn:E.
  - rewrite (run_cons r E). cbn [fst snd length].
    apply increment_logical_bound in E. destruct (IH h1) as [A B]; [lia|].
    split; [exact A|f_equal; exact B].
  - apply increment_none_iff in E. lia.
Qed.

Theorem increments_strictly_sorted (h : hts) (nows : list N) :
  snd h + N.of_nat (length nows) <= u64max ->
  snd (run h nows) = true /\
  length (fst (run h nows)) = length nows /\
  StronglySorted hlt (h :: fst (run h nows)).
Proof.
  intros G. destruct (run_complete nows h G) as [A B]. exact (conj A (conj B (run_chain nows h))).
Qed.

Example increments_strictly_sorted_nonvacuous :
  run (1000, 0) [500; 1000; 999; 1001; 1001; 3] =
  ([(1000, 1); (1000, 2); (1000, 3); (1001, 0); (1001, 1); (1001, 2)], true).
Proof. reflexivity. Qed.

Theorem increments_pairwise_distinct (h : hts) (nows : list N) : NoDup (h :: fst (run h nows)).
Proof. apply sorted_nodup, run_chain. Qed.

Lemma update_transports_newer (cur other : tinfo) :
  sig_ok other = true -> hlt (ts cur) (ts other) ->
  update_transports (Some cur) other = (UOk true, Some other).
Proof.
  intros S L. apply hltb_spec in L. unfold update_transports. rewrite S, L. reflexivity.
Qed.

(** [created] cannot matter: with a previous record [increment_timestamp] ignores its own. *)
Theorem transport_info_newer (cur : tinfo) (created now a : N) :
  (now <= fst (ts cur) -> snd (ts cur) < u64max) ->
  exists t,
    increment_timestamp (hnow created) (Some cur) now = Some t /\
    hlt (ts cur) t /\
    update_transports (Some cur) {| ts := t; sig_ok := true; addrs := a |}
    = (UOk true, Some {| ts := t; sig_ok := true; addrs := a |}).
Proof.
  intros G. destruct (increment_gt (ts cur) now G) as [t [E L]].
  exists t. split; [exact E|]. split; [exact L|].
  apply update_transports_newer; [reflexivity|exact L].
Qed.

Example transport_info_newer_nonvacuous :
  let cur := {| ts := (1000, 0); sig_ok := true; addrs := 1 |} in
  increment_timestamp (hnow 400) (Some cur) 500 = Some (1000, 1) /\
  fst (update_transports (Some cur) {| ts := (1000, 1); sig_ok := true; addrs := 2 |}) = UOk true.
Proof. split; reflexivity. Qed.

(** Every record is accepted because [update_transports] asks for exactly what [increment_lt]
    gives; the creation-time reading plays no part (it is overwritten). *)
Lemma republish_run (rounds : list (N * N)) : forall cur,
  republish cur rounds =
  (map (fun t => (t, true)) (fst (run (ts cur) (map snd rounds))), snd (run (ts cur) (map snd rounds))).
Proof.
  induction rounds as [|[created now] r IH]; intros cur; [reflexivity|].
  cbn [republish increment_timestamp map snd].
  destruct (increment (ts cur) now) as [t|] eqn:E.
  - rewrite (run_cons _ E), update_transports_newer, IH by (reflexivity || exact (increment_lt E)).
    reflexivity.
  - rewrite (run_panic _ E). reflexivity.
Qed.

Theorem republish_always_accepted (cur : tinfo) (rounds : list (N * N)) :
  snd (ts cur) + N.of_nat (length rounds) <= u64max ->
  snd (republish cur rounds) = true /\
  length (fst (republish cur rounds)) = length rounds /\
  Forall (fun p => snd p = true) (fst (republish cur rounds)).
Proof.
  intros G. rewrite republish_run. cbn [fst snd].
  destruct (run_complete (map snd rounds) (ts cur)) as [A B]; [rewrite map_length; exact G|].
  split; [exact A|]. split; [rewrite map_length, B; apply map_length|].
  apply Forall_map, Forall_forall. reflexivity.
Qed.

Example republish_nonvacuous :
  republish {| ts := (1000, 0); sig_ok := true; addrs := 0 |} [(10, 20); (2000, 2001); (5, 2001)]
  = ([((1000, 1), true); ((2001, 0), true); ((2001, 1), true)], true).
Proof. reflexivity. Qed.
