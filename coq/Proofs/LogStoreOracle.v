(** Soundness of the C08 oracle: [check] accepts an implementation observation only if it is,
    call by call, what the model answers (a latest entry being one of the admissible rows), and
    hence contains no panic. *)
From Coq Require Import List NArith Bool.
From PV Require Import Model.LogStore Oracle.C08.
Import ListNotations.
Local Open Scope N_scope.

Lemma all2_Forall2 {A B} (f : A -> B -> bool) a : forall b,
  all2 f a b = true <-> Forall2 (fun x y => f x y = true) a b.
Proof.
  induction a as [|x a IH]; intros [|y b]; cbn [all2]; split; intros H; try discriminate; try constructor;
    try (inversion H; fail).
  - apply andb_true_iff in H. tauto.
  - apply andb_true_iff in H. apply IH. tauto.
  - inversion H; subst. apply andb_true_iff. split; auto. now apply IH.
Qed.

Lemma eqb_listN_eq a : forall b, eqb_list N.eqb a b = true -> a = b.
Proof.
  induction a as [|x a IH]; intros [|y b] H; cbn [eqb_list] in H; try discriminate; auto.
  apply andb_true_iff in H. destruct H as [H1 H2]. apply N.eqb_eq in H1. f_equal; auto.
Qed.

Lemma obs_ok_not_panic m : obs_ok m IPanic = false.
Proof. destruct m as [| |[|]| | | | |]; reflexivity. Qed.

Theorem check_sound : forall tab its hs io,
  check tab its hs io = true ->
  hs = map header_size tab /\
  Forall2 (fun m i => obs_ok m i = true) (snd (run tab [] its)) io /\
  ~ In IPanic io.
Proof.
  intros tab its hs io H. unfold check in H. apply andb_true_iff in H. destruct H as [H1 H2].
  apply eqb_listN_eq in H1. apply all2_Forall2 in H2. split; [auto|]. split; [auto|].
  intros Hin. clear H1. induction H2 as [|m i ms is_ Hmi _ IH]; [inversion Hin|].
  destruct Hin as [->|Hin]; auto. rewrite obs_ok_not_panic in Hmi. discriminate.
Qed.

Example check_ex :
  check [mkop 0 0 0 false; mkop 0 1 7 true] [Ins 0 0; Ins 1 0; Ins 1 1; Latest 0 0; Heights 0 []; Size 0 0 None None]
        [104; 172] [IBool true; IBool true; IBool false; ILatest (Some (1, 1, true)); IHeights None; ISize (Some (2, 283))] = true.
Proof. vm_compute. reflexivity. Qed.
