(** Soundness of the C38 oracle: whatever [check] accepts satisfies the per-answer demand. *)
From Coq Require Import List Bool.
From PV Require Import Model.KeyRegistry Oracle.C38.
Import ListNotations.
Local Open Scope N_scope.

Definition obs_ok (pool : list bundle) (o : op) (x : obs) : Prop :=
  match o, x with
  | AddOT t _ b, OA | AddLT t _ b, OA => valid_at t b = true
  | GetOT t _, OG (Some k) v | GetLT t _, OG (Some k) v =>
      v = true /\ exists b, find_tag pool k = Some b /\ valid_at t b = true
  | _, _ => True
  end.

Theorem check_sound pool : forall ops os acc,
  check_all pool acc ops os = true -> Forall2 (obs_ok pool) ops os.
Proof.
  induction ops as [|o ops IH]; intros os acc H; destruct os as [|x os]; try discriminate.
  - constructor.
  - cbn [check_all] in H.
    destruct o as [t i b|t i b|t i|t i|t|t i l|t i l|t i]; destruct x as [| |[k|] v| | |]; try discriminate;
      try (apply andb_true_iff in H; destruct H as [H1 H2]);
      (constructor; [|eapply IH; eassumption]); cbn [obs_ok]; try exact I; try assumption.
    all: destruct (find_tag pool k) as [b'|]; [|discriminate].
    all: apply andb_true_iff in H1; destruct H1 as [H1 _].
    all: apply andb_true_iff in H1; destruct H1 as [Hv ->].
    all: split; [reflexivity|]; exists b'; split; [reflexivity|exact Hv].
Qed.
