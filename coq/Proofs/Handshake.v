(** Proofs about the topic handshake model (Model/Handshake.v) — property C25.

    Trusted assumptions (Section variables): the topic type [T] is arbitrary (no hypothesis on it).

    One side against an environment.  Each machine is a straight-line program, so its result is a
    closed-form function of the environment ([run_initiator], [run_acceptor], by symbolic
    execution); the theorems about results are read off it.  What the trace looks like is proved
    for [run_env] in general, through the big-step relation [runs]: a refused sink operation or
    event send, or a closed stream, is the last thing a run does.

    The two machines composed over FIFO channels ([honest_*]): every reachable state is the
    canonical one for the number of statements each side has executed, for every schedule; hence
    no side errs, outputs are right, no deadlock, at most 20 steps. *)
From Coq Require Import List Arith Lia.
From PV Require Import Model.Handshake.
Import ListNotations.

Section HandshakeProofs.
Variable T : Type.

Notation item := (item T).
Notation result := (result T).
Notation role := (role T).

Definition result_of (x : option result * env T * obs T) : option result := fst (fst x).
Definition obs_of (x : option result * env T * obs T) : obs T := snd x.

(** A complete run performs 5 sink operations on the initiator's side (send, send, flush) and 3
    on the acceptor's (send, flush). *)
Definition sink_faulty (nops : nat) (sf : option nat) : bool :=
  match sf with Some k => Nat.ltb k nops | None => false end.

Lemma sink_faulty_mono : forall n m sf, n <= m -> sink_faulty m sf = false -> sink_faulty n sf = false.
Proof.
  intros n m [k|] Hnm; [|reflexivity]. unfold sink_faulty. rewrite !Nat.ltb_ge. lia.
Qed.

Definition recv_err (next : list item) : err T :=
  match next with [] => EClosure | IErr :: _ => ESink | IMsg m :: _ => EUnexpected m end.

(** The statements fail in program order.  Initiator: event, two sink operations, receive, three
    more sink operations.  Acceptor: event, receive, two sink operations (reported as [EStream]),
    receive, one sink operation.  The event receiver is alive for the whole run or not at all,
    so only the first event send can fail. *)
Definition initiator_result (items : list item) (sf : option nat) (evo : bool) : result :=
  if negb evo then Err EMpsc
  else if sink_faulty 2 sf then Err ESink
  else match items with
       | IMsg Done :: _ => if sink_faulty 5 sf then Err ESink else Ok None
       | _ => Err (recv_err items)
       end.

Definition acceptor_result (items : list item) (sf : option nat) (evo : bool) : result :=
  if negb evo then Err EMpsc
  else match items with
       | IMsg (Topic t') :: rest =>
           if sink_faulty 2 sf then Err EStream
           else match rest with
                | IMsg Done :: _ => if sink_faulty 3 sf then Err ESink else Ok (Some t')
                | _ => Err (recv_err rest)
                end
       | _ => Err (recv_err items)
       end.

(* By what a receive finds next: nothing, a topic, Done, an error item. *)
Ltac ditem l := destruct l as [|[[?t|]|] ?rest].

(** Symbolic execution: at each statement, split only on what it reads; every branch but one
    returns at once. *)
Lemma run_initiator : forall t items sf evo,
  result_of (run_side (Initiator t) (mkenv items sf evo)) = Some (initiator_result items sf evo).
Proof.
  intros t items sf evo. destruct evo; [|reflexivity].
  destruct sf as [[|[|k]]|]; [reflexivity | reflexivity | |]; ditem items; try reflexivity.
  destruct k as [|[|[|k]]]; reflexivity.
Qed.

Lemma run_acceptor : forall items sf evo,
  result_of (run_side Acceptor (mkenv items sf evo)) = Some (acceptor_result items sf evo).
Proof.
  intros items sf evo. destruct evo; [|reflexivity].
  ditem items; try reflexivity.
  destruct sf as [[|[|k]]|]; [reflexivity | reflexivity | |]; ditem rest; try reflexivity.
  destruct k; reflexivity.
Qed.

Theorem run_terminates : forall (r : role) items sf evo,
  exists res, result_of (run_side r (mkenv items sf evo)) = Some res.
Proof.
  intros [t|] items sf evo; [rewrite run_initiator | rewrite run_acceptor]; eauto.
Qed.

Theorem initiator_ok_iff : forall t items sf evo o,
  result_of (run_side (Initiator t) (mkenv items sf evo)) = Some (Ok o) <->
  (o = None /\ (exists rest, items = IMsg Done :: rest) /\ sink_faulty 5 sf = false /\ evo = true).
Proof.
  intros t items sf evo o. rewrite run_initiator. unfold initiator_result. split.
  - destruct evo; [|discriminate]. destruct (sink_faulty 2 sf); [discriminate|].
    ditem items; try discriminate. destruct (sink_faulty 5 sf); [discriminate|].
    intros [= <-]. eauto.
  - intros (-> & (rest & ->) & Hs & ->). cbn.
    rewrite (sink_faulty_mono 2 5 sf ltac:(lia) Hs), Hs. reflexivity.
Qed.

Theorem acceptor_ok_iff : forall items sf evo o,
  result_of (run_side Acceptor (mkenv items sf evo)) = Some (Ok o) <->
  (exists t', o = Some t' /\ (exists rest, items = IMsg (Topic t') :: IMsg Done :: rest)
              /\ sink_faulty 3 sf = false /\ evo = true).
Proof.
  intros items sf evo o. rewrite run_acceptor. unfold acceptor_result. split.
  - destruct evo; [|discriminate]. ditem items; try discriminate.
    destruct (sink_faulty 2 sf); [discriminate|].
    ditem rest; try discriminate. destruct (sink_faulty 3 sf); [discriminate|].
    intros [= <-]. eauto 6.
  - intros (t' & -> & (rest & ->) & Hs & ->). cbn.
    rewrite (sink_faulty_mono 2 3 sf ltac:(lia) Hs), Hs. reflexivity.
Qed.

Corollary acceptor_output_is_received_topic : forall items sf evo t',
  result_of (run_side Acceptor (mkenv items sf evo)) = Some (Ok (Some t')) ->
  hd_error items = Some (IMsg (Topic t')).
Proof.
  intros items sf evo t' H. apply acceptor_ok_iff in H.
  destruct H as (t2 & [= <-] & (rest & ->) & _). reflexivity.
Qed.

Definition clean (r : role) (items : list item) (sf : option nat) (evo : bool) : Prop :=
  match r with
  | Initiator _ => (exists rest, items = IMsg Done :: rest) /\ sink_faulty 5 sf = false /\ evo = true
  | Acceptor => (exists t' rest, items = IMsg (Topic t') :: IMsg Done :: rest) /\ sink_faulty 3 sf = false /\ evo = true
  end.

Lemma ok_gives_clean : forall (r : role) items sf evo o,
  result_of (run_side r (mkenv items sf evo)) = Some (Ok o) -> clean r items sf evo.
Proof.
  intros [t|] items sf evo o H.
  - apply initiator_ok_iff in H. apply H.
  - apply acceptor_ok_iff in H. destruct H as (t' & _ & (rest & H1) & H2). cbn. eauto.
Qed.

Theorem fault_gives_error : forall (r : role) items sf evo,
  ~ clean r items sf evo ->
  exists e, result_of (run_side r (mkenv items sf evo)) = Some (Err e).
Proof.
  intros r items sf evo Hn.
  destruct (run_terminates r items sf evo) as [[o|e] Hres]; [|eauto].
  destruct Hn. eapply ok_gives_clean, Hres.
Qed.

Theorem truncation_gives_closure_acceptor : forall t k, k < 2 ->
  result_of (run_side Acceptor (mkenv (firstn k (honest_to_acceptor t)) None true)) = Some (Err EClosure).
Proof. intros t k Hk. rewrite run_acceptor. destruct k as [|[|k]]; [reflexivity | reflexivity | lia]. Qed.

Theorem truncation_gives_closure_initiator : forall t k, k < 1 ->
  result_of (run_side (Initiator t) (mkenv (firstn k honest_to_initiator) None true)) = Some (Err EClosure).
Proof. intros t k Hk. rewrite run_initiator. destruct k as [|k]; [reflexivity | lia]. Qed.

(** The only substitution that need not produce an error replaces the topic message by another
    topic message: the acceptor then outputs that topic (from its point of view this *is* the
    initiator's topic).  Proof: a run that is not an error saw the honest shape, so [x] stands
    where a topic may, or equals what it replaced. *)
Theorem substitution_gives_error_acceptor : forall t k h x rest,
  nth_error (honest_to_acceptor t) k = Some h -> x <> h ->
  let items := firstn k (honest_to_acceptor t) ++ x :: rest in
  (exists e, result_of (run_side Acceptor (mkenv items None true)) = Some (Err e)) \/
  (k = 0 /\ exists t', x = IMsg (Topic t') /\
     result_of (run_side Acceptor (mkenv items None true)) = Some (Ok (Some t'))).
Proof.
  intros t k h x rest Hn Hx items.
  destruct (run_terminates Acceptor items None true) as [[o|e] Hres]; [right | eauto].
  destruct (proj1 (acceptor_ok_iff _ _ _ _) Hres) as (t' & -> & (rest' & E) & _).
  destruct k as [|[|k]].
  - injection E as ->. eauto.
  - injection E as _ ->. injection Hn as <-. destruct Hx. reflexivity.
  - destruct k; discriminate Hn.
Qed.

Theorem substitution_gives_error_initiator : forall t k h x rest,
  nth_error (@honest_to_initiator T) k = Some h -> x <> h ->
  exists e, result_of (run_side (Initiator t) (mkenv (firstn k honest_to_initiator ++ x :: rest) None true))
            = Some (Err e).
Proof.
  intros t k h x rest Hn Hx. apply fault_gives_error. intros [[rest' E] _].
  destruct k as [|[|k]]; try discriminate Hn. injection E as ->. injection Hn as <-. auto.
Qed.

Definition reply (a : action T) (e : env T) : resp T * env T :=
  match a with
  | AStart _ | AFlush => (RAck (sink_ok e), bump e)
  | AEmit _ => (RAck (ev_open e), e)
  | ARecv =>
      match inc e with
      | [] => (RItem None, e)
      | i :: rest => (RItem (Some i), {| inc := rest; sink_ops := sink_ops e; sink_fail := sink_fail e; ev_open := ev_open e |})
      end
  | AFlushEv | ARet _ => (RAck true, e)
  end.

Definition is_ret (a : action T) : bool := match a with ARet _ => true | _ => false end.

Lemma respond_reply : forall a e o, is_ret a = false ->
  exists o1, respond a e o = (reply a e, o1) /\ trace o1 = trace o ++ [(a, fst (reply a e))].
Proof.
  intros a e o Ha. destruct a; try discriminate Ha; cbn; eauto. destruct (inc e); cbn; eauto.
Qed.

Lemma run_env_step : forall f (r : role) s e o, is_ret (action_of r s) = false ->
  run_env (S f) r s e o =
  let '(x, e1, o1) := respond (action_of r s) e o in run_env f r (resume_of r s x) e1 o1.
Proof. intros f r s e o H. cbn [run_env]. destruct (action_of r s); [reflexivity.. | discriminate H]. Qed.

(** [ret = None]: still running when the fuel ran out. *)
Inductive runs (r : role) : state T -> env T -> list (action T * resp T) -> option result -> Prop :=
| runs_out : forall s e, runs r s e [] None
| runs_ret : forall s e res, action_of r s = ARet res -> runs r s e [] (Some res)
| runs_step : forall s e a x e1 tr ret,
    action_of r s = a -> is_ret a = false -> reply a e = (x, e1) ->
    runs r (resume_of r s x) e1 tr ret -> runs r s e ((a, x) :: tr) ret.

Lemma run_env_runs : forall f r s e o, exists tr,
  trace (obs_of (run_env f r s e o)) = trace o ++ tr /\ runs r s e tr (result_of (run_env f r s e o)).
Proof.
  induction f as [|f IH]; intros r s e o.
  - exists []. rewrite app_nil_r. split; [reflexivity | constructor].
  - destruct (is_ret (action_of r s)) eqn:Ha.
    + destruct (action_of r s) as [| | | | |res] eqn:Ea; try discriminate Ha.
      cbn [run_env]. rewrite Ea. exists []. rewrite app_nil_r.
      split; [reflexivity | constructor; exact Ea].
    + rewrite (run_env_step _ _ _ _ _ Ha). destruct (respond_reply _ e o Ha) as (o1 & -> & Ho1).
      destruct (reply (action_of r s) e) as [x e1] eqn:Er.
      destruct (IH r (resume_of r s x) e1 o1) as (tr & Htr & H).
      exists ((action_of r s, x) :: tr). split.
      * rewrite Htr, Ho1, <- app_assoc. reflexivity.
      * econstructor; eauto.
Qed.

Lemma side_runs : forall r items sf evo,
  runs r init_state (mkenv items sf evo)
       (trace (obs_of (run_side r (mkenv items sf evo)))) (result_of (run_side r (mkenv items sf evo))).
Proof.
  intros r items sf evo.
  destruct (run_env_runs 16 r init_state (mkenv items sf evo) obs0) as (tr & Htr & H).
  unfold run_side. rewrite Htr. exact H.
Qed.

Lemma action_fin : forall (r : role) res, action_of r (Fin res) = ARet res.
Proof. intros [t|] res; reflexivity. Qed.

Lemma runs_fin : forall r res e tr ret, runs r (Fin res) e tr ret -> tr = [] /\ (ret = None \/ ret = Some res).
Proof.
  intros r res e tr ret H. remember (Fin res) as s eqn:Es.
  destruct H as [| ? ? ? Ha | ? ? ? ? ? ? ? Ha Hr]; subst s; [auto | |]; rewrite action_fin in Ha.
  - injection Ha as <-. auto.
  - subst a. discriminate Hr.
Qed.

(** [reply a e = (x, _)] only says that [x] answers [a]: the machines ignore an acknowledgement
    given to a receive. *)
Lemma resume_terminal : forall (r : role) s a e x e1,
  action_of r s = a -> reply a e = (x, e1) ->
  x = RAck false \/ x = RItem None ->
  exists er, resume_of r s x = Fin (Err er) /\ (x = RItem None -> er = EClosure).
Proof.
  intros r [pc tp|res] a e x e1 Ea Er Hx.
  2: { rewrite action_fin in Ea. subst a. injection Er as <- _. destruct Hx; discriminate. }
  destruct r as [t|]; cbn [action_of resume_of] in *; [unfold i_resume | unfold a_resume]; rewrite Ea.
  all: destruct a; cbn [reply] in Er; try destruct (inc e); injection Er as <- <-.
  all: destruct Hx as [[= ->]|[=]]; eexists; split; try reflexivity; try discriminate.
Qed.

Lemma runs_halt : forall r s e tr ret, runs r s e tr ret ->
  forall pre a x post, tr = pre ++ (a, x) :: post -> x = RAck false \/ x = RItem None ->
  post = [] /\ exists er, (ret = None \/ ret = Some (Err er)) /\ (x = RItem None -> er = EClosure).
Proof.
  intros r s e tr ret H. induction H as [| |s e a x e1 tr ret Ea Ha Er H IH]; intros pre a' x' post E Hx.
  - destruct pre; discriminate E.
  - destruct pre; discriminate E.
  - destruct pre as [|y pre].
    + injection E as <- <- <-.
      destruct (resume_terminal _ _ _ _ _ _ Ea Er Hx) as (er & Hr & Her). rewrite Hr in H.
      apply runs_fin in H. destruct H as [-> Hout]. eauto.
    + injection E as _ E. eapply IH; eassumption.
Qed.

Theorem no_wait_after_close : forall (r : role) items sf evo pre post,
  trace (obs_of (run_side r (mkenv items sf evo))) = pre ++ (ARecv, RItem None) :: post ->
  post = [] /\ result_of (run_side r (mkenv items sf evo)) = Some (Err EClosure).
Proof.
  intros r items sf evo pre post E.
  destruct (runs_halt _ _ _ _ _ (side_runs r items sf evo) _ _ _ _ E (or_intror eq_refl))
    as (-> & er & Hout & Her).
  rewrite (Her eq_refl) in Hout. destruct (run_terminates r items sf evo) as [res Hres].
  split; [reflexivity|]. destruct Hout as [Hout|Hout]; congruence.
Qed.

Theorem no_action_after_failure : forall (r : role) items sf evo pre a post,
  trace (obs_of (run_side r (mkenv items sf evo))) = pre ++ (a, RAck false) :: post -> post = [].
Proof.
  intros r items sf evo pre a post E.
  apply (runs_halt _ _ _ _ _ (side_runs r items sf evo) _ _ _ _ E (or_introl eq_refl)).
Qed.

Definition recv_count (tr : list (action T * resp T)) : nat :=
  length (filter (fun x => match fst x with ARecv => true | _ => false end) tr).

(* Evaluated, the count is a numeral and the list shows the items that were taken. *)
Ltac count :=
  cbv -[length]; cbn [length]; split; [repeat constructor | repeat apply le_n_S; apply Nat.le_0_l].

(** Each program has two receive statements at most, and a receive either takes an item or finds
    the stream closed and is the last (symbolic execution as for [run_initiator]; where the
    received item is Done the run goes on to the remaining sink operations). *)
Theorem polls_bounded : forall (r : role) items sf evo,
  recv_count (trace (obs_of (run_side r (mkenv items sf evo)))) <= 2 /\
  recv_count (trace (obs_of (run_side r (mkenv items sf evo)))) <= S (length items).
Proof.
  intros [t|] items sf evo; (destruct evo; [|count]).
  - destruct sf as [[|[|k]]|]; [count | count | |]; (ditem items; [count | count | | count]).
    + destruct k as [|[|[|k]]]; count.
    + count.
  - ditem items; [count | | count | count].
    destruct sf as [[|[|k]]|]; [count | count | |]; (ditem rest; [count | count | | count]).
    + destruct k; count.
    + count.
Qed.

(** What one side contributes to the joint state: its own state, what it has sent, how many
    messages it has read, its events. *)
Record half := { hs : state T; out : list item; rd : nat; hev : list (event T) }.

Definition conf (I A : half) : pstate T :=
  {| sI := hs I; sA := hs A;
     cIA := {| q := skipn (rd A) (out I); pushed := length (out I) |};
     cAI := {| q := skipn (rd I) (out A); pushed := length (out A) |};
     evI := hev I; evA := hev A |}.

Definition valid (I A : half) : Prop := rd A <= length (out I) /\ rd I <= length (out A).

Definition peer (script : list item) (n : nat) (P : half) : Prop :=
  out P = firstn n script /\ (n < length script -> is_fin (hs P) = false).

(** Each side after [n] successful steps on the honest path.  The thresholds are the program
    counters of [i_action] / [a_action]: the initiator sends at 1 and 4, receives at 3, emits at 0
    and 6; the acceptor receives at 1 and 5, sends at 3, emits at 0, 2 and 6; 10 is "returned". *)
Definition sentI (n : nat) : nat := (if 1 <? n then 1 else 0) + (if 4 <? n then 1 else 0).
Definition sentA (n : nat) : nat := if 3 <? n then 1 else 0.

Definition halfI (t : T) (n : nat) : half :=
  {| hs := if n <? 10 then Run n None else Fin (Ok None);
     out := firstn (sentI n) (honest_to_acceptor t);
     rd := if 3 <? n then 1 else 0;
     hev := (if 0 <? n then [EvInitiate t] else []) ++ (if 6 <? n then [EvDone t] else []) |}.

Definition halfA (t : T) (n : nat) : half :=
  {| hs := if n <? 2 then Run n None else if n <? 10 then Run n (Some t) else Fin (Ok (Some t));
     out := firstn (sentA n) honest_to_initiator;
     rd := (if 1 <? n then 1 else 0) + (if 5 <? n then 1 else 0);
     hev := (if 0 <? n then [EvAccept] else []) ++ (if 2 <? n then [EvTopicReceived t] else [])
            ++ (if 6 <? n then [EvDone t] else []) |}.

Lemma peer_halfI : forall t n, peer (honest_to_acceptor t) (sentI n) (halfI t n).
Proof.
  intros t n. split; [reflexivity|]. unfold sentI. cbn [halfI hs length honest_to_acceptor].
  destruct (Nat.ltb_spec 1 n), (Nat.ltb_spec 4 n), (Nat.ltb_spec n 10); (reflexivity || lia).
Qed.

Lemma peer_halfA : forall t n, peer honest_to_initiator (sentA n) (halfA t n).
Proof.
  intros t n. split; [reflexivity|]. unfold sentA. cbn [halfA hs length honest_to_initiator].
  destruct (Nat.ltb_spec 3 n), (Nat.ltb_spec n 2), (Nat.ltb_spec n 10); (reflexivity || lia).
Qed.

(* Statements 0..9, returned (10), and beyond. *)
Ltac dnat n := destruct n as [|[|[|[|[|[|[|[|[|[|[|?n]]]]]]]]]]].

(** A step of either side, statement by statement, whatever the other side is doing. *)
Lemma step_I : forall t i n A, valid (halfI t i) A -> peer honest_to_initiator n A ->
  match pstep t NoMitm SI (conf (halfI t i) A) with
  | Some p' => p' = conf (halfI t (S i)) A /\ valid (halfI t (S i)) A /\ i < 10
  | None => 10 <= i \/ (i = 3 /\ n = 0)
  end.
Proof.
  intros t i n [sa oa ra ea] [V1 V2] [Ho Hf]. cbn [out hs] in *.
  dnat i; cbn in V1, V2.
  (* the two sends (i = 1, 4): how much of what was sent before the peer has read *)
  2: destruct ra; [|lia].
  5: destruct ra as [|[|ra]]; [| |lia].
  (* the receive (i = 3): the peer has sent nothing and is still running, or has sent Done *)
  4: destruct n; cbn in Ho; subst oa; [cbn; rewrite Hf by (cbn; lia) | destruct n].
  all: cbn; repeat split; cbn; auto; lia.
Qed.

Lemma step_A : forall t a n I, valid I (halfA t a) -> peer (honest_to_acceptor t) n I ->
  match pstep t NoMitm SA (conf I (halfA t a)) with
  | Some p' => p' = conf I (halfA t (S a)) /\ valid I (halfA t (S a)) /\ a < 10
  | None => 10 <= a \/ (a = 1 /\ n = 0) \/ (a = 5 /\ n <= 1)
  end.
Proof.
  intros t a n [si oi ri ei] [V1 V2] [Ho Hf]. cbn [out hs] in *.
  dnat a; cbn in V1, V2.
  (* the send (a = 3) *)
  4: destruct ri; [|lia].
  (* the receives (a = 1, then a = 5, two goals on): how much the peer has sent *)
  2: destruct n as [|[|n]]; cbn in Ho; subst oi; [cbn; rewrite Hf by (cbn; lia) | |].
  8: destruct n as [|[|[|n]]]; cbn in Ho; subst oi; [cbn in V1; lia | cbn; rewrite Hf by (cbn; lia) | |].
  all: cbn; repeat split; cbn; auto; lia.
Qed.

Definition canon (t : T) (i a : nat) : pstate T := conf (halfI t i) (halfA t a).

(** The bounds serve the count of steps only ([effective_bounded_from]). *)
Definition wf (t : T) (i a : nat) : Prop := valid (halfI t i) (halfA t a) /\ i <= 10 /\ a <= 10.

Lemma canon_step : forall t w i a, wf t i a ->
  match pstep t NoMitm w (canon t i a) with
  | Some p' => exists i' a', p' = canon t i' a' /\ wf t i' a' /\ i' + a' = S (i + a)
  | None => True
  end.
Proof.
  intros t [|] i a (V & Hi & Ha); unfold canon;
    [pose proof (step_I t i _ _ V (peer_halfA t a)) as H | pose proof (step_A t a _ _ V (peer_halfI t i)) as H];
    destruct (pstep t NoMitm _ _); [|exact I| |exact I]; destruct H as (-> & V' & Hlt).
  - exists (S i), a. unfold wf. auto with arith.
  - exists i, (S a). unfold wf. auto with arith.
Qed.

Lemma prun_canon : forall t sched i a, wf t i a ->
  exists i' a', wf t i' a' /\ prun t NoMitm sched (canon t i a) = canon t i' a'.
Proof.
  intros t sched. induction sched as [|w r IH]; intros i a Hv; cbn [prun]; [eauto|].
  pose proof (canon_step t w i a Hv) as H. destruct (pstep t NoMitm w (canon t i a)); [|eauto].
  destruct H as (i' & a' & -> & Hv' & _). eauto.
Qed.

Lemma wf_init : forall t, wf t 0 0.
Proof. intro t. repeat split; cbn; lia. Qed.

Definition no_error (s : state T) : Prop := forall e, s <> Fin (Err e).

Theorem honest_safe : forall (t : T) sched,
  let p := prun t NoMitm sched pinit in
  no_error (sI p) /\ no_error (sA p) /\
  (forall o, sA p = Fin (Ok o) -> o = Some t) /\
  (forall o, sI p = Fin (Ok o) -> o = None).
Proof.
  intros t sched p. destruct (prun_canon t sched 0 0 (wf_init t)) as (i & a & _ & E).
  change (p = canon t i a) in E. rewrite E. cbn [sI sA canon conf halfI halfA hs].
  destruct (i <? 10), (a <? 2), (a <? 10); repeat split; intros x; try discriminate;
    intros [= <-]; reflexivity.
Qed.

Theorem honest_no_deadlock : forall (t : T) sched,
  let p := prun t NoMitm sched pinit in
  stuck t NoMitm p = true -> sI p = Fin (Ok None) /\ sA p = Fin (Ok (Some t)).
Proof.
  intros t sched p. destruct (prun_canon t sched 0 0 (wf_init t)) as (i & a & (V & Hi & Ha) & E).
  change (p = canon t i a) in E. rewrite E. unfold stuck, canon.
  pose proof (step_I t i _ _ V (peer_halfA t a)) as HI. pose proof (step_A t a _ _ V (peer_halfI t i)) as HA.
  destruct (pstep t NoMitm SI _); [discriminate|]. destruct (pstep t NoMitm SA _); [discriminate|].
  intros _. unfold sentI, sentA in HI, HA.
  assert (i = 10 /\ a = 10) as [-> ->]
    by (destruct (Nat.ltb_spec 3 a), (Nat.ltb_spec 1 i), (Nat.ltb_spec 4 i); lia).
  split; reflexivity.
Qed.

(** Progress measure: every effective step advances exactly one side by one statement, and no
    side has more than 10, so every schedule performs at most 20 effective steps; a schedule that
    keeps choosing an enabled side therefore ends — by [honest_no_deadlock] — with both Ok. *)
Lemma effective_bounded_from : forall t sched i a, wf t i a ->
  i + a + effective t NoMitm sched (canon t i a) <= 20.
Proof.
  intros t sched. induction sched as [|w r IH]; intros i a Hv; cbn [effective].
  - destruct Hv as (_ & Hi & Ha). lia.
  - pose proof (canon_step t w i a Hv) as H. destruct (pstep t NoMitm w (canon t i a)); [|auto].
    destruct H as (i' & a' & -> & Hv' & Hn). specialize (IH _ _ Hv'). lia.
Qed.

Theorem honest_effective_bounded : forall (t : T) sched, effective t NoMitm sched pinit <= 20.
Proof. intros t sched. exact (effective_bounded_from t sched 0 0 (wf_init t)). Qed.

Theorem honest_run : forall (t : T),
  let p := pair t NoMitm in
  sI p = Fin (Ok None) /\ sA p = Fin (Ok (Some t)) /\
  evI p = [EvInitiate t; EvDone t] /\ evA p = [EvAccept; EvTopicReceived t; EvDone t] /\
  stuck t NoMitm p = true.
Proof. intro t. cbv. repeat split. Qed.

Theorem pair_truncation : forall (t : T),
  (forall k, k < 2 -> exists e, sA (pair t (Truncate ItoA k)) = Fin (Err e)) /\
  (exists e, sI (pair t (Truncate AtoI 0)) = Fin (Err e)).
Proof.
  intro t. split.
  - intros k Hk. destruct k as [|[|k]]; [cbv; eexists; reflexivity | cbv; eexists; reflexivity | lia].
  - cbv; eexists; reflexivity.
Qed.

End HandshakeProofs.

Arguments result_of {T}. Arguments obs_of {T}. Arguments clean {T}.

(** Non-vacuity: the hypotheses of the main theorems are satisfiable by non-trivial values. *)
Example ex_clean_acceptor :
  clean Acceptor [IMsg (Topic 7); IMsg Done] None true /\
  result_of (run_side Acceptor (mkenv [IMsg (Topic 7); IMsg Done] None true)) = Some (Ok (Some 7)).
Proof. split; [cbn; repeat split; eauto | reflexivity]. Qed.

Example ex_fault_sink :
  ~ clean (Initiator 3) [IMsg Done] (Some 2) true /\
  result_of (run_side (Initiator 3) (mkenv [IMsg Done] (Some 2) true)) = Some (Err ESink).
Proof. split; [cbn; intros (_ & H & _); discriminate H | reflexivity]. Qed.

Example ex_close_trace :
  trace (obs_of (run_side Acceptor (mkenv [IMsg (Topic 5)] None true)))
  = [(AEmit EvAccept, RAck true); (ARecv, RItem (Some (IMsg (Topic 5)))); (AEmit (EvTopicReceived 5), RAck true);
     (AStart Done, RAck true); (AFlush, RAck true)] ++ (ARecv, RItem None) :: [].
Proof. reflexivity. Qed.

Example ex_subst_topic :
  result_of (run_side Acceptor (mkenv (firstn 0 (honest_to_acceptor 1) ++ IMsg (Topic 2) :: [IMsg Done]) None true))
  = Some (Ok (Some 2)).
Proof. reflexivity. Qed.

Example ex_schedule :
  stuck 4 NoMitm (prun 4 NoMitm [SA; SA; SI; SI; SI; SA; SA; SA; SA; SI; SI; SI; SI; SI; SI; SI; SI; SA; SA; SA; SA; SA; SA] pinit) = true.
Proof. reflexivity. Qed.
