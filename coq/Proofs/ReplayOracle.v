(** Soundness of the C15 observation oracle: what [check_obs] accepts is the property.  Proved
    for its subset and association conjuncts; its [nodupb] and [orderedb] conjuncts and the
    cross-session parts [check_acked], [check_stored], [check_unacked] of [check] are run against
    the implementation, not proved sound. *)
From Coq Require Import List NArith Bool.
From PV Require Import Model.Replay Proofs.Replay Oracle.C15.
Import ListNotations.

Lemma kind_eqb_eq (a b : ekind) : kind_eqb a b = true <-> a = b.
Proof. destruct a, b; cbn; split; intros H; try reflexivity; try discriminate. Qed.

Lemma oe_eqb_eq (a b : obs_event) : oe_eqb a b = true <-> a = b.
Proof.
  destruct a as [ka ia], b as [kb ib]. unfold oe_eqb. cbn [fst snd].
  rewrite andb_true_iff, kind_eqb_eq, N.eqb_eq. split.
  - intros [-> ->]. reflexivity.
  - intros H. injection H as -> ->. split; reflexivity.
Qed.

Lemma oe_mem_In (a : obs_event) (l : list obs_event) : oe_mem a l = true <-> In a l.
Proof.
  unfold oe_mem. rewrite existsb_exists. split.
  - intros [x [Hin E]]. apply oe_eqb_eq in E. subst. exact Hin.
  - intros H. exists a. split; [exact H|apply oe_eqb_eq; reflexivity].
Qed.

Lemma subset_In (a b : list obs_event) : subset a b = true <-> forall x, In x a -> In x b.
Proof.
  unfold subset. rewrite forallb_forall. split; intros H x Hx.
  - apply oe_mem_In. apply H. exact Hx.
  - apply oe_mem_In. apply H. exact Hx.
Qed.

Lemma expected_In (d : durable) (k : ekind) (i : N) :
  In (k, i) (expected d) <->
  exists r, In r (rows d) /\ r_id r = i /\ event_of r = Some k /\
            In (rkey r) (assoc d) /\ above_cursor d r = true.
Proof.
  unfold expected. rewrite in_map_iff. split.
  - intros [[k' r] [Heq Hin]]. cbn [fst snd] in Heq. injection Heq as -> <-.
    apply events_of_In in Hin. rewrite spec_replay_In in Hin. exists r. tauto.
  - intros (r & Hr & <- & He & Ha). exists (k, r). split; [reflexivity|].
    apply events_of_In. rewrite spec_replay_In. tauto.
Qed.

Lemma check_obs_parts (o : obs) :
  check_obs o = true ->
  (forall x, In x (o_events o) -> In x (expected (o_d o))) /\
  (o_complete o = true -> forall x, In x (expected (o_d o)) -> In x (o_events o)) /\
  assoc_complete (o_d o) = true.
Proof.
  unfold check_obs. rewrite !andb_true_iff, subset_In. intros [[[[H1 H2] _] _] H5].
  split; [exact H1|]. split; [|exact H5]. intros Hc. rewrite Hc in H2. apply subset_In, H2.
Qed.

(** A partial observation (the crash came while the replay was being consumed) accepted by the
    oracle delivered only stored operations of the topic's logs that carry a body and lie above
    the cursor. *)
Theorem check_obs_partial_sound (o : obs) :
  check_obs o = true ->
  forall k i, In (k, i) (o_events o) ->
    exists r, In r (rows (o_d o)) /\ r_id r = i /\ event_of r = Some k /\
              In (rkey r) (assoc (o_d o)) /\ above_cursor (o_d o) r = true.
Proof. intros H k i Hin. apply expected_In, (check_obs_parts o H), Hin. Qed.

(** A complete observation accepted by the oracle delivered exactly those. *)
Theorem check_obs_sound (o : obs) :
  check_obs o = true -> o_complete o = true ->
  forall k i, In (k, i) (o_events o) <->
    exists r, In r (rows (o_d o)) /\ r_id r = i /\ event_of r = Some k /\
              In (rkey r) (assoc (o_d o)) /\ above_cursor (o_d o) r = true.
Proof.
  intros H Hc k i. split; [apply (check_obs_partial_sound o H)|].
  rewrite <- expected_In. apply (check_obs_parts o H), Hc.
Qed.

(** ... and in an accepted observation every stored row of the topic's log is a row of a resolved
    log, so "stored operation of the topic" may be read for "row of an associated log". *)
Theorem check_obs_assoc (o : obs) :
  check_obs o = true ->
  forall r, In r (rows (o_d o)) -> r_log r = tlog -> In (rkey r) (assoc (o_d o)).
Proof.
  intros H r Hin Hl. apply check_obs_parts in H. destruct H as (_ & _ & Ha).
  unfold assoc_complete in Ha. rewrite forallb_forall in Ha. specialize (Ha r Hin).
  rewrite Hl, N.eqb_refl in Ha. apply in_assoc_In, Ha.
Qed.
