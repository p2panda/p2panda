(** Proofs about the model of the topic sync metrics aggregator (Model/SyncMetrics.v), by a
    potential argument.  For a quantity [Q] of a machine fed with the history and a function [F]
    of a session's life-cycle phase, every event changes [Q] by exactly the change of [F] on the
    phase of the session the event belongs to.  Hence for any interleaving of well-formed
    per-session sequences [Q = sum over sessions of F (phase of the session)], by induction over
    the interleaved history with the per-session phases generalised ([potential_run]).  The
    machine is the aggregator for the running count, and the plain adder of a per-event increment
    [d e] for what only grows: the byte totals (which the aggregator increments by
    [delta f g e]) and the numbers of started and ended sessions. *)
From Coq Require Import List NArith Bool Lia.
From PV Require Import Model.SyncMetrics.
Import ListNotations.
Local Open Scope N_scope.

Lemma addc_some : forall a b c, addc a b = Some c -> c = a + b /\ a + b < u32_max_plus_1.
Proof.
  intros a b c H. unfold addc in H. destruct (a + b <? u32_max_plus_1) eqn:E; [|discriminate].
  apply N.ltb_lt in E. inversion H. auto.
Qed.

Lemma addc_lt : forall a b, a + b < u32_max_plus_1 -> addc a b = Some (a + b).
Proof. intros a b H. unfold addc. apply N.ltb_lt in H. rewrite H. reflexivity. Qed.

Lemma bind_some : forall A B (o : option A) (f : A -> option B) b,
  bind o f = Some b -> exists a, o = Some a /\ f a = Some b.
Proof. intros A B [a|] f b H; [exists a; auto|discriminate]. Qed.

Lemma sumN_cons : forall x l, sumN (x :: l) = x + sumN l.
Proof. reflexivity. Qed.
Lemma sumN_nil : sumN [] = 0.
Proof. reflexivity. Qed.

Lemma sumN_zero : forall (f : N -> N) l, (forall s, f s = 0) -> sumN (map f l) = 0.
Proof. intros f l H. induction l as [|x l IH]; [reflexivity|]. cbn [map]. rewrite sumN_cons, H, IH. reflexivity. Qed.

Lemma sumN_in_le : forall (f : N -> N) ss s, In s ss -> f s <= sumN (map f ss).
Proof.
  intros f ss s. induction ss as [|x ss IH]; intros Hin; [destruct Hin|].
  cbn [map]. rewrite sumN_cons. destruct Hin as [->|Hin]; [lia|]. specialize (IH Hin). lia.
Qed.

Lemma sumN_ext_in : forall (f g : N -> N) ss, (forall s, In s ss -> f s = g s) -> sumN (map f ss) = sumN (map g ss).
Proof. intros f g ss H. f_equal. apply map_ext_in. exact H. Qed.

Lemma sumN_update : forall (f g : N -> N) ss s0,
  NoDup ss -> In s0 ss -> (forall s, s <> s0 -> g s = f s) ->
  sumN (map g ss) + f s0 = sumN (map f ss) + g s0.
Proof.
  intros f g ss s0 Hnd. induction Hnd as [|x ss Hx Hnd IH]; intros Hin Hg; [destruct Hin|].
  cbn [map]. rewrite !sumN_cons. destruct Hin as [->|Hin].
  - rewrite (sumN_ext_in g f ss); [lia|]. intros s Hs. apply Hg. intros ->. contradiction.
  - rewrite (Hg x) by (intros ->; contradiction). specialize (IH Hin Hg). lia.
Qed.

Lemma proj_cons_eq : forall s e r, proj s ((s, e) :: r) = e :: proj s r.
Proof. intros. unfold proj. cbn [filter fst]. rewrite N.eqb_refl. reflexivity. Qed.

Lemma proj_cons_neq : forall s s0 e r, s <> s0 -> proj s ((s0, e) :: r) = proj s r.
Proof. intros s s0 e r H. unfold proj. cbn [filter fst]. apply N.eqb_neq in H. rewrite H. reflexivity. Qed.

Lemma count_cons : forall f s e r, count f ((s, e) :: r) = (if f e then 1 else 0) + count f r.
Proof. intros f s e r. unfold count. cbn [filter snd]. destruct (f e); cbn [List.length]; lia. Qed.

Section Potential.
  Variable St : Type.
  Variable stp : St -> N -> ev -> option St.
  Variable Q : St -> N.
  Variable ns : bool.
  Variable F : phase -> N.
  (* [F p <= Q a] is what a quantity that can also fall needs: the running count is decremented
     with [N.pred], which is [- 1] only above 0; a quantity that only grows ignores it. *)
  Hypothesis step_ok : forall a sid e a1 p p',
    stp a sid e = Some a1 -> phase_step ns p e = Some p' -> F p <= Q a -> Q a1 + F p = Q a + F p'.

  Fixpoint runS (a : St) (evs : list (N * ev)) : option St :=
    match evs with
    | [] => Some a
    | (sid, e) :: r => match stp a sid e with Some a1 => runS a1 r | None => None end
    end.

  Variable ss : list N.
  Hypothesis ss_nodup : NoDup ss.

  Definition endph (ph : N -> phase) (evs : list (N * ev)) (s : N) : phase :=
    match phase_run ns (ph s) (proj s evs) with Some p => p | None => ph s end.
  Definition sumF (ph : N -> phase) : N := sumN (map (fun s => F (ph s)) ss).

  Theorem potential_run : forall evs ph a a',
    (forall s e, In (s, e) evs -> In s ss) ->
    (forall s, In s ss -> phase_run ns (ph s) (proj s evs) <> None) ->
    runS a evs = Some a' -> Q a = sumF ph -> Q a' = sumF (fun s => endph ph evs s).
  Proof.
    induction evs as [|[s0 e] r IH]; intros ph a a' Hcov Hwf Hrun HQ; cbn [runS] in Hrun.
    - inversion Hrun; subst a'. exact HQ.
    - destruct (stp a s0 e) as [a1|] eqn:Es; [|discriminate].
      assert (Hs0 : In s0 ss) by (apply (Hcov s0 e); left; reflexivity).
      pose proof (Hwf s0 Hs0) as Hw0. rewrite proj_cons_eq in Hw0. cbn [phase_run] in Hw0.
      destruct (phase_step ns (ph s0) e) as [p'|] eqn:Ep; [|congruence].
      set (ph1 := fun s => if N.eqb s s0 then p' else ph s).
      assert (Hp1 : ph1 s0 = p') by (unfold ph1; rewrite N.eqb_refl; reflexivity).
      assert (Hne : forall s, s <> s0 -> ph1 s = ph s).
      { intros s H. unfold ph1. apply N.eqb_neq in H. rewrite H. reflexivity. }
      assert (Hle : F (ph s0) <= Q a).
      { rewrite HQ. apply (sumN_in_le (fun s => F (ph s)) ss s0 Hs0). }
      pose proof (step_ok a s0 e a1 (ph s0) p' Es Ep Hle) as Hstep.
      pose proof (sumN_update (fun s => F (ph s)) (fun s => F (ph1 s)) ss s0 ss_nodup Hs0
                    (fun s H => f_equal F (Hne s H))) as Hupd.
      cbv beta in Hupd. rewrite Hp1 in Hupd. fold (sumF ph) (sumF ph1) in Hupd.
      rewrite (IH ph1 a1 a').
      + apply sumN_ext_in. intros s Hs. unfold endph. destruct (N.eq_dec s s0) as [->|H].
        * rewrite Hp1, proj_cons_eq. cbn [phase_run]. rewrite Ep.
          destruct (phase_run ns p' (proj s0 r)); [reflexivity|congruence].
        * rewrite (Hne s H), proj_cons_neq by exact H. reflexivity.
      + intros s e0 Hi. apply (Hcov s e0). right. exact Hi.
      + intros s Hs. destruct (N.eq_dec s s0) as [->|H].
        * rewrite Hp1. exact Hw0.
        * rewrite (Hne s H), <- (proj_cons_neq s s0 e r H). apply Hwf. exact Hs.
      + exact Hrun.
      + lia.
  Qed.
End Potential.

Lemma in_filter_neq : forall (s x : N) l, In x (filter (fun y => negb (N.eqb s y)) l) <-> In x l /\ x <> s.
Proof.
  intros s x l. rewrite filter_In, negb_true_iff, N.eqb_neq. split; intros [A B]; split; auto.
Qed.

Lemma sids_nodup : forall evs, NoDup (sids evs).
Proof.
  induction evs as [|[s e] r IH]; cbn [sids]; constructor.
  - rewrite in_filter_neq. intros [_ H]. congruence.
  - apply NoDup_filter. exact IH.
Qed.

Lemma sids_cover : forall evs s e, In (s, e) evs -> In s (sids evs).
Proof.
  induction evs as [|[s0 e0] r IH]; intros s e H; [destruct H|].
  cbn [sids]. destruct H as [H|H].
  - inversion H. left. reflexivity.
  - destruct (N.eq_dec s s0) as [->|Hne]; [left; reflexivity|right].
    rewrite in_filter_neq. split; [eapply IH; eassumption|assumption].
Qed.

Lemma wf_history_in : forall ns evs s, wf_history ns evs = true -> In s (sids evs) ->
  phase_run ns PInit (proj s evs) <> None.
Proof.
  intros ns evs s H Hin. unfold wf_history in H. rewrite forallb_forall in H. specialize (H s Hin).
  unfold wf_session in H. destruct (phase_run ns PInit (proj s evs)); [discriminate|discriminate H].
Qed.

(** [spec_sent ns] and [spec_recv ns] unfold (through [contrib_sent], [contrib]) to
    [sum_phases ns (contrib_phase _ _)]. *)
Definition sum_phases (ns : bool) (F : phase -> N) (evs : list (N * ev)) : N :=
  sumN (map (fun s => match phase_run ns PInit (proj s evs) with Some p => F p | None => 0 end) (sids evs)).

Theorem potential_history : forall St stp (Q : St -> N) ns F,
  (forall a sid e a1 p p',
     stp a sid e = Some a1 -> phase_step ns p e = Some p' -> F p <= Q a -> Q a1 + F p = Q a + F p') ->
  F PInit = 0 ->
  forall evs a a', wf_history ns evs = true -> Q a = 0 -> runS St stp a evs = Some a' ->
  Q a' = sum_phases ns F evs.
Proof.
  intros St stp Q ns F Hstep H0 evs a a' Hwf HQ Hrun.
  rewrite (potential_run St stp Q ns F Hstep (sids evs) (sids_nodup evs) evs (fun _ => PInit) a a'
             (sids_cover evs) (fun s Hs => wf_history_in ns evs s Hwf Hs) Hrun).
  - apply sumN_ext_in. intros s _. unfold endph.
    destruct (phase_run ns PInit (proj s evs)); [reflexivity|exact H0].
  - rewrite HQ. symmetry. apply (sumN_zero (fun _ => F PInit)). intros _. exact H0.
Qed.

Definition sum_delta (d : ev -> N) (evs : list (N * ev)) : N := sumN (map (fun p => d (snd p)) evs).
Definition add_step (d : ev -> N) (c : N) (_ : N) (e : ev) : option N := Some (c + d e).

Lemma sum_delta_cons : forall d s e r, sum_delta d ((s, e) :: r) = d e + sum_delta d r.
Proof. reflexivity. Qed.

Lemma runS_add : forall d evs c, runS N (add_step d) c evs = Some (c + sum_delta d evs).
Proof.
  intros d. induction evs as [|[s e] r IH]; intros c; cbn [runS].
  - rewrite N.add_0_r. reflexivity.
  - unfold add_step at 1. rewrite IH, sum_delta_cons, N.add_assoc. reflexivity.
Qed.

Lemma additive_history : forall ns F d,
  (forall p e p', phase_step ns p e = Some p' -> F p' = F p + d e) -> F PInit = 0 ->
  forall evs, wf_history ns evs = true -> sum_delta d evs = sum_phases ns F evs.
Proof.
  intros ns F d Hstep H0 evs Hwf.
  apply (potential_history N (add_step d) (fun c => c) ns F) with (a := 0); [|exact H0|exact Hwf|reflexivity|apply runS_add].
  intros a sid e a1 p p' Ha Hp _. inversion Ha. rewrite (Hstep p e p' Hp). lia.
Qed.

Lemma count_sum_delta : forall f evs, count f evs = sum_delta (fun e => if f e then 1 else 0) evs.
Proof. intros f. induction evs as [|[s e] r IH]; [reflexivity|]. rewrite count_cons, IH. reflexivity. Qed.

Definition proc_state (fixed : bool) (a : agg) (sid : N) (e : ev) : option agg :=
  match process fixed a sid e with Some (a1, _) => Some a1 | None => None end.

Lemma run_state_runS : forall fixed evs a, run_state fixed a evs = runS agg (proc_state fixed) a evs.
Proof.
  induction evs as [|[s e] r IH]; intros a; cbn [run_state runS]; [reflexivity|].
  unfold proc_state at 1. destruct (process fixed a s e) as [[a1 o]|]; [apply IH|reflexivity].
Qed.

(** Bytes a call adds to a total: [f] the sync figure, [g] the live figure of the direction. *)
Definition delta (f g : metrics -> N) (e : ev) : N :=
  match e with SyncFinished m => f m + g m | SessionFinished m => g m | _ => 0 end.
Definition delta_sent := delta sent_sync_bytes sent_live_bytes.
Definition delta_recv := delta received_sync_bytes received_live_bytes.

Lemma process_counters : forall fixed a sid e a1 o,
  process fixed a sid e = Some (a1, o) ->
  running a1 = (if is_start e then running a + 1 else if is_end e then N.pred (running a) else running a) /\
  (fixed = true -> total_sent a1 = total_sent a + delta_sent e /\ total_recv a1 = total_recv a + delta_recv e).
Proof.
  intros fixed a sid e a1 o H.
  destruct e; unfold process, sent_bytes, received_bytes, sent_operations, received_operations, session_end in H;
    cbn [fst with_metrics with_totals total_sent total_recv] in H.
  all: try match type of H with (if ?b then _ else _) = _ => destruct b end.
  (* the branch's [addc]s succeeded: replace their results by the sums *)
  all: repeat (apply bind_some in H; destruct H as (? & [-> _]%addc_some & H)); injection H as <- _.
  all: split; [reflexivity|]; intros F; try discriminate F.
  all: cbn [total_sent total_recv with_totals delta_sent delta_recv delta]; rewrite ?N.add_0_r; auto.
Qed.

Lemma process_running : forall fixed a sid e a1 o,
  process fixed a sid e = Some (a1, o) ->
  running a1 = if is_start e then running a + 1 else if is_end e then N.pred (running a) else running a.
Proof. intros fixed a sid e a1 o H. exact (proj1 (process_counters fixed a sid e a1 o H)). Qed.

Lemma process_totals_fixed : forall a sid e a1 o,
  process true a sid e = Some (a1, o) ->
  total_sent a1 = total_sent a + delta_sent e /\ total_recv a1 = total_recv a + delta_recv e.
Proof. intros a sid e a1 o H. exact (proj2 (process_counters true a sid e a1 o H) eq_refl). Qed.

Lemma run_totals : forall evs a a', run_state true a evs = Some a' ->
  total_sent a' = total_sent a + sum_delta delta_sent evs /\
  total_recv a' = total_recv a + sum_delta delta_recv evs.
Proof.
  induction evs as [|[s e] r IH]; intros a a' H; cbn [run_state] in H.
  - inversion H. rewrite !N.add_0_r. auto.
  - destruct (process true a s e) as [[a1 o]|] eqn:E; [|discriminate].
    destruct (process_totals_fixed a s e a1 o E) as [T1 T2]. destruct (IH a1 a' H) as [I1 I2].
    rewrite !sum_delta_cons, I1, I2, T1, T2, !N.add_assoc. auto.
Qed.

Lemma same_sync_eq : forall m0 m, same_sync m0 m = true ->
  sent_sync_bytes m0 = sent_sync_bytes m /\ received_sync_bytes m0 = received_sync_bytes m.
Proof.
  intros m0 m H. unfold same_sync in H. apply andb_true_iff in H. destruct H as [A B].
  apply N.eqb_eq in A. apply N.eqb_eq in B. auto.
Qed.

Lemma no_live_eq : forall m, no_live m = true -> sent_live_bytes m = 0 /\ received_live_bytes m = 0.
Proof.
  intros m H. unfold no_live in H. apply andb_true_iff in H. destruct H as [H _].
  apply andb_true_iff in H. destruct H as [H _]. apply andb_true_iff in H. destruct H as [A B].
  apply N.eqb_eq in A. apply N.eqb_eq in B. auto.
Qed.

(** [phase_cases Hp] for [Hp : phase_step ns p e = Some p']: one goal per transition of the
    automaton, the transition's guard (if any) as a hypothesis [C : _ = true]. *)
Ltac phase_cases Hp :=
  match type of Hp with phase_step ?ns ?p ?e = Some ?p' =>
    destruct p as [| | |m0|m0|m0|o0]; destruct e as [|m|m|m|m| |]; cbn [phase_step] in Hp;
    try discriminate Hp;
    try match type of Hp with
    | (if ?c then _ else _) = Some _ => let E := fresh "C" in destruct c eqn:E; try discriminate Hp
    end;
    inversion Hp; clear Hp; subst
  end.

(** A direction's figures: [f] is constant from SyncFinished on, [g] is 0 until then. *)
Definition direction (f g : metrics -> N) : Prop :=
  (forall m0 m, same_sync m0 m = true -> f m0 = f m) /\ (forall m, no_live m = true -> g m = 0).

Lemma direction_sent : direction sent_sync_bytes sent_live_bytes.
Proof. split; intros; [apply same_sync_eq|apply no_live_eq]; assumption. Qed.

Lemma direction_recv : direction received_sync_bytes received_live_bytes.
Proof. split; intros; [apply same_sync_eq|apply no_live_eq]; assumption. Qed.

Lemma contrib_step : forall f g, direction f g -> forall ns p e p', phase_step ns p e = Some p' ->
  contrib_phase f g p' = contrib_phase f g p + delta f g e.
Proof.
  intros f g [Hsame Hlive] ns p e p' Hp.
  phase_cases Hp; cbn [contrib_phase delta]; try lia.
  - (* PSyncing, SyncFinished *) rewrite (Hlive m C). lia.
  - (* PSynced, SessionFinished *)
    apply andb_true_iff in C. destruct C as [C C']. rewrite (Hsame m0 m C), (Hlive m C'). lia.
  - (* PLive, SessionFinished *) rewrite (Hsame m0 m C). lia.
Qed.

Lemma sum_delta_is_spec : forall ns evs, wf_history ns evs = true ->
  sum_delta delta_sent evs = spec_sent ns evs /\ sum_delta delta_recv evs = spec_recv ns evs.
Proof.
  intros ns evs Hwf.
  change (spec_sent ns evs) with (sum_phases ns (contrib_phase sent_sync_bytes sent_live_bytes) evs).
  change (spec_recv ns evs) with (sum_phases ns (contrib_phase received_sync_bytes received_live_bytes) evs).
  split; apply additive_history; try apply contrib_step; auto using direction_sent, direction_recv.
Qed.

Definition open (p : phase) : N :=
  match p with PStarted | PSyncing | PSynced _ | PLive _ => 1 | _ => 0 end.
Definition has_started (p : phase) : N := match p with PInit => 0 | _ => 1 end.
Definition has_ended (p : phase) : N := match p with PFinished _ | PFailed _ => 1 | _ => 0 end.

Lemma started_step : forall p e p', phase_step true p e = Some p' ->
  has_started p' = has_started p + (if is_start e then 1 else 0).
Proof. intros p e p' Hp. phase_cases Hp; reflexivity. Qed.

Lemma ended_step : forall p e p', phase_step true p e = Some p' ->
  has_ended p' = has_ended p + (if is_end e then 1 else 0).
Proof. intros p e p' Hp. phase_cases Hp; reflexivity. Qed.

Lemma open_started_ended : forall p, open p + has_ended p = has_started p.
Proof. destruct p; reflexivity. Qed.

(** [open = has_started - has_ended], and the running count moves like that difference. *)
Lemma step_ok_running : forall fixed a sid e a1 p p',
  proc_state fixed a sid e = Some a1 -> phase_step true p e = Some p' ->
  open p <= running a -> running a1 + open p = running a + open p'.
Proof.
  intros fixed a sid e a1 p p' Hs Hp Hle. unfold proc_state in Hs.
  destruct (process fixed a sid e) as [[a2 o]|] eqn:E; [|discriminate]. inversion Hs; subst a2.
  apply process_running in E. rewrite E.
  pose proof (started_step p e p' Hp). pose proof (ended_step p e p' Hp).
  pose proof (open_started_ended p). pose proof (open_started_ended p').
  destruct e; cbn [is_start is_end] in *; lia.
Qed.

Lemma sum_phases_add : forall ns F G H evs, (forall p, F p + G p = H p) ->
  sum_phases ns F evs + sum_phases ns G evs = sum_phases ns H evs.
Proof.
  intros ns F G H evs E. unfold sum_phases. induction (sids evs) as [|x ss IH]; [reflexivity|].
  cbn [map]. rewrite !sumN_cons, <- IH. destruct (phase_run ns PInit (proj x evs)) as [p|]; [rewrite <- (E p)|]; lia.
Qed.

(** Totals are exact: for ANY interleaving [evs] of well-formed per-session event sequences the
    topic totals equal the sum over the sessions of what each session contributed (its final
    sync + live figure once it finished, its sync figure once its sync phase finished), each
    byte once — provided the run did not hit a u32 overflow (see [no_panic_within_u32]). *)
Theorem totals_exact : forall ns evs a,
  wf_history ns evs = true -> run_state true agg_new evs = Some a ->
  total_sent a = spec_sent ns evs /\ total_recv a = spec_recv ns evs.
Proof.
  intros ns evs a Hwf Hrun. destruct (sum_delta_is_spec ns evs Hwf) as [<- <-].
  exact (run_totals evs agg_new a Hrun).
Qed.

Definition open_sessions (evs : list (N * ev)) : N :=
  sumN (map (fun s => match phase_run true PInit (proj s evs) with Some p => open p | None => 0 end) (sids evs)).

Theorem running_is_open_sessions : forall fixed evs a,
  wf_history true evs = true -> run_state fixed agg_new evs = Some a ->
  running a = open_sessions evs.
Proof.
  intros fixed evs a Hwf Hrun. rewrite run_state_runS in Hrun.
  change (open_sessions evs) with (sum_phases true open evs).
  exact (potential_history agg (proc_state fixed) running true open (step_ok_running fixed) eq_refl
           evs agg_new a Hwf eq_refl Hrun).
Qed.

(** running = started - ended, and no session ends that was not started, for any interleaving
    of sessions that each begin with SessionStarted and end at most once. *)
Theorem running_is_started_minus_ended : forall fixed evs a,
  wf_history true evs = true -> run_state fixed agg_new evs = Some a ->
  count is_end evs <= count is_start evs /\
  running a = count is_start evs - count is_end evs.
Proof.
  intros fixed evs a Hwf Hrun.
  rewrite (running_is_open_sessions fixed evs a Hwf Hrun), !count_sum_delta.
  rewrite (additive_history true has_started _ started_step eq_refl evs Hwf).
  rewrite (additive_history true has_ended _ ended_step eq_refl evs Hwf).
  pose proof (sum_phases_add true open has_ended has_started evs open_started_ended) as Sp.
  change (open_sessions evs) with (sum_phases true open evs). lia.
Qed.

(** Without any SessionStarted in the input (what the sync layer emits today, C22) the counter
    stays at 0 whatever else happens. *)
Theorem running_zero_without_session_started : forall fixed evs a a',
  count is_start evs = 0 -> running a = 0 -> run_state fixed a evs = Some a' -> running a' = 0.
Proof.
  intros fixed. induction evs as [|[s e] r IH]; intros a a' Hc Hr Hrun; cbn [run_state] in Hrun.
  - inversion Hrun; subst; assumption.
  - destruct (process fixed a s e) as [[a1 o]|] eqn:E; [|discriminate].
    apply process_running in E. rewrite count_cons in Hc.
    destruct (is_start e); [lia|].
    apply (IH a1 a'); [exact Hc| |exact Hrun].
    rewrite E. destruct (is_end e); lia.
Qed.

(** The aggregator is never told the final figure of a failed session, so such a session is
    counted with its sync figure if SyncFinished was seen and not at all otherwise: never more
    than the last figure the session reported (no byte twice), but possibly less than what was
    transferred.  [last_reported f g acc l] is that last figure, [acc] if [l] reports none. *)
Fixpoint last_reported (f g : metrics -> N) (acc : N) (l : list ev) : N :=
  match l with
  | [] => acc
  | OperationReceived m :: r | SyncFinished m :: r | SessionFinished m :: r => last_reported f g (f m + g m) r
  | _ :: r => last_reported f g acc r
  end.

Lemma failed_le_gen : forall f g, direction f g ->
  forall ns l p acc p', phase_run ns p l = Some p' ->
    contrib_phase f g p <= acc ->
    match p' with PFailed _ => contrib_phase f g p' <= last_reported f g acc l | _ => True end.
Proof.
  intros f g [Hsame _] ns. induction l as [|e r IH]; intros p acc p' Hr Hle; cbn [phase_run] in Hr.
  - inversion Hr; subst p'. cbn [last_reported]. destruct p; auto.
  - destruct (phase_step ns p e) as [p1|] eqn:Ep; [|discriminate].
    assert (K : contrib_phase f g p1 <=
                match e with OperationReceived m | SyncFinished m | SessionFinished m => f m + g m | _ => acc end).
    { phase_cases Ep; cbn [contrib_phase] in *; try lia.
      (* PLive, OperationReceived *) rewrite (Hsame m0 m C). lia. }
    specialize (IH p1 _ p' Hr K). destruct e; cbn [last_reported]; exact IH.
Qed.

Theorem failed_session_not_overcounted_partial : forall ns l o,
  phase_run ns PInit l = Some (PFailed o) ->
  contrib_sent ns l <= last_reported sent_sync_bytes sent_live_bytes 0 l /\
  contrib_recv ns l <= last_reported received_sync_bytes received_live_bytes 0 l.
Proof.
  intros ns l o H. unfold contrib_sent, contrib_recv, contrib. rewrite H. split.
  - exact (failed_le_gen _ _ direction_sent ns l PInit 0 (PFailed o) H (N.le_refl 0)).
  - exact (failed_le_gen _ _ direction_recv ns l PInit 0 (PFailed o) H (N.le_refl 0)).
Qed.

Definition stored_fit (l : list (N * metrics)) : Prop := forall k m, lookup k l = Some m -> fits m = true.

Lemma lookup_remove_same : forall k l, lookup k (remove k l) = None.
Proof.
  intros k. induction l as [|[k0 v] l IH]; [reflexivity|].
  unfold remove in *. cbn [filter fst]. destruct (N.eqb k k0) eqn:E; cbn [negb]; [exact IH|].
  cbn [lookup]. rewrite E. exact IH.
Qed.

Lemma lookup_remove : forall k k' l m, lookup k (remove k' l) = Some m -> lookup k l = Some m.
Proof.
  intros k k' l m. induction l as [|[k0 v] l IH]; [auto|].
  unfold remove in *. cbn [filter fst]. destruct (N.eqb k' k0) eqn:E; cbn [negb lookup].
  - intros H. destruct (N.eqb k k0) eqn:E2; [|auto].
    apply N.eqb_eq in E. apply N.eqb_eq in E2. subst k0 k'.
    pose proof (lookup_remove_same k l) as C. unfold remove in C. congruence.
  - destruct (N.eqb k k0); auto.
Qed.

Lemma stored_fit_remove : forall l k, stored_fit l -> stored_fit (remove k l).
Proof. intros l k Hs k' m H. apply lookup_remove in H. exact (Hs k' m H). Qed.

Lemma stored_fit_insert : forall l k m, stored_fit l -> fits m = true -> stored_fit (insert k m l).
Proof.
  intros l k m Hs Hm k' m' H. cbn [insert lookup] in H.
  destruct (N.eqb k' k); [inversion H; subst; exact Hm|exact (stored_fit_remove l k Hs k' m' H)].
Qed.

Lemma fits_default : fits metrics_default = true.
Proof. reflexivity. Qed.

Lemma fits_sums : forall m, fits m = true ->
  exists sb rb so ro, sent_bytes m = Some sb /\ received_bytes m = Some rb /\
                      sent_operations m = Some so /\ received_operations m = Some ro /\
                      sb = sent_sync_bytes m + sent_live_bytes m /\ rb = received_sync_bytes m + received_live_bytes m.
Proof.
  intros m H. unfold fits in H. repeat (apply andb_true_iff in H; destruct H as [H ?]).
  repeat match goal with X : (_ <? _) = true |- _ => apply N.ltb_lt in X end.
  unfold sent_bytes, received_bytes, sent_operations, received_operations.
  rewrite !addc_lt by assumption. do 4 eexists. repeat split; reflexivity.
Qed.

(** [stored_fit] is carried along because Failed adds up the figures stored for the session. *)
Lemma process_no_panic : forall a sid e,
  stored_fit (session_metrics a) -> ev_fits e = true ->
  running a + (if is_start e then 1 else 0) < u32_max_plus_1 ->
  total_sent a + delta_sent e < u32_max_plus_1 -> total_recv a + delta_recv e < u32_max_plus_1 ->
  exists a1 o, process true a sid e = Some (a1, o) /\ stored_fit (session_metrics a1).
Proof.
  intros a sid e Hst Hf Hr Hs Hv.
  assert (Hm : fits (snd (session_end a sid)) = true).
  { cbn [session_end snd]. destruct (lookup sid (session_metrics a)) eqn:L; [exact (Hst _ _ L)|apply fits_default]. }
  destruct e as [|m|m|m|m| |]; cbn [ev_fits is_start delta_sent delta_recv delta] in *; unfold process.
  - rewrite addc_lt by assumption.
    do 2 eexists. split; [reflexivity|]. apply stored_fit_insert; [exact Hst|apply fits_default].
  - do 2 eexists. split; [reflexivity|]. apply stored_fit_insert; assumption.
  - destruct (fits_sums m Hf) as (sb & rb & so & ro & -> & -> & -> & -> & _).
    do 2 eexists. split; [reflexivity|]. apply stored_fit_insert; assumption.
  - destruct (fits_sums m Hf) as (sb & rb & so & ro & -> & -> & -> & -> & -> & ->).
    cbn [bind with_metrics total_sent total_recv]. rewrite !addc_lt by assumption.
    do 2 eexists. split; [reflexivity|]. apply stored_fit_insert; assumption.
  - cbn [session_end fst total_sent total_recv]. rewrite !addc_lt by assumption.
    do 2 eexists. split; [reflexivity|]. apply stored_fit_remove. exact Hst.
  - destruct (fits_sums _ Hm) as (sb & rb & so & ro & E1 & E2 & E3 & E4 & _).
    cbn [session_end snd] in *. rewrite E1, E2, E3, E4.
    do 2 eexists. split; [reflexivity|]. apply stored_fit_remove. exact Hst.
  - do 2 eexists. split; [reflexivity|]. exact Hst.
Qed.

Lemma run_no_panic : forall evs a,
  stored_fit (session_metrics a) -> all_fit evs = true ->
  running a + count is_start evs < u32_max_plus_1 ->
  total_sent a + sum_delta delta_sent evs < u32_max_plus_1 ->
  total_recv a + sum_delta delta_recv evs < u32_max_plus_1 ->
  exists a', run_state true a evs = Some a'.
Proof.
  induction evs as [|[s e] r IH]; intros a Hst Hf Hr Hs Hv; cbn [run_state]; [eexists; reflexivity|].
  cbn [all_fit forallb snd] in Hf. apply andb_true_iff in Hf. destruct Hf as [Hfe Hfr].
  rewrite sum_delta_cons in Hs, Hv. rewrite count_cons in Hr.
  destruct (process_no_panic a s e Hst Hfe) as (a1 & o & E & Hst1); try lia.
  rewrite E. pose proof (process_totals_fixed a s e a1 o E) as [T1 T2].
  pose proof (process_running true a s e a1 o E) as R.
  apply IH; try assumption; [rewrite R|rewrite T1|rewrite T2]; try lia.
  destruct (is_start e); [lia|]. destruct (is_end e); lia.
Qed.

(** Within the u32 range nothing panics: if every metrics record fits, fewer than 2^32 sessions
    were started and the exact totals fit, the whole history is processed. *)
Theorem no_panic_within_u32 : forall ns evs,
  wf_history ns evs = true -> all_fit evs = true ->
  count is_start evs < u32_max_plus_1 ->
  spec_sent ns evs < u32_max_plus_1 -> spec_recv ns evs < u32_max_plus_1 ->
  exists a, run_state true agg_new evs = Some a.
Proof.
  intros ns evs Hwf Hf Hc Hs Hr. destruct (sum_delta_is_spec ns evs Hwf) as [E1 E2].
  apply run_no_panic; cbn [agg_new running total_sent total_recv session_metrics]; try assumption; try lia.
  intros k m H. discriminate H.
Qed.

(** The code before the repair ([fixed = false]), regression witness: one session, 10 sync bytes
    sent, no live traffic; SyncFinished and SessionFinished both add the 10 bytes. *)
Definition m_sent (sync live : N) : metrics := Build_metrics 0 0 0 0 sync 1 0 0 live 0 0 0.
Definition double_count_witness : list (N * ev) :=
  [(1, SessionStarted); (1, SyncStarted metrics_default); (1, SyncFinished (m_sent 10 0)); (1, SessionFinished (m_sent 10 0))].

Lemma asis_double_counts :
  wf_history true double_count_witness = true /\
  exists a, run_state false agg_new double_count_witness = Some a /\
            total_sent a = 20 /\ spec_sent true double_count_witness = 10.
Proof.
  (* the final state is written out: left to unification it comes back as the unevaluated run *)
  split; [reflexivity|]. exists (Build_agg 0 20 0 [] []). repeat split.
Qed.

(** Non-vacuity: the hypotheses of the main theorems hold for a two-session interleaving with
    live traffic and a failure. *)
Definition example_history : list (N * ev) :=
  [(1, SessionStarted); (2, SessionStarted); (1, SyncStarted metrics_default); (2, SyncStarted metrics_default);
   (1, SyncFinished (m_sent 10 0)); (2, OperationReceived metrics_default); (1, LiveModeStarted);
   (2, Failed); (1, OperationReceived (m_sent 10 7)); (1, SessionFinished (m_sent 10 9))].

Example example_history_ok :
  wf_history true example_history = true /\ all_fit example_history = true /\
  (exists a, run_state true agg_new example_history = Some a /\ total_sent a = 19 /\ running a = 0) /\
  spec_sent true example_history = 19 /\ count is_start example_history = 2 /\ count is_end example_history = 2.
Proof.
  repeat split; try reflexivity. exists (Build_agg 0 19 0 [] []). repeat split.
Qed.
