(** Proofs about the transaction permit protocol model (Model/Tx.v), for every program
    assignment [P] and every trace: an invariant [Inv] of the reachable states ([step_inv]), from
    which mutual exclusion, serializability, faithful outcomes, the absence of permanent blocks and
    the unreachability of the API's assert/panics follow; and a measure that every step of a task
    below a bound [n] decreases ([step_decreases]).
    Trusted assumptions: none beyond what Model/Tx.v lists as modelled-not-verified. *)
From Coq Require Import List Arith NArith Lia.
From PV Require Import Lib.ListFacts Model.Tx.
Import ListNotations.

Lemma upd_eq {A} (f : nat -> A) i v : upd f i v i = v.
Proof. unfold upd. rewrite Nat.eqb_refl. reflexivity. Qed.
Lemma upd_neq {A} (f : nat -> A) i v j : j <> i -> upd f i v j = f j.
Proof. unfold upd. destruct (Nat.eqb_spec j i); congruence. Qed.

Lemma tpc_set_pc s i p j : tpc (tasks (set_pc s i p) j) = if Nat.eqb j i then p else tpc (tasks s j).
Proof. unfold set_pc, set_tasks, upd; cbn [tasks]. destruct (Nat.eqb j i); reflexivity. Qed.
Lemma trb_set_pc s i p j : trb (tasks (set_pc s i p) j) = trb (tasks s j).
Proof. unfold set_pc, set_tasks, upd; cbn [tasks]. destruct (Nat.eqb_spec j i); subst; reflexivity. Qed.
Lemma tpc_set_rb s i r j : tpc (tasks (set_rb s i r) j) = tpc (tasks s j).
Proof. unfold set_rb, set_tasks, upd; cbn [tasks]. destruct (Nat.eqb_spec j i); subst; reflexivity. Qed.
Lemma trb_set_rb s i r j : trb (tasks (set_rb s i r) j) = if Nat.eqb j i then r else trb (tasks s j).
Proof. unfold set_rb, set_tasks, upd; cbn [tasks]. destruct (Nat.eqb j i); reflexivity. Qed.

Lemma tasks_set_avail s b : tasks (set_avail s b) = tasks s.
Proof. reflexivity. Qed.
Lemma tasks_set_queue s q : tasks (set_queue s q) = tasks s.
Proof. reflexivity. Qed.
Lemma tasks_set_slot s o : tasks (set_slot s o) = tasks s.
Proof. reflexivity. Qed.
Lemma tasks_commit_db s i p : tasks (commit_db s i p) = tasks s.
Proof. reflexivity. Qed.
Lemma avail_set_pc s i p : avail (set_pc s i p) = avail s.
Proof. reflexivity. Qed.
Lemma queue_set_pc s i p : queue (set_pc s i p) = queue s.
Proof. reflexivity. Qed.
Lemma slot_set_pc s i p : slot (set_pc s i p) = slot s.
Proof. reflexivity. Qed.
Lemma db_set_pc s i p : db (set_pc s i p) = db s.
Proof. reflexivity. Qed.
Lemma log_set_pc s i p : log (set_pc s i p) = log s.
Proof. reflexivity. Qed.
Lemma avail_set_rb s i r : avail (set_rb s i r) = avail s.
Proof. reflexivity. Qed.
Lemma queue_set_rb s i r : queue (set_rb s i r) = queue s.
Proof. reflexivity. Qed.
Lemma slot_set_rb s i r : slot (set_rb s i r) = slot s.
Proof. reflexivity. Qed.
Lemma db_set_rb s i r : db (set_rb s i r) = db s.
Proof. reflexivity. Qed.
Lemma log_set_rb s i r : log (set_rb s i r) = log s.
Proof. reflexivity. Qed.
Lemma avail_set_avail s b : avail (set_avail s b) = b.
Proof. reflexivity. Qed.
Lemma queue_set_avail s b : queue (set_avail s b) = queue s.
Proof. reflexivity. Qed.
Lemma slot_set_avail s b : slot (set_avail s b) = slot s.
Proof. reflexivity. Qed.
Lemma db_set_avail s b : db (set_avail s b) = db s.
Proof. reflexivity. Qed.
Lemma log_set_avail s b : log (set_avail s b) = log s.
Proof. reflexivity. Qed.
Lemma avail_set_queue s q : avail (set_queue s q) = avail s.
Proof. reflexivity. Qed.
Lemma queue_set_queue s q : queue (set_queue s q) = q.
Proof. reflexivity. Qed.
Lemma slot_set_queue s q : slot (set_queue s q) = slot s.
Proof. reflexivity. Qed.
Lemma db_set_queue s q : db (set_queue s q) = db s.
Proof. reflexivity. Qed.
Lemma log_set_queue s q : log (set_queue s q) = log s.
Proof. reflexivity. Qed.
Lemma avail_set_slot s o : avail (set_slot s o) = avail s.
Proof. reflexivity. Qed.
Lemma queue_set_slot s o : queue (set_slot s o) = queue s.
Proof. reflexivity. Qed.
Lemma slot_set_slot s o : slot (set_slot s o) = o.
Proof. reflexivity. Qed.
Lemma db_set_slot s o : db (set_slot s o) = db s.
Proof. reflexivity. Qed.
Lemma log_set_slot s o : log (set_slot s o) = log s.
Proof. reflexivity. Qed.
Lemma avail_commit_db s i p : avail (commit_db s i p) = avail s.
Proof. reflexivity. Qed.
Lemma queue_commit_db s i p : queue (commit_db s i p) = queue s.
Proof. reflexivity. Qed.
Lemma slot_commit_db s i p : slot (commit_db s i p) = slot s.
Proof. reflexivity. Qed.
Lemma db_commit_db s i p : db (commit_db s i p) = db s ++ p.
Proof. reflexivity. Qed.
Lemma log_commit_db s i p : log (commit_db s i p) = log s ++ [i].
Proof. reflexivity. Qed.

Lemma active_not_wait p : active_pc p = true -> p <> PWait.
Proof. intros H E; subst; discriminate. Qed.
Lemma active_not_done p o : active_pc p = true -> p <> PDone o.
Proof. intros H E; subst; discriminate. Qed.

Section Protocol.
Variable P : nat -> prog.

Definition queue_ok (s : state) : Prop :=
  NoDup (queue s) /\ forall j, In j (queue s) <-> tpc (tasks s j) = PWait.

(** [PDone OPanic] (the assert of begin(), the panics of commit()/rollback()) is ruled out here;
    so is [OError] for a program without a failing statement, which excludes TransactionMissing.
    [step_inv] gets this from the slot facts of [own_ok]. *)
Definition pc_clause (lg : list nat) (i : nat) (p : pc) : Prop :=
  match p with
  | PCommitting _ => pfin (P i) = FCommit
  | PRollingBack _ => pfin (P i) = FRollback
  | PDone OCommitted => pfin (P i) = FCommit /\ In i lg
  | PDone ORolledBack => pfin (P i) = FRollback
  | PDone ODropped => pfin (P i) = FDrop
  | PDone OError => pfin (P i) = FError
  | PDone OPanic => False
  | _ => True
  end.
Definition pc_ok (s : state) : Prop := forall i, pc_clause (log s) i (tpc (tasks s i)).

Definition log_ok (s : state) : Prop :=
  NoDup (log s) /\ (forall i, In i (log s) -> tpc (tasks s i) = PDone OCommitted)
  /\ db s = apply_all P (log s).
Definition log_nodup s (H : log_ok s) := proj1 H.
Definition log_done s (H : log_ok s) := proj1 (proj2 H).
Definition log_db s (H : log_ok s) := proj2 (proj2 H).

(** Plain conjunctions, not records: none of the clauses reads [avail] or [slot], so [book] of a
    state and of that state with these fields changed are convertible, and the proofs use that. *)
Definition book (s : state) : Prop := queue_ok s /\ pc_ok s /\ log_ok s.
Definition bk_queue s (H : book s) : queue_ok s := proj1 H.
Definition bk_pc s (H : book s) : pc_ok s := proj1 (proj2 H).
Definition bk_log s (H : book s) : log_ok s := proj2 (proj2 H).

Definition idle (s : state) (j : nat) : Prop :=
  active_pc (tpc (tasks s j)) = false /\ active_rb (trb (tasks s j)) = false.
Definition others_idle (s : state) (i : nat) : Prop := forall j, j <> i -> idle s j.

(** What the slot holds while task [i] itself owns the permit at [p], resp. while its rollback
    task owns it at [r]; false where [p], [r] is not an owning position. *)
Definition slot_T (i : nat) (p : pc) (sl : option (list key)) : Prop :=
  match p with
  | PGranted => sl = None
  | PHold k => sl = Some (firstn k (writes (P i)))
  | PCommitting q | PRollingBack q => sl = None /\ q = writes (P i)
  | _ => False
  end.
Definition slot_R (r : rbpc) (sl : option (list key)) : Prop :=
  match r with RbStart => True | RbRolling => sl = None | _ => False end.

Definition holds (s : state) (i : nat) : Prop :=
  (slot_T i (tpc (tasks s i)) (slot s) /\ active_rb (trb (tasks s i)) = false)
  \/ (slot_R (trb (tasks s i)) (slot s) /\ active_pc (tpc (tasks s i)) = false).

(** A free permit comes with an empty queue ([release] hands a permit to a waiter rather than
    making it available) and an empty slot (what the assert of begin() checks). *)
Definition own_ok (s : state) : Prop :=
  if avail s then (forall j, idle s j) /\ queue s = [] /\ slot s = None
  else exists i, others_idle s i /\ holds s i.

Record Inv (s : state) : Prop := { inv_book : book s; inv_own : own_ok s }.

(** Covers a plain change of pc, joining and leaving the queue, and being handed the permit. *)
Lemma queue_ok_move s q i p :
  queue_ok s -> NoDup q -> (forall j, j <> i -> In j q <-> In j (queue s)) -> (In i q <-> p = PWait) ->
  queue_ok (set_pc (set_queue s q) i p).
Proof.
  intros [_ Hq] Hn Ho Hi. split; [exact Hn|]. intros j.
  rewrite tpc_set_pc, queue_set_pc, queue_set_queue, tasks_set_queue.
  destruct (Nat.eqb_spec j i) as [->|Hj]; [exact Hi|]. rewrite (Ho j Hj). apply Hq.
Qed.

Lemma not_queued s i p :
  queue_ok s -> tpc (tasks s i) <> PWait -> p <> PWait -> In i (queue s) <-> p = PWait.
Proof. intros [_ Hq] Hw Hp. rewrite Hq. split; intros E; [destruct (Hw E)|destruct (Hp E)]. Qed.

Lemma queue_ok_set_pc s i p :
  queue_ok s -> tpc (tasks s i) <> PWait -> p <> PWait -> queue_ok (set_pc s i p).
Proof.
  intros Hq Hw Hp.
  apply (queue_ok_move s (queue s)); [exact Hq|apply Hq|reflexivity|apply not_queued; assumption].
Qed.

Lemma pc_clause_mono l l' i p : incl l l' -> pc_clause l i p -> pc_clause l' i p.
Proof.
  intros Hi. destruct p; cbn; auto. destruct o; cbn; auto. intros [H1 H2]; split; auto.
Qed.

Lemma book_move s q i p :
  book s -> NoDup q -> (forall j, j <> i -> In j q <-> In j (queue s)) -> (In i q <-> p = PWait) ->
  pc_clause (log s) i p -> tpc (tasks s i) <> PDone OCommitted ->
  book (set_pc (set_queue s q) i p).
Proof.
  intros (Hq & Hpc & Hnd & Hl & Hdb) Hn Ho Hi Hc Hd. split; [|split].
  - apply queue_ok_move; assumption.
  - intros j. rewrite tpc_set_pc. destruct (Nat.eqb_spec j i) as [->|_]; [exact Hc|apply Hpc].
  - split; [exact Hnd|split; [|exact Hdb]]. intros j Hj. rewrite tpc_set_pc.
    destruct (Nat.eqb_spec j i) as [->|_]; [|exact (Hl j Hj)]. destruct (Hd (Hl i Hj)).
Qed.

Lemma book_set_pc s i p :
  book s -> tpc (tasks s i) <> PWait -> p <> PWait ->
  pc_clause (log s) i p -> tpc (tasks s i) <> PDone OCommitted -> book (set_pc s i p).
Proof.
  intros HB Hw Hp.
  apply (book_move s (queue s)); [exact HB|apply HB|reflexivity|apply not_queued; [apply HB|..]; assumption].
Qed.

Lemma book_enqueue s i :
  book s -> tpc (tasks s i) = PInit -> book (set_pc (set_queue s (queue s ++ [i])) i PWait).
Proof.
  intros HB Hi. destruct (bk_queue s HB) as [Hn Hq]. apply book_move; try congruence; try exact I.
  - apply NoDup_snoc; [exact Hn|]. rewrite Hq. congruence.
  - intros j Hj. rewrite in_app_iff. cbn. intuition congruence.
  - rewrite in_app_iff. cbn. tauto.
Qed.

Lemma book_dequeue s i :
  book s -> tpc (tasks s i) = PWait -> book (set_pc (dequeue s i) i (PDone OCancelled)).
Proof.
  intros HB Hi. destruct (bk_queue s HB) as [Hn _]. apply book_move; try congruence; try exact I.
  - apply NoDup_filter, Hn.
  - intros j Hj. rewrite filter_In. apply Nat.eqb_neq in Hj. rewrite Hj. cbn. tauto.
  - rewrite filter_In, Nat.eqb_refl. cbn. intuition discriminate.
Qed.

Lemma queue_ok_set_rb s i r : queue_ok s -> queue_ok (set_rb s i r).
Proof. intros [Hn Hq]. split; [exact Hn|]. intros j. rewrite tpc_set_rb. apply Hq. Qed.

Lemma book_set_rb s i r : book s -> book (set_rb s i r).
Proof.
  intros (Hq & Hpc & Hn & Hl & Hd). split; [apply queue_ok_set_rb, Hq|split].
  - intros j. rewrite tpc_set_rb. apply Hpc.
  - split; [exact Hn|split; [|exact Hd]]. intros j. rewrite tpc_set_rb. apply Hl.
Qed.

Lemma apply_all_snoc l i : apply_all P (l ++ [i]) = apply_all P l ++ writes (P i).
Proof. unfold apply_all. rewrite flat_map_app. cbn. rewrite app_nil_r. reflexivity. Qed.

Lemma book_commit s i :
  book s -> tpc (tasks s i) <> PWait -> tpc (tasks s i) <> PDone OCommitted -> pfin (P i) = FCommit ->
  book (commit_db (set_pc s i (PDone OCommitted)) i (writes (P i))).
Proof.
  intros (Hq & Hpc & Hn & Hl & Hd) Hw Hc Hf. split; [|split].
  - apply (queue_ok_set_pc s i); [assumption..|discriminate].
  - intros j. rewrite tasks_commit_db, tpc_set_pc, log_commit_db, log_set_pc.
    destruct (Nat.eqb_spec j i) as [->|_].
    + split; [exact Hf|]. apply in_or_app. right. left. reflexivity.
    + apply pc_clause_mono with (l := log s); [apply incl_appl, incl_refl|apply Hpc].
  - unfold log_ok. rewrite log_commit_db, db_commit_db, log_set_pc, db_set_pc. split; [|split].
    + apply NoDup_snoc; [exact Hn|]. intros H. exact (Hc (Hl i H)).
    + intros j Hj. rewrite tasks_commit_db, tpc_set_pc.
      destruct (Nat.eqb_spec j i) as [->|Hji]; [reflexivity|].
      apply in_app_or in Hj. destruct Hj as [Hj|[Hj|[]]]; [exact (Hl j Hj)|congruence].
    + rewrite apply_all_snoc, Hd. reflexivity.
Qed.

Lemma book_release s : book s -> book (release s).
Proof.
  intros HB. unfold release. destruct (queue s) as [|j q] eqn:Q; [exact HB|].
  destruct (bk_queue s HB) as [Hn Hq]. rewrite Q in Hn. inversion Hn as [|? ? Hj Hnq]; subst.
  assert (Hw : tpc (tasks s j) = PWait) by (apply Hq; rewrite Q; left; reflexivity).
  apply book_move; auto.
  - intros k Hk. rewrite Q. cbn. split; [auto|]. intros [H|H]; [congruence|exact H].
  - split; [contradiction|discriminate].
  - exact I.
  - congruence.
Qed.

Lemma slot_T_active i p sl : slot_T i p sl -> active_pc p = true.
Proof. destruct p; cbn; intros H; reflexivity || destruct H. Qed.
Lemma slot_R_active r sl : slot_R r sl -> active_rb r = true.
Proof. destruct r; cbn; intros H; reflexivity || destruct H. Qed.

Lemma owner_T s i :
  own_ok s -> active_pc (tpc (tasks s i)) = true ->
  avail s = false /\ others_idle s i /\ slot_T i (tpc (tasks s i)) (slot s)
  /\ active_rb (trb (tasks s i)) = false.
Proof.
  unfold own_ok. destruct (avail s).
  - intros [H _] Hi. destruct (H i) as [Hp _]. congruence.
  - intros [h [Hoth Hh]] Hi. destruct (Nat.eq_dec i h) as [->|Hne].
    + destruct Hh as [[Hs Hr]|[_ Hp]]; [auto|congruence].
    + destruct (Hoth i Hne) as [Hp _]. congruence.
Qed.

Lemma owner_R s i :
  own_ok s -> active_rb (trb (tasks s i)) = true ->
  avail s = false /\ others_idle s i /\ slot_R (trb (tasks s i)) (slot s)
  /\ active_pc (tpc (tasks s i)) = false.
Proof.
  unfold own_ok. destruct (avail s).
  - intros [H _] Hi. destruct (H i) as [_ Hr]. congruence.
  - intros [h [Hoth Hh]] Hi. destruct (Nat.eq_dec i h) as [->|Hne].
    + destruct Hh as [[_ Hr]|[Hs Hp]]; [congruence|auto].
    + destruct (Hoth i Hne) as [_ Hr]. congruence.
Qed.

(** The slot content at the pc of task [i], in a form that computes once the pc is known. *)
Lemma owner_slot s i :
  own_ok s -> if active_pc (tpc (tasks s i)) then slot_T i (tpc (tasks s i)) (slot s) else True.
Proof.
  intros Ho. destruct (active_pc (tpc (tasks s i))) eqn:Ha; [apply (owner_T s i Ho Ha)|exact I].
Qed.

Lemma free_queue_nil s : own_ok s -> avail s = true -> queue s = [].
Proof. unfold own_ok. intros Ho Ha. rewrite Ha in Ho. apply Ho. Qed.

Lemma others_set_pc s i p : others_idle s i -> others_idle (set_pc s i p) i.
Proof.
  intros H j Hj. unfold idle. rewrite tpc_set_pc, trb_set_pc, (proj2 (Nat.eqb_neq j i) Hj).
  exact (H j Hj).
Qed.
Lemma others_set_rb s i r : others_idle s i -> others_idle (set_rb s i r) i.
Proof.
  intros H j Hj. unfold idle. rewrite tpc_set_rb, trb_set_rb, (proj2 (Nat.eqb_neq j i) Hj).
  exact (H j Hj).
Qed.

Lemma own_set_pc s i p :
  avail s = false -> others_idle s i -> slot_T i p (slot s) -> active_rb (trb (tasks s i)) = false ->
  own_ok (set_pc s i p).
Proof.
  intros Ha Ho Hs Hr. unfold own_ok. rewrite avail_set_pc, Ha. exists i.
  split; [apply others_set_pc, Ho|]. left. rewrite tpc_set_pc, trb_set_pc, Nat.eqb_refl. auto.
Qed.
Lemma own_set_rb s i r :
  avail s = false -> others_idle s i -> slot_R r (slot s) -> active_pc (tpc (tasks s i)) = false ->
  own_ok (set_rb s i r).
Proof.
  intros Ha Ho Hs Hp. unfold own_ok. rewrite avail_set_rb, Ha. exists i.
  split; [apply others_set_rb, Ho|]. right. rewrite tpc_set_rb, trb_set_rb, Nat.eqb_refl. auto.
Qed.

Lemma own_acquire s i :
  own_ok s -> avail s = true -> own_ok (set_pc (set_avail s false) i PGranted).
Proof.
  unfold own_ok at 1. intros Ho Ha. rewrite Ha in Ho. destruct Ho as (Hid & _ & Hs).
  apply own_set_pc; [reflexivity|intros j _; apply Hid|exact Hs|apply Hid].
Qed.

Lemma own_owner_step s i p sl :
  own_ok s -> active_pc (tpc (tasks s i)) = true -> slot_T i p sl ->
  own_ok (set_pc (set_slot s sl) i p).
Proof.
  intros Ho Hi Hs. destruct (owner_T _ _ Ho Hi) as (Ha & Hoth & _ & Hr).
  apply own_set_pc; assumption.
Qed.

Lemma own_spawn s i x :
  own_ok s -> active_pc (tpc (tasks s i)) = true -> own_ok (spawn_rb (set_pc s i (PDone x)) i).
Proof.
  intros Ho Hi. destruct (owner_T _ _ Ho Hi) as (Ha & Hoth & _ & _).
  apply own_set_rb; [exact Ha|apply others_set_pc, Hoth|exact I|].
  rewrite tpc_set_pc, Nat.eqb_refl. reflexivity.
Qed.

Lemma own_rb_take s i :
  own_ok s -> trb (tasks s i) = RbStart -> own_ok (set_rb (set_slot s None) i RbRolling).
Proof.
  intros Ho Hi. destruct (owner_R s i Ho) as (Ha & Hoth & _ & Hp); [rewrite Hi; reflexivity|].
  apply own_set_rb; [exact Ha|exact Hoth|reflexivity|exact Hp].
Qed.

(** The last hypothesis keeps the empty queue of a free permit. *)
Lemma own_bystander s i p q :
  own_ok s -> active_pc (tpc (tasks s i)) = false -> active_pc p = false ->
  (avail s = true -> q = []) -> own_ok (set_pc (set_queue s q) i p).
Proof.
  intros Ho Hi Hp Hq.
  assert (Hid : forall j, idle s j -> idle (set_pc (set_queue s q) i p) j).
  { intros j [Hj Hr]. unfold idle. rewrite tpc_set_pc, trb_set_pc.
    destruct (Nat.eqb j i); auto. }
  unfold own_ok in *. change (avail (set_pc (set_queue s q) i p)) with (avail s).
  destruct (avail s).
  - destruct Ho as (Ha & _ & Hs). auto.
  - destruct Ho as [h [Hoth Hh]]. exists h. split; [intros j Hj; auto|].
    unfold holds in *. rewrite tpc_set_pc, trb_set_pc. destruct (Nat.eqb_spec h i) as [->|_]; [|exact Hh].
    destruct Hh as [[Hs _]|Hh]; [|tauto]. apply slot_T_active in Hs. congruence.
Qed.

(** Between the end of the holder and the release of the permit. *)
Definition limbo (s : state) : Prop := avail s = false /\ (forall j, idle s j) /\ slot s = None.

Lemma idle_all s i : others_idle s i -> idle s i -> forall j, idle s j.
Proof. intros Ho Hi j. destruct (Nat.eq_dec j i) as [->|Hj]; auto. Qed.

Lemma limbo_done s i x :
  own_ok s -> active_pc (tpc (tasks s i)) = true -> slot s = None -> limbo (set_pc s i (PDone x)).
Proof.
  intros Ho Hi Hs. destruct (owner_T _ _ Ho Hi) as (Ha & Hoth & _ & Hr).
  split; [exact Ha|split; [|exact Hs]]. apply idle_all with (i := i).
  - apply others_set_pc, Hoth.
  - unfold idle. rewrite tpc_set_pc, trb_set_pc, Nat.eqb_refl. auto.
Qed.

Lemma limbo_rb_done s i :
  own_ok s -> trb (tasks s i) = RbRolling -> limbo (set_rb s i RbDone).
Proof.
  intros Ho Hi. destruct (owner_R s i Ho) as (Ha & Hoth & Hs & Hp); [rewrite Hi; reflexivity|].
  rewrite Hi in Hs. split; [exact Ha|split; [|exact Hs]]. apply idle_all with (i := i).
  - apply others_set_rb, Hoth.
  - unfold idle. rewrite tpc_set_rb, trb_set_rb, Nat.eqb_refl. auto.
Qed.

Lemma own_release s : limbo s -> own_ok (release s).
Proof.
  intros (Ha & Hid & Hs). unfold release. destruct (queue s) as [|j q] eqn:Q.
  - unfold own_ok. rewrite avail_set_avail, queue_set_avail, Q. auto.
  - apply own_set_pc; [exact Ha|intros k _; apply Hid|exact Hs|apply Hid].
Qed.

Lemma init_inv : Inv init.
Proof.
  split; [split; [|split]|].
  - split; [constructor|]. intros j; cbn. split; [intros []|discriminate].
  - intros i; exact I.
  - split; [constructor|]. split; [intros i []|reflexivity].
  - cbn. repeat split.
Qed.

Lemma inv_release s : book s -> limbo s -> Inv (release s).
Proof. intros HB HL. split; [apply book_release, HB|apply own_release, HL]. Qed.

Lemma inv_owner_step s i p sl :
  Inv s -> active_pc (tpc (tasks s i)) = true -> slot_T i p sl -> pc_clause (log s) i p ->
  Inv (set_pc (set_slot s sl) i p).
Proof.
  intros [HB Ho] Hi Hs Hc. split; [|apply own_owner_step; assumption].
  apply (book_set_pc s i p); auto using active_not_wait, active_not_done.
  apply active_not_wait. exact (slot_T_active _ _ _ Hs).
Qed.

Lemma inv_spawn s i x :
  Inv s -> active_pc (tpc (tasks s i)) = true -> pc_clause (log s) i (PDone x) ->
  Inv (spawn_rb (set_pc s i (PDone x)) i).
Proof.
  intros [HB Ho] Hi Hc. split; [|apply own_spawn; assumption].
  apply book_set_rb, book_set_pc; auto using active_not_wait, active_not_done. discriminate.
Qed.

Lemma inv_done s i x :
  Inv s -> active_pc (tpc (tasks s i)) = true -> slot s = None -> pc_clause (log s) i (PDone x) ->
  Inv (release (set_pc s i (PDone x))).
Proof.
  intros [HB Ho] Hi Hs Hc. apply inv_release; [|apply limbo_done; assumption].
  apply book_set_pc; auto using active_not_wait, active_not_done. discriminate.
Qed.

Theorem step_inv s l s' : Inv s -> step P s l = Some s' -> Inv s'.
Proof.
  intros HI H. pose proof HI as [HB Ho]. destruct l as [i|i|i]; cbn [step] in H.
  - (* [Hs]: what the slot holds at the pc of [i]; with it the branches of the assert, the panics
       and TransactionMissing disappear *)
    pose proof (owner_slot s i Ho) as Hs. pose proof (bk_pc s HB i) as Hc.
    destruct (tpc (tasks s i)) as [| | |k|p|p|o] eqn:Hi; try discriminate;
      pose proof (f_equal active_pc Hi) as Ha; cbn in Ha, Hs.
    + destruct (avail s) eqn:Hav; injection H as <-; split.
      * apply (book_set_pc s i); try congruence. exact I.
      * apply own_acquire; assumption.
      * apply book_enqueue; assumption.
      * apply own_bystander; auto. congruence.
    + rewrite Hs in H. injection H as <-. apply inv_owner_step; cbn; auto.
    + rewrite Hs in H. destruct (nth_error (writes (P i)) k) as [w|] eqn:Hn.
      * injection H as <-. apply inv_owner_step; cbn; auto.
        rewrite <- (firstn_snoc_nth _ _ _ Hn). reflexivity.
      * apply nth_error_None, firstn_all2 in Hn.
        destruct (pfin (P i)) eqn:Hf; injection H as <-.
        -- apply inv_owner_step; cbn; auto.
        -- apply inv_owner_step; cbn; auto.
        -- apply inv_spawn; assumption.
        -- apply inv_spawn; assumption.
    + destruct Hs as [Hs ->]. injection H as <-. apply inv_release.
      * apply book_commit; congruence.
      * apply limbo_done; assumption.
    + destruct Hs as [Hs _]. injection H as <-. apply inv_done; assumption.
  - pose proof (owner_slot s i Ho) as Hs. pose proof (inv_spawn s i OCancelled HI) as Hsp.
    destruct (tpc (tasks s i)) as [| | |k|p|p|o] eqn:Hi; try discriminate;
      pose proof (f_equal active_pc Hi) as Ha; cbn in Ha, Hs; injection H as <-.
    + split.
      * apply book_set_pc; try congruence. exact I.
      * apply (own_bystander s i _ (queue s)); auto. exact (free_queue_nil s Ho).
    + split.
      * apply book_dequeue; assumption.
      * apply own_bystander; auto. intros Hav. rewrite (free_queue_nil s Ho Hav). reflexivity.
    + apply inv_done; auto. exact I.
    + exact (Hsp eq_refl I).
    + exact (Hsp eq_refl I).
    + exact (Hsp eq_refl I).
  - destruct (trb (tasks s i)) eqn:Hi; try discriminate; injection H as <-.
    + split; [apply book_set_rb, HB|apply own_rb_take; assumption].
    + apply inv_release; [apply book_set_rb, HB|apply limbo_rb_done; assumption].
Qed.

Lemma run_inv tr : forall s s', Inv s -> run P s tr = Some s' -> Inv s'.
Proof.
  induction tr as [|l r IH]; intros s s' HI H; cbn in H.
  - inversion H; subst; exact HI.
  - destruct (step P s l) as [s1|] eqn:E; [|discriminate].
    eapply IH; [eapply step_inv; eauto|exact H].
Qed.

Definition reachable (s : state) : Prop := exists tr, run P init tr = Some s.

Theorem reachable_inv s : reachable s -> Inv s.
Proof. intros [tr H]. eapply run_inv; [apply init_inv|exact H]. Qed.

Lemma run_app t1 : forall s t2,
  run P s (t1 ++ t2) = match run P s t1 with Some s1 => run P s1 t2 | None => None end.
Proof.
  induction t1 as [|l t1 IH]; intros s t2; cbn; [reflexivity|].
  destruct (step P s l); [apply IH|reflexivity].
Qed.

Lemma reachable_step s l s' : reachable s -> step P s l = Some s' -> reachable s'.
Proof.
  intros [t Ht] E. exists (t ++ [l]). rewrite run_app, Ht. cbn. rewrite E. reflexivity.
Qed.

Lemma owner_task s i o : others_idle s i -> owns s o = true -> actor (olabel o) = i.
Proof.
  intros Ho H. destruct o as [j|j]; cbn in *; destruct (Nat.eq_dec j i) as [|Hj]; auto;
    destruct (Ho j Hj); congruence.
Qed.

Lemma own_ok_unique s o1 o2 : own_ok s -> owns s o1 = true -> owns s o2 = true -> o1 = o2.
Proof.
  intros Ho H1 H2. destruct o1 as [i|i]; cbn in H1.
  - destruct (owner_T s i Ho H1) as (_ & Hoth & _ & Hrb). pose proof (owner_task s i o2 Hoth H2) as E.
    destruct o2; cbn in E, H2; subst; [reflexivity|congruence].
  - destruct (owner_R s i Ho H1) as (_ & Hoth & _ & Hp). pose proof (owner_task s i o2 Hoth H2) as E.
    destruct o2; cbn in E, H2; subst; [congruence|reflexivity].
Qed.

(** At most one owner of the semaphore permit (a task inside begin/holding a TransactionPermit/
    inside commit or rollback, or a detached rollback task). *)
Theorem mutual_exclusion s o1 o2 :
  reachable s -> owns s o1 = true -> owns s o2 = true -> o1 = o2.
Proof. intros Hr. apply own_ok_unique, inv_own, reachable_inv, Hr. Qed.

Theorem available_means_unowned s o : reachable s -> avail s = true -> owns s o = false.
Proof.
  intros Hr Ha. apply reachable_inv, inv_own in Hr. unfold own_ok in Hr. rewrite Ha in Hr.
  destruct Hr as (Hid & _). destruct o as [i|i]; apply (Hid i).
Qed.

Lemma taken_owned s : own_ok s -> avail s = false -> exists o, owns s o = true.
Proof.
  unfold own_ok. intros Ho Ha. rewrite Ha in Ho. destruct Ho as [i [_ [[Hs _]|[Hs _]]]].
  - exists (OwT i). exact (slot_T_active _ _ _ Hs).
  - exists (OwR i). exact (slot_R_active _ _ Hs).
Qed.

(** The pending writes in the transaction slot are exactly the writes issued so far by the one
    task that holds the TransactionPermit (or are about to be rolled back by the detached task). *)
Theorem slot_belongs_to_owner s p :
  reachable s -> slot s = Some p ->
  (exists i k, tpc (tasks s i) = PHold k /\ p = firstn k (writes (P i)))
  \/ (exists i, trb (tasks s i) = RbStart).
Proof.
  intros Hr Hs. apply reachable_inv, inv_own in Hr. unfold own_ok in Hr. destruct (avail s).
  - destruct Hr as (_ & _ & H). congruence.
  - destruct Hr as [i [_ [[H _]|[H _]]]]; rewrite Hs in H.
    + left. exists i. destruct (tpc (tasks s i)) as [| | |k|q|q|o]; cbn in H;
        try contradiction; try discriminate; try (destruct H; discriminate).
      exists k. split; congruence.
    + right. exists i. destruct (trb (tasks s i)); cbn in H; try contradiction; congruence.
Qed.

Lemma log_release s : log (release s) = log s.
Proof. unfold release. destruct (queue s); reflexivity. Qed.
Lemma db_release s : db (release s) = db s.
Proof. unfold release. destruct (queue s); reflexivity. Qed.

Lemma log_step s l s' : step P s l = Some s' -> log s' = log s ++ commit_mark s l.
Proof.
  intros H. destruct l as [i|i|i]; cbn [step commit_mark] in *.
  - destruct (tpc (tasks s i)) as [| | |k|p|p|o];
      [destruct (avail s)| |destruct (slot s)
      |destruct (nth_error (writes (P i)) k); [|destruct (pfin (P i))]; destruct (slot s)| | |];
      try discriminate; injection H as <-; rewrite ?log_release, ?app_nil_r; reflexivity.
  - destruct (tpc (tasks s i)); try discriminate; injection H as <-;
      rewrite ?log_release, app_nil_r; reflexivity.
  - destruct (trb (tasks s i)); try discriminate; injection H as <-;
      rewrite ?log_release, app_nil_r; reflexivity.
Qed.

Lemma log_run tr : forall s s', run P s tr = Some s' -> log s' = log s ++ commits_of P s tr.
Proof.
  induction tr as [|l r IH]; intros s s' H; cbn in *.
  - inversion H; subst. rewrite app_nil_r. reflexivity.
  - destruct (step P s l) as [s1|] eqn:E; [|discriminate].
    rewrite (IH _ _ H), (log_step _ _ _ E), app_assoc. reflexivity.
Qed.

Lemma run_book tr s :
  run P init tr = Some s -> book s /\ log s = commits_of P init tr.
Proof.
  intros H. split; [apply inv_book, (run_inv _ _ _ init_inv H)|exact (log_run _ _ _ H)].
Qed.

(** Serializability: after any trace (any interleaving, any cancellation points) the committed
    database is the result of applying, one after another and in commit order, exactly the
    transactions whose commit took effect. *)
Theorem serializable tr s :
  run P init tr = Some s -> db s = apply_all P (commits_of P init tr).
Proof. intros H. destruct (run_book _ _ H) as [HB <-]. exact (log_db s (bk_log s HB)). Qed.

(** The commit order has no repetitions and consists exactly of the tasks that ended with
    outcome "committed". *)
Theorem committed_exactly tr s :
  run P init tr = Some s ->
  NoDup (commits_of P init tr) /\
  forall i, In i (commits_of P init tr) <-> tpc (tasks s i) = PDone OCommitted.
Proof.
  intros H. destruct (run_book _ _ H) as [HB <-].
  split; [exact (log_nodup s (bk_log s HB))|]. intros i. split; [apply (log_done s (bk_log s HB))|].
  intros E. pose proof (bk_pc s HB i) as Hc. rewrite E in Hc. apply Hc.
Qed.

(** Outcomes are faithful to the programs, and the two panics and the TransactionMissing
    error of the store API are unreachable. *)
Theorem outcome_faithful s i o :
  reachable s -> tpc (tasks s i) = PDone o ->
  match o with
  | OCommitted => pfin (P i) = FCommit
  | ORolledBack => pfin (P i) = FRollback
  | ODropped => pfin (P i) = FDrop
  | OError => pfin (P i) = FError
  | OCancelled => True
  | OPanic => False
  end.
Proof.
  intros Hr E. pose proof (bk_pc s (inv_book s (reachable_inv s Hr)) i) as Hc.
  rewrite E in Hc. destruct o; cbn in Hc; tauto.
Qed.

(** Aborted transactions leave no trace: with keys distinct across tasks, no write of a task that
    did not commit (rolled back, dropped its permit, failed, was cancelled anywhere, or is still
    running) is in the committed database. *)
Theorem aborted_leave_no_trace s i w :
  reachable s ->
  (forall a b k, In k (writes (P a)) -> In k (writes (P b)) -> a = b) ->
  tpc (tasks s i) <> PDone OCommitted -> In w (writes (P i)) -> ~ In w (db s).
Proof.
  intros Hr Hd Hn Hw Hin. pose proof (bk_log s (inv_book s (reachable_inv s Hr))) as Hl.
  rewrite (log_db s Hl) in Hin. apply in_flat_map in Hin. destruct Hin as [j [Hj Hwj]].
  assert (j = i) by (eapply Hd; eauto). subst. exact (Hn (log_done s Hl i Hj)).
Qed.

(** ... and they do not keep anything: once no task and no rollback task is in flight, the permit
    is available again and the transaction slot is empty. *)
Theorem quiescent_free s :
  reachable s ->
  (forall i, active_pc (tpc (tasks s i)) = false) ->
  (forall i, active_rb (trb (tasks s i)) = false) ->
  (forall i, tpc (tasks s i) <> PWait) ->
  avail s = true /\ slot s = None.
Proof.
  intros Hr Hp Hb _. apply reachable_inv, inv_own in Hr. destruct (avail s) eqn:Ha.
  - split; [reflexivity|]. unfold own_ok in Hr. rewrite Ha in Hr. apply Hr.
  - destruct (taken_owned s Hr Ha) as [[i|i] H]; cbn in H; congruence.
Qed.

Lemma owner_enabled s o : owns s o = true -> exists s', step P s (olabel o) = Some s'.
Proof.
  destruct o as [i|i]; unfold owns, olabel, step; intros H.
  - destruct (tpc (tasks s i)) as [| | |k|p|p|o]; try discriminate.
    + destruct (slot s); eauto.
    + destruct (nth_error (writes (P i)) k); [|destruct (pfin (P i))]; destruct (slot s); eauto.
    + eauto.
    + eauto.
  - destruct (trb (tasks s i)); try discriminate; eauto.
Qed.

(** No permanent block: whenever a task waits for the semaphore, the permit has exactly one owner
    (not a waiter) and that owner has an enabled step that is not a cancellation. *)
Theorem no_permanent_block s i :
  reachable s -> tpc (tasks s i) = PWait ->
  exists o s', owns s o = true /\ is_cancel (olabel o) = false /\ step P s (olabel o) = Some s'.
Proof.
  intros Hr Hw. apply reachable_inv in Hr. destruct Hr as [HB Ho].
  apply (bk_queue s HB) in Hw. destruct (avail s) eqn:Ha.
  - rewrite (free_queue_nil s Ho Ha) in Hw. destruct Hw.
  - destruct (taken_owned s Ho Ha) as [o H]. destruct (owner_enabled _ _ H) as [s' Hs].
    exists o, s'. repeat split; auto. destruct o; reflexivity.
Qed.

(** A task that has not finished can always move on by itself unless it waits for the permit
    (then [no_permanent_block] applies); a spawned rollback task can always move on
    ([owner_enabled]). *)
Theorem task_enabled s i :
  reachable s -> (forall o, tpc (tasks s i) <> PDone o) -> tpc (tasks s i) <> PWait ->
  exists s', step P s (LStep i) = Some s'.
Proof.
  intros _ Hd Hw. destruct (active_pc (tpc (tasks s i))) eqn:Ha.
  - exact (owner_enabled s (OwT i) Ha).
  - cbn [step]. destruct (tpc (tasks s i)) as [| | | | | |o]; try discriminate.
    + destruct (avail s); eauto.
    + destruct Hw. reflexivity.
    + destruct (Hd o). reflexivity.
Qed.

Definition decr (s s' : state) (i : nat) : Prop :=
  (forall j, t_measure P s' j <= t_measure P s j) /\ t_measure P s' i < t_measure P s i.

Lemma decr_only s s' i :
  (forall j, j <> i -> tasks s' j = tasks s j) -> t_measure P s' i < t_measure P s i -> decr s s' i.
Proof.
  intros Ho Hi. split; [|exact Hi]. intros j. destruct (Nat.eq_dec j i) as [->|Hj].
  - apply Nat.lt_le_incl, Hi.
  - unfold t_measure. rewrite (Ho j Hj). apply le_n.
Qed.

(** The hand-over brings the waiter from [PWait] to [PGranted], which [pc_measure] ranks lower. *)
Lemma decr_release s s1 i : queue_ok s1 -> decr s s1 i -> decr s (release s1) i.
Proof.
  intros [_ Hq] Hd. unfold release. destruct (queue s1) as [|k q] eqn:Q; [exact Hd|].
  assert (Hk : tpc (tasks s1 k) = PWait) by (apply Hq; left; reflexivity).
  assert (Hle : forall j, t_measure P (set_pc (set_queue s1 q) k PGranted) j <= t_measure P s1 j).
  { intros j. unfold t_measure. rewrite tpc_set_pc, trb_set_pc, tasks_set_queue.
    destruct (Nat.eqb_spec j k) as [->|_]; [rewrite Hk; cbn; lia|apply le_n]. }
  destruct Hd as [Hall Hi]. split.
  - intros j. exact (Nat.le_trans _ _ _ (Hle j) (Hall j)).
  - exact (Nat.le_lt_trans _ _ _ (Hle i) Hi).
Qed.

(** Closes [decr s s' i] where [s'] is [s] with only the task state of [i] rewritten (whatever
    happens to the shared fields); [Hi] is the equation for the part of task [i] that the step has
    read. *)
Ltac actor_shrinks Hi :=
  apply decr_only; unfold t_measure;
  cbn [tasks set_pc set_rb set_tasks set_avail set_queue set_slot commit_db spawn_rb dequeue];
  [intros ? ?; rewrite !upd_neq by assumption; reflexivity
  |rewrite !upd_eq; cbn [tpc trb]; rewrite Hi; cbn [pc_measure rb_measure]; lia].

Lemma step_measure s l s' :
  queue_ok s -> step P s l = Some s' -> decr s s' (actor l).
Proof.
  intros Hq H. destruct l as [i|i|i]; cbn [step actor] in *.
  1, 2: assert (Hrel : forall x, tpc (tasks s i) <> PWait -> queue_ok (set_pc s i (PDone x)))
    by (intros x Hw; apply queue_ok_set_pc; [exact Hq|exact Hw|discriminate]).
  - destruct (tpc (tasks s i)) as [| | |k|p|p|o] eqn:Hi; try discriminate.
    + destruct (avail s); injection H as <-; actor_shrinks Hi.
    + destruct (slot s); injection H as <-; [|actor_shrinks Hi].
      apply decr_release; [apply Hrel; discriminate|actor_shrinks Hi].
    + destruct (nth_error (writes (P i)) k) as [w|] eqn:Hn.
      * assert (k < length (writes (P i))) by (apply nth_error_Some; congruence).
        destruct (slot s); injection H as <-; actor_shrinks Hi.
      * destruct (pfin (P i)), (slot s); injection H as <-; actor_shrinks Hi.
    + injection H as <-. apply decr_release; [apply (Hrel OCommitted); discriminate|actor_shrinks Hi].
    + injection H as <-. apply decr_release; [apply Hrel; discriminate|actor_shrinks Hi].
  - destruct (tpc (tasks s i)) as [| | |k|p|p|o] eqn:Hi; try discriminate; injection H as <-;
      [| |apply decr_release; [apply Hrel; discriminate|]|..]; actor_shrinks Hi.
  - destruct (trb (tasks s i)) eqn:Hi; try discriminate; injection H as <-.
    + actor_shrinks Hi.
    + apply decr_release; [apply queue_ok_set_rb, Hq|actor_shrinks Hi].
Qed.

Lemma fold_sum_le (f g : nat -> nat) l :
  (forall j, f j <= g j) ->
  fold_right (fun i acc => f i + acc) 0 l <= fold_right (fun i acc => g i + acc) 0 l.
Proof. intros H. induction l as [|a l IH]; cbn [fold_right]; [lia|]. specialize (H a). lia. Qed.

Lemma fold_sum_lt (f g : nat -> nat) l i :
  (forall j, f j <= g j) -> In i l -> f i < g i ->
  fold_right (fun i acc => f i + acc) 0 l < fold_right (fun i acc => g i + acc) 0 l.
Proof.
  intros H Hin Hi. induction l as [|a l IH]; [destruct Hin|].
  cbn [fold_right]. destruct Hin as [E|Hin].
  - subst. pose proof (fold_sum_le f g l H). lia.
  - specialize (IH Hin). specialize (H a). lia.
Qed.

(** Every step of a task below [n] (program step, cancellation or rollback-task step) strictly
    decreases [measure]; so every trace over [n] tasks is finite and, by [no_permanent_block] and
    [task_enabled], can only end when all of them are done. *)
Theorem step_decreases s l s' n :
  reachable s -> step P s l = Some s' -> actor l < n -> measure P n s' < measure P n s.
Proof.
  intros Hr H Hn. destruct (step_measure _ _ _ (bk_queue s (inv_book s (reachable_inv s Hr))) H) as [Hle Hlt].
  apply (fold_sum_lt (t_measure P s') (t_measure P s) (seq 0 n) (actor l)); auto.
  apply in_seq. lia.
Qed.

Theorem trace_length_bounded tr : forall s s' n,
  reachable s -> run P s tr = Some s' -> Forall (fun l => actor l < n) tr ->
  length tr + measure P n s' <= measure P n s.
Proof.
  induction tr as [|l r IH]; intros s s' n Hr H Hf; cbn in *.
  - inversion H; subst. lia.
  - destruct (step P s l) as [s1|] eqn:E; [|discriminate]. inversion Hf; subst.
    pose proof (step_decreases _ _ _ n Hr E H2).
    specialize (IH _ _ n (reachable_step _ _ _ Hr E) H H3). lia.
Qed.

End Protocol.

Lemma run_obs {A} P (f : state -> A) tr v :
  option_map f (run P init tr) = Some v -> exists s, reachable P s /\ f s = v.
Proof.
  destruct (run P init tr) as [s|] eqn:E; [|discriminate]. intros H. injection H as H.
  exists s. split; [exists tr; exact E|exact H].
Qed.

(** Non-vacuity: a concrete run that exercises waiting, hand-off, commit, a cancelled holder,
    the detached rollback task, and satisfies the hypotheses of the theorems above. *)
Definition exP : nat -> prog := fun i =>
  match i with
  | 0 => {| writes := [1; 2]%N; pfin := FCommit |}
  | 1 => {| writes := [3]%N; pfin := FDrop |}
  | 2 => {| writes := [4]%N; pfin := FCommit |}
  | _ => {| writes := []; pfin := FRollback |}
  end.
Definition ex_tr : list label :=
  [LStep 0; LStep 1; LStep 2; LStep 0; LStep 0; LStep 0; LStep 0; LStep 0;
   LStep 1; LStep 1; LCancel 1; LRb 1; LRb 1; LStep 2; LStep 2; LStep 2; LStep 2].

Example ex_db : option_map db (run exP init ex_tr) = Some [1; 2; 4]%N.
Proof. vm_compute. reflexivity. Qed.
Example ex_commits : commits_of exP init ex_tr = [0; 2].
Proof. vm_compute. reflexivity. Qed.
Example ex_reachable_waiting :
  exists s, reachable exP s /\ tpc (tasks s 1) = PWait /\ owns s (OwT 0) = true.
Proof.
  destruct (run_obs exP (fun s => (tpc (tasks s 1), owns s (OwT 0))) [LStep 0; LStep 1] (PWait, true))
    as [s [Hr E]]; [vm_compute; reflexivity|].
  exists s. injection E as E1 E2. auto.
Qed.
Example ex_reachable_rb_owner :
  exists s, reachable exP s /\ owns s (OwR 1) = true /\ tpc (tasks s 2) = PWait /\ slot s = Some [3%N].
Proof.
  destruct (run_obs exP (fun s => (owns s (OwR 1), tpc (tasks s 2), slot s)) (firstn 11 ex_tr)
              (true, PWait, Some [3%N])) as [s [Hr E]]; [vm_compute; reflexivity|].
  exists s. injection E as E1 E2 E3. auto.
Qed.
Example ex_keys_distinct :
  forall a b k, In k (writes (exP a)) -> In k (writes (exP b)) -> a = b.
Proof.
  (* each key names its task *)
  assert (H : forall a k, In k (writes (exP a)) -> a = match k with (1 | 2)%N => 0 | 3%N => 1 | _ => 2 end).
  { intros [|[|[|a]]] k; cbn; intuition (subst; reflexivity). }
  intros a b k Ha Hb. rewrite (H a k Ha), (H b k Hb). reflexivity.
Qed.
Example ex_actors_bounded : Forall (fun l => actor l < 3) ex_tr.
Proof. repeat constructor. Qed.
