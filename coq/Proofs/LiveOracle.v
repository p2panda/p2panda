(** Soundness of the C23 oracle (Oracle/C23.v): what [check_peer] and the conjuncts [check_seq],
    [check_no_seed_sent], [check_complete] of [check_rest] accept satisfies the statements the
    theorems of Proofs/Live.v establish for the model.  [check_cons] is not covered. *)
From Coq Require Import List NArith Bool.
From PV Require Import Proofs.Dedup Model.Live Oracle.C23.
Import ListNotations.

Lemma eqb2_spec : forall s op a b, N.eqb s a && N.eqb op b = true <-> a = s /\ b = op.
Proof.
  intros s op a b. rewrite andb_true_iff, !N.eqb_eq. split; intros [-> ->]; split; reflexivity.
Qed.

Lemma is_sent_spec : forall s op e, is_sent s op e = true <-> e = ESent s op.
Proof.
  intros s op [a b|a b|a b]; cbn [is_sent]; [|rewrite eqb2_spec|]; split; intro H; try discriminate H.
  - destruct H as [-> ->]. reflexivity.
  - injection H; auto.
Qed.

Lemma is_arr_spec : forall s op e, is_arr s op e = true <-> e = EArr s op.
Proof.
  intros s op [a b|a b|a b]; cbn [is_arr]; [rewrite eqb2_spec| |]; split; intro H; try discriminate H.
  - destruct H as [-> ->]. reflexivity.
  - injection H; auto.
Qed.

Lemma none_later : forall (p : entry -> bool) l e, negb (existsb p l) = true -> In e l -> p e = true -> False.
Proof.
  intros p l e H Hin Hp. apply negb_true_iff in H.
  rewrite (proj2 (existsb_exists p l)) in H by eauto. discriminate H.
Qed.

Theorem check_seq_sound : forall l, check_seq l = true ->
  forall l1 e l2, l = l1 ++ e :: l2 ->
    match e with
    | ESent s op => ~ In (ESent s op) l2
    | EArr s op => ~ In (ESent s op) l2
    | ECons _ op => forall s', ~ In (ECons s' op) l2
    end.
Proof.
  induction l as [|x l IH]; intros H l1 e l2 E; [destruct l1; discriminate E|].
  cbn [check_seq] in H. apply andb_true_iff in H. destruct H as [Hx Hl].
  destruct l1 as [|y l1]; injection E as -> ->; [|eapply IH; [exact Hl | reflexivity]].
  destruct e as [s op|s op|s op]; [intro Hin | intro Hin | intros s' Hin]; apply (none_later _ _ _ Hx Hin);
    [apply is_sent_spec; reflexivity | apply is_sent_spec; reflexivity | apply N.eqb_refl].
Qed.

Theorem check_peer_sound : forall c l, check_peer c l = true ->
  forall l1 s op l2 s', l = l1 ++ EArr s op :: l2 ->
    same_topic c s s' = true -> peer_of c s = peer_of c s' -> ~ In (ESent s' op) l2.
Proof.
  intros c. induction l as [|x l IH]; intros H l1 s op l2 s' E Hs Hp; [destruct l1; discriminate E|].
  cbn [check_peer] in H. apply andb_true_iff in H. destruct H as [Hx Hl].
  destruct l1 as [|y l1]; injection E as -> ->; [|eapply IH; [exact Hl | reflexivity | exact Hs | exact Hp]].
  intro Hin. apply (none_later _ _ _ Hx Hin). rewrite N.eqb_refl, Hs, Hp.
  destruct (peer_of c s'); [apply N.eqb_refl | reflexivity].
Qed.

Theorem check_complete_sound : forall c seed l, check_complete c seed l = true ->
  forall s op s', In (EArr s op) l -> In s' (map sid c) -> same_topic c s s' = true ->
    In (ESent s' op) l \/ In (EArr s' op) l \/ In op (seed s').
Proof.
  intros c seed l H0 s op s' Harr Hin Hs. apply in_map_iff in Hin. destruct Hin as (x & <- & Hx).
  pose proof (proj1 (forallb_forall _ l) H0 _ Harr) as H1. cbn beta iota in H1.
  pose proof (proj1 (forallb_forall _ c) H1 x Hx) as H. cbn beta in H.
  rewrite Hs in H. cbn [negb orb] in H. unfold knows in H.
  apply orb_true_iff in H. destruct H as [H|H]; [apply orb_true_iff in H; destruct H as [H|H]|].
  - left. apply existsb_exists in H. destruct H as (e & He & Hp). apply is_sent_spec in Hp. subst. exact He.
  - right. left. apply existsb_exists in H. destruct H as (e & He & Hp). apply is_arr_spec in Hp. subst. exact He.
  - right. right. apply memN_true_in. exact H.
Qed.

Theorem check_no_seed_sent_sound : forall seed l, check_no_seed_sent seed l = true ->
  forall s op, In (ESent s op) l -> ~ In op (seed s).
Proof.
  intros seed l H0 s op Hin Hs. pose proof (proj1 (forallb_forall _ l) H0 _ Hin) as H. cbn beta iota in H.
  apply negb_true_iff in H. apply (memN_false_notin _ _ H). exact Hs.
Qed.
