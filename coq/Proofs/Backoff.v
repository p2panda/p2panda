(** C28, the discovery backoff (Model/Backoff.v).

    Trusted assumptions (Section variables/hypotheses, premises of the closed theorems): the
    generator [R]/[sample] is arbitrary; where stated, [sample_in_range]: a draw from a
    non-empty range lies in it (proved below for the model of rand's sampler, [canon_sample],
    and for scripted draws that are in range). *)
From Coq Require Import List ZArith Lia.
From PV Require Import Model.Backoff.
Import ListNotations.
Local Open Scope N_scope.

Section BackoffProofs.
  Variable R : Type.
  Variable sample : N -> N -> R -> N * R.
  Variable cfg : config.

  (* These shadow the model's names inside the section: to unfold one, write [Backoff.reset] etc. *)
  Notation state := (state R).
  Notation reset := (reset R sample cfg).
  Notation new := (new R sample cfg).
  Notation bump := (bump R sample cfg).
  Notation increment := (increment R sample cfg).
  Notation step := (step R sample cfg).
  Notation trace := (trace R sample cfg).

  Definition in_bounds (s : state) : Prop :=
    initial_value cfg <= value s /\ value s <= max_value cfg.

  Lemma reset_value (s : state) : value (reset s) = initial_value cfg /\ elapsed (reset s) = 0.
  Proof. unfold Backoff.reset. destruct (sample _ _ _). split; reflexivity. Qed.

  Lemma bump_clock (b : bool) (s : state) :
    elapsed (bump b s) = elapsed s /\ reset_after (bump b s) = reset_after s.
  Proof.
    unfold Backoff.bump.
    destruct (max_value cfg <? value s); [split; reflexivity|].
    destruct (value s <? max_value cfg); [|split; reflexivity].
    destruct (sample _ _ _). split; reflexivity.
  Qed.

  Lemma bump_value (b : bool) (s : state) :
    value (bump b s) =
      if value s <? max_value cfg
      then let v := value s + fst (sample (min_increment cfg) (max_increment cfg) (rng s)) in
           if b then N.min v (max_value cfg) else v
      else max_value cfg.
  Proof.
    unfold Backoff.bump.
    destruct (N.ltb_spec (max_value cfg) (value s)), (N.ltb_spec (value s) (max_value cfg));
      try (cbn [value]; lia).
    destruct (sample _ _ _). reflexivity.
  Qed.

  Lemma increment_cases (s : state) :
    increment s = if reset_after s <=? elapsed s then reset (bump true s) else bump true s.
  Proof.
    unfold Backoff.increment, Backoff.maybe_reset. destruct (bump_clock true s) as [-> ->]. reflexivity.
  Qed.

  Lemma reset_bounds (s : state) : initial_value cfg <= max_value cfg -> in_bounds (reset s).
  Proof. intros Hc. unfold in_bounds. destruct (reset_value s) as [-> _]. lia. Qed.

  Lemma bump_bounds (s : state) :
    initial_value cfg <= max_value cfg -> initial_value cfg <= value s -> in_bounds (bump true s).
  Proof.
    intros Hc Hs. unfold in_bounds. rewrite bump_value.
    destruct (value s <? max_value cfg); cbv zeta; lia.
  Qed.

  Lemma step_bounds (s : state) (o : op) :
    initial_value cfg <= max_value cfg -> in_bounds s -> in_bounds (step s o).
  Proof.
    intros Hc Hs. destruct o as [| |d|delta]; cbn [Backoff.step Backoff.step_with].
    - rewrite increment_cases. destruct (reset_after s <=? elapsed s).
      + apply reset_bounds, Hc.
      + apply bump_bounds; [exact Hc|apply Hs].
    - apply reset_bounds, Hc.
    - exact Hs.
    - exact Hs.
  Qed.

  Lemma trace_bounds (ops : list op) : forall s : state,
    initial_value cfg <= max_value cfg -> in_bounds s -> Forall in_bounds (trace s ops).
  Proof.
    induction ops as [|o r IH]; intros s Hc Hs; cbn [Backoff.trace Backoff.trace_with].
    - constructor; [exact Hs|constructor].
    - constructor; [exact Hs|]. apply IH; [exact Hc|]. apply step_bounds; assumption.
  Qed.

  (** C28, bounds: no assumption on [sample]. *)
  Theorem bounds (r : R) (ops : list op) :
    initial_value cfg <= max_value cfg ->
    Forall (fun s => initial_value cfg <= value s <= max_value cfg) (trace (new r) ops).
  Proof. intros Hc. apply trace_bounds; [exact Hc|apply reset_bounds, Hc]. Qed.

  (** C28, reset. *)
  Theorem resets_after_interval (s : state) :
    reset_after s <= elapsed s ->
    value (increment s) = initial_value cfg /\ elapsed (increment s) = 0.
  Proof.
    intros H. rewrite increment_cases. apply N.leb_le in H. rewrite H. apply reset_value.
  Qed.

  Theorem no_reset_before_interval (s : state) :
    elapsed s < reset_after s -> value s <= max_value cfg ->
    reset_after (increment s) = reset_after s /\ elapsed (increment s) = elapsed s /\
    value s <= value (increment s).
  Proof.
    intros H Hm. rewrite increment_cases. apply N.leb_gt in H. rewrite H.
    destruct (bump_clock true s) as [-> ->]. rewrite bump_value.
    destruct (value s <? max_value cfg); cbv zeta; lia.
  Qed.

  Hypothesis sample_in_range :
    forall lo hi r, lo < hi -> lo <= fst (sample lo hi r) /\ fst (sample lo hi r) < hi.

  Theorem reset_interval_in_range (s : state) :
    min_reset cfg < max_reset cfg ->
    min_reset cfg <= reset_after (reset s) /\ reset_after (reset s) < max_reset cfg.
  Proof.
    intros H. pose proof (sample_in_range _ _ (rng s) H) as P.
    unfold Backoff.reset. destruct (sample _ _ _). exact P.
  Qed.

  Theorem increment_size (s : state) :
    min_increment cfg < max_increment cfg ->
    elapsed s < reset_after s -> value s < max_value cfg ->
    exists k, min_increment cfg <= k /\ k < max_increment cfg /\
              value (increment s) = N.min (value s + k) (max_value cfg).
  Proof.
    intros Hc H Hv. apply N.leb_gt in H. apply N.ltb_lt in Hv.
    rewrite increment_cases, H, bump_value, Hv.
    destruct (sample_in_range _ _ (rng s) Hc). eexists. repeat split; eassumption.
  Qed.
End BackoffProofs.

(** The first entry is the reset interval that [new] draws; the other seven are the increments:
    6 x 4999 = 29 994, then + 4000. *)
Definition asis_script : list N := [60000; 4999; 4999; 4999; 4999; 4999; 4999; 4000].
Definition asis_ops : list op := [Inc; Inc; Inc; Inc; Inc; Inc; Inc].

(** The original code, where the clamp happens on the next call.  Default configuration, every
    draw inside its configured range, no time passes: after the seventh increment the delay is
    33 994 ms > 30 000 ms. *)
Theorem late_clamp_refuted :
  exists (script : list N) (ops : list op),
    valid default_config = true /\
    ~ Forall (fun s => value s <= max_value default_config)
        (trace_asis (list N) script_sample default_config (new (list N) script_sample default_config script) ops).
Proof.
  exists asis_script, asis_ops. split; [reflexivity|].
  intros H. apply (Forall_map value (fun v => v <= max_value default_config)) in H.
  rewrite Forall_forall in H. apply (H 33994); [|reflexivity].
  vm_compute. tauto.
Qed.

(** The same script on the repaired model stays within bounds (it is an instance of [bounds]). *)
Example repaired_script_in_bounds :
  map value (trace (list N) script_sample default_config (new (list N) script_sample default_config asis_script) asis_ops)
  = [0; 4999; 9998; 14997; 19996; 24995; 29994; 30000].
Proof. vm_compute. reflexivity. Qed.

Lemma two_digits_lt (b lo hi : N) : lo < b -> hi < b -> hi * b + lo < b * b.
Proof.
  intros Hlo Hhi. apply N.lt_le_trans with ((hi + 1) * b); [lia|].
  apply N.mul_le_mono_r. lia.
Qed.

Lemma next_u64_lt (ws : list N) : fst (next_u64 ws) < two64.
Proof. destruct ws; cbn [next_u64 fst]; [reflexivity|]. apply N.mod_lt. discriminate. Qed.

Lemma next_u128_lt (ws : list N) : fst (next_u128 ws) < two128.
Proof.
  unfold next_u128.
  pose proof (next_u64_lt ws) as H1. destruct (next_u64 ws) as [lo r1].
  pose proof (next_u64_lt r1) as H2. destruct (next_u64 r1) as [hi r2].
  apply two_digits_lt; assumption.
Qed.

(** Canon's method scales [x < t] to [x * range / t]: the quotient is below [range], and below
    [range - 1] whenever the remainder is large enough for the carry to be looked at. *)
Lemma scaled_quotient (t range x : N) :
  x < t -> 0 < range ->
  x * range / t < range /\ (t - range < (x * range) mod t -> x * range / t + 1 < range).
Proof.
  intros Hx Hr. assert (Ht : t <> 0) by lia.
  pose proof (N.div_mod' (x * range) t) as Hdm.
  pose proof (N.mul_le_mono_r (x + 1) t range) as Hle.
  set (q := x * range / t) in *. set (m := (x * range) mod t) in *.
  assert (Hq : q < range).
  { apply N.div_lt_upper_bound; [exact Ht|]. apply N.mul_lt_mono_pos_r; assumption. }
  split; [exact Hq|]. intros Hm.
  (* (x + 1) * range <= t * range, so q = range - 1 would force m <= t - range *)
  destruct (N.lt_ge_cases (q + 1) range) as [|Hge]; [assumption|].
  replace range with (q + 1) in Hle at 2 by lia. lia.
Qed.

Lemma canon_in_range (lo hi : N) (ws : list N) :
  lo < hi -> lo <= fst (canon_sample lo hi ws) /\ fst (canon_sample lo hi ws) < hi.
Proof.
  intros H. unfold canon_sample. cbv zeta.
  pose proof (next_u128_lt ws) as Hx. destruct (next_u128 ws) as [x r1].
  destruct (scaled_quotient two128 (hi - lo) x Hx) as [Hq Hq1]; [lia|].
  revert Hq Hq1. generalize (x * (hi - lo) / two128). intros q Hq Hq1.
  destruct (N.ltb_spec (two128 - (hi - lo)) ((x * (hi - lo)) mod two128)) as [Hb|Hb].
  - destruct (next_u128 r1) as [x2 r2]. specialize (Hq1 Hb). cbn [fst].
    destruct (two128 <=? _); lia.
  - cbn [fst]. lia.
Qed.

Lemma script_in_range (lo hi : N) (r : list N) :
  Forall (fun x => lo <= x < hi) r -> lo < hi ->
  lo <= fst (script_sample lo hi r) /\ fst (script_sample lo hi r) < hi.
Proof. intros F H. destruct r as [|x t]; cbn [script_sample fst]; [lia|]. inversion F; subst. assumption. Qed.

Definition ex_words : list N :=
  [3; 9223372036854775808; 5; 13835058055282163712; 7; 4611686018427387904; 11; 4611686018427387904; 13; 0].

Example ex_run :
  map (fun s => (value s, reset_after s))
      (trace (list N) canon_sample default_config (new (list N) canon_sample default_config ex_words)
             [Inc; Adv 200000; Inc; Inc])
  = [(0, 120000); (4000, 120000); (4000, 120000); (0, 90000); (1000, 90000)].
Proof. vm_compute. reflexivity. Qed.

Example ex_valid : valid default_config = true /\ initial_value default_config <= max_value default_config.
Proof. split; [reflexivity|intros H; discriminate H]. Qed.
