(** The de-duplication buffer (Model/Dedup.v) against its specification [spec_run]: the buffer
    holds the last [cap] items of the history of accepted items ([Inv]), and that is kept by one
    insertion because of [lastn_snoc].

    Where [1 <= c] is asked: with capacity 0 the eviction test comes before the push, so the
    model keeps one item ([run (new 0) [1;2;3]] ends with [[3]]) and neither the specification nor
    the capacity bound holds. *)
From Coq Require Import List Arith NArith Bool Lia.
From PV Require Import Lib.ListFacts Model.Dedup.
Import ListNotations.

Lemma in_snoc {A} : forall (l : list A) x y, In x (l ++ [y]) <-> In x l \/ x = y.
Proof.
  intros l x y. rewrite in_app_iff. cbn [In]. split; (intros [H|H]; [left; exact H | right]).
  - destruct H as [H|[]]. symmetry. exact H.
  - left. symmetry. exact H.
Qed.

Lemma lastn_length {A} (n : nat) (l : list A) : length (lastn n l) = Nat.min n (length l).
Proof. unfold lastn. rewrite skipn_length. lia. Qed.

Lemma lastn_all {A} (n : nat) (l : list A) : length l <= n -> lastn n l = l.
Proof. intros H. unfold lastn. replace (length l - n) with 0 by lia. reflexivity. Qed.

(** Appending to the history and keeping the last [c] is what the ring buffer does (evict the
    front iff full). *)
Lemma lastn_snoc (c : nat) (acc : list N) (x : N) :
  1 <= c ->
  lastn c (acc ++ [x]) =
  (if Nat.ltb c (length (lastn c acc) + 1) then tl (lastn c acc) else lastn c acc) ++ [x].
Proof.
  intros Hc. rewrite lastn_length.
  destruct (Nat.ltb_spec c (Nat.min c (length acc) + 1)) as [Hfull|Hroom].
  - assert (Hlen : c <= length acc) by lia.
    unfold lastn. rewrite tl_skipn, app_length. cbn [length].
    rewrite skipn_app.
    replace (length acc + 1 - c) with (S (length acc - c)) by lia.
    replace (S (length acc - c) - length acc) with 0 by lia.
    reflexivity.
  - assert (Hlen : length acc + 1 <= c) by lia.
    rewrite (lastn_all c acc) by lia.
    apply lastn_all. rewrite app_length. cbn [length]. lia.
Qed.

Lemma memN_false_notin x l : memN x l = false -> ~ In x l.
Proof.
  unfold memN. intros H Hin.
  assert (existsb (N.eqb x) l = true) as E.
  { apply existsb_exists. exists x. split; [exact Hin | apply N.eqb_refl]. }
  congruence.
Qed.

Lemma memN_true_in x l : memN x l = true -> In x l.
Proof.
  unfold memN. intros H. apply existsb_exists in H. destruct H as (y & Hy & E).
  apply N.eqb_eq in E. subst. exact Hy.
Qed.

Lemma memN_reflect x l : reflect (In x l) (memN x l).
Proof.
  destruct (memN x l) eqn:E; constructor; [apply memN_true_in | apply memN_false_notin]; exact E.
Qed.

Lemma insert_fresh b x : snd (insert b x) = negb (memN x (items b)).
Proof. unfold insert. destruct (memN x (items b)); reflexivity. Qed.

Lemma insert_cap b x : cap (fst (insert b x)) = cap b.
Proof. unfold insert. destruct (memN x (items b)); reflexivity. Qed.

Lemma insert_in b x : In x (items (fst (insert b x))).
Proof.
  unfold insert. destruct (memN_reflect x (items b)) as [Hin|_]; cbn [fst items]; [exact Hin|].
  apply in_snoc. right. reflexivity.
Qed.

Lemma insert_only b x y : In y (items (fst (insert b x))) -> In y (items b) \/ y = x.
Proof.
  unfold insert. destruct (memN x (items b)); cbn [fst items]; [auto|].
  rewrite in_snoc. intros [H|H]; [left | right; exact H].
  destruct (Nat.ltb _ _); [|exact H]. destruct (items b); [exact H | right; exact H].
Qed.

Lemma insert_noevict b x :
  (~ In x (items b) -> length (items b) < cap b) -> incl (items b) (items (fst (insert b x))).
Proof.
  intros Hroom y Hy. unfold insert. destruct (memN_reflect x (items b)) as [_|Hn]; cbn [fst items]; [exact Hy|].
  rewrite (proj2 (Nat.ltb_ge _ _)) by (rewrite Nat.add_1_r; exact (Hroom Hn)).
  apply in_snoc. left. exact Hy.
Qed.

Lemma insert_nodup b x : NoDup (items b) -> NoDup (items (fst (insert b x))).
Proof.
  intros Hnd. unfold insert. destruct (memN_reflect x (items b)) as [_|Hn]; cbn [fst items]; [exact Hnd|].
  destruct (Nat.ltb _ _); [|apply NoDup_snoc; assumption].
  destruct (items b) as [|a l]; [apply NoDup_snoc; assumption|].
  apply NoDup_snoc; [inversion Hnd; assumption | intro H; apply Hn; right; exact H].
Qed.

Definition Inv (b : buf) (acc : list N) : Prop := items b = lastn (cap b) acc.

Lemma insert_inv b acc x :
  1 <= cap b -> Inv b acc ->
  snd (insert b x) = negb (memN x (lastn (cap b) acc)) /\
  Inv (fst (insert b x)) (if snd (insert b x) then acc ++ [x] else acc).
Proof.
  intros Hc HI. rewrite insert_fresh, <- HI. split; [reflexivity|].
  unfold insert. destruct (memN x (items b)); cbn [fst negb]; [exact HI|].
  unfold Inv in *. cbn [items cap]. rewrite lastn_snoc, HI by exact Hc. reflexivity.
Qed.

Lemma run_spec :
  forall xs b acc,
    1 <= cap b -> Inv b acc ->
    Inv (fst (run b xs)) (fst (spec_run (cap b) acc xs)) /\
    snd (run b xs) = snd (spec_run (cap b) acc xs) /\
    cap (fst (run b xs)) = cap b.
Proof.
  induction xs as [|x xs IH]; intros b acc Hc HI; cbn [run spec_run]; [auto|].
  destruct (insert_inv b acc x Hc HI) as [Hs Hi]. pose proof (insert_cap b x) as Hcap.
  destruct (insert b x) as [b1 ok]. cbn [fst snd] in Hs, Hi, Hcap. subst ok.
  rewrite <- Hcap in Hc.
  destruct (memN x (lastn (cap b) acc)); cbn [negb] in Hi; specialize (IH b1 _ Hc Hi); rewrite Hcap in IH;
    destruct (run b1 xs) as [b2 oks]; destruct (spec_run (cap b) _ xs) as [a soks];
    cbn [fst snd] in *; destruct IH as (I1 & I2 & I3); rewrite I2; auto.
Qed.

Theorem content_is_lastn (c : nat) (xs : list N) :
  1 <= c ->
  items (fst (run (new c) xs)) = lastn c (fst (spec_run c [] xs)) /\
  snd (run (new c) xs) = snd (spec_run c [] xs).
Proof.
  intros Hc.
  destruct (run_spec xs (new c) [] Hc eq_refl) as (I1 & I2 & I3).
  unfold Inv in I1. rewrite I3 in I1. split; assumption.
Qed.

Theorem never_exceeds_capacity (c : nat) (xs : list N) :
  1 <= c -> length (items (fst (run (new c) xs))) <= c.
Proof.
  intros Hc. destruct (content_is_lastn c xs Hc) as [H _]. rewrite H, lastn_length. lia.
Qed.

Lemma run_nodup : forall xs b, NoDup (items b) -> NoDup (items (fst (run b xs))).
Proof.
  induction xs as [|x xs IH]; intros b Hb; cbn [run fst]; [exact Hb|].
  pose proof (insert_nodup b x Hb) as H1.
  destruct (insert b x) as [b1 ok]. specialize (IH b1 H1). destruct (run b1 xs) as [b2 oks]. exact IH.
Qed.

Theorem buffer_nodup (c : nat) (xs : list N) : NoDup (items (fst (run (new c) xs))).
Proof. apply run_nodup. constructor. Qed.

(** Non-vacuity: a concrete run with eviction and a late re-acceptance of an evicted item. *)
Example dedup_example :
  run (new 2) [1; 2; 1; 3; 1]%N = ({| items := [3; 1]%N; cap := 2 |}, [true; true; false; true; true]).
Proof. reflexivity. Qed.
