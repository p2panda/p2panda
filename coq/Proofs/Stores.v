(** C09: the row-level model of the operation, topic and cursor tables refines the abstract
    collections step by step, with equal outputs. *)
From Coq Require Import List NArith Bool.
From PV Require Import Model.Stores.
Import ListNotations.
Local Open Scope N_scope.

Section Keyed.
  Context {A : Type} (key : A -> N).

  Definition lookup (l : list A) (k : N) : option A := find (fun r => key r =? k) l.

  Lemma existsb_lookup l k : existsb (fun r => key r =? k) l = is_some (lookup l k).
  Proof.
    unfold lookup. induction l as [|x t IH]; cbn [existsb find]; auto.
    destruct (key x =? k); auto.
  Qed.

  Lemma lookup_key l k r : lookup l k = Some r -> key r = k.
  Proof. unfold lookup. intros H. apply find_some in H. destruct H as [_ H]. now apply N.eqb_eq. Qed.

  Lemma lookup_snoc l x k :
    lookup (l ++ [x]) k = match lookup l k with Some y => Some y | None => if key x =? k then Some x else None end.
  Proof.
    unfold lookup. induction l as [|y t IH]; cbn [app find]; auto. destruct (key y =? k); auto.
  Qed.

  Lemma lookup_delete l id k :
    lookup (filter (fun r => negb (key r =? id)) l) k = if k =? id then None else lookup l k.
  Proof.
    unfold lookup. induction l as [|y t IH]; cbn [filter find].
    - destruct (k =? id); auto.
    - destruct (key y =? id) eqn:E; cbn [negb find].
      + rewrite IH. destruct (k =? id) eqn:F; auto. destruct (key y =? k) eqn:G; auto.
        apply N.eqb_eq in E, G. apply N.eqb_neq in F. congruence.
      + destruct (key y =? k) eqn:G; auto. destruct (k =? id) eqn:F; auto.
        apply N.eqb_eq in F, G. apply N.eqb_neq in E. congruence.
  Qed.

  Lemma lookup_map (g : A -> A) l k :
    (forall r, key (g r) = key r) -> lookup (map g l) k = option_map g (lookup l k).
  Proof.
    intros Hg. unfold lookup. induction l as [|y t IH]; cbn [map find option_map]; auto.
    rewrite Hg. destruct (key y =? k); auto.
  Qed.

  (** The three writes of the SQL (INSERT of an absent key, DELETE by key, UPDATE by key), seen
      through [lookup] and a projection [f] of the rows, are updates of the partial map [m] that
      the table stands for. *)
  Lemma insert_upd {B} (f : A -> B) l m x :
    (forall k, option_map f (lookup l k) = m k) -> m (key x) = None ->
    forall k, option_map f (lookup (l ++ [x]) k) = upd m (key x) (Some (f x)) k.
  Proof.
    intros Hm Hn k. rewrite lookup_snoc. unfold upd. rewrite <- Hm, (N.eqb_sym k). destruct (key x =? k) eqn:E.
    - apply N.eqb_eq in E. subst k. rewrite <- Hm in Hn. destruct (lookup l (key x)); [discriminate|reflexivity].
    - destruct (lookup l k); reflexivity.
  Qed.

  Lemma delete_upd {B} (f : A -> B) l m id :
    (forall k, option_map f (lookup l k) = m k) ->
    forall k, option_map f (lookup (filter (fun r => negb (key r =? id)) l) k) = upd m id None k.
  Proof. intros Hm k. rewrite lookup_delete. unfold upd. rewrite <- Hm. destruct (k =? id); reflexivity. Qed.

  Lemma update_upd {B} (f : A -> B) (g : A -> A) (h : B -> B) l m id :
    (forall k, option_map f (lookup l k) = m k) ->
    (forall r, key r = id -> key (g r) = id) -> (forall r, f (g r) = h (f r)) ->
    forall k, option_map f (lookup (map (fun r => if key r =? id then g r else r) l) k) =
              upd m id (option_map h (m id)) k.
  Proof.
    intros Hm Hk Hf k. rewrite lookup_map.
    2:{ intros r. destruct (key r =? id) eqn:E; [|reflexivity]. apply N.eqb_eq in E. rewrite (Hk r E). now symmetry. }
    unfold upd. rewrite <- !Hm. destruct (k =? id) eqn:E.
    - apply N.eqb_eq in E. subst k. destruct (lookup l id) as [r|] eqn:L; [|reflexivity].
      apply lookup_key in L. cbn [option_map]. now rewrite L, N.eqb_refl, Hf.
    - destruct (lookup l k) as [r|] eqn:L; [|reflexivity].
      apply lookup_key in L. cbn [option_map]. now rewrite L, E.
  Qed.
End Keyed.

Lemma eqb3_eq x y : eqb3 x y = true <-> x = y.
Proof.
  destruct x as [[a b] c], y as [[a' b'] c']. unfold eqb3. cbn [fst snd]. split; intros H.
  - apply andb_true_iff in H as [H Hc]. apply andb_true_iff in H as [Ha Hb].
    apply N.eqb_eq in Ha, Hb, Hc. now subst.
  - inversion H. now rewrite !N.eqb_refl.
Qed.

Lemma eqb3_sym x y : eqb3 x y = eqb3 y x.
Proof. unfold eqb3. now rewrite (N.eqb_sym (fst (fst x))), (N.eqb_sym (snd (fst x))), (N.eqb_sym (snd x)). Qed.

Lemma eqb3_refl x : eqb3 x x = true.
Proof. now apply eqb3_eq. Qed.

Lemma has_triple_in rows x : has_triple rows x = true <-> In x rows.
Proof.
  unfold has_triple. rewrite existsb_exists. split.
  - intros [y [H1 H2]]. apply eqb3_eq in H2. now subst.
  - intros H. exists x. split; auto. apply eqb3_refl.
Qed.

Lemma has_triple_snoc rows x y : has_triple (rows ++ [x]) y = eqb3 x y || has_triple rows y.
Proof.
  unfold has_triple. rewrite existsb_app. cbn [existsb]. rewrite orb_false_r, (eqb3_sym y x). apply orb_comm.
Qed.

Lemma has_triple_remove rows x y :
  has_triple (filter (fun z => negb (eqb3 x z)) rows) y = negb (eqb3 x y) && has_triple rows y.
Proof.
  unfold has_triple. induction rows as [|z t IH]; cbn [filter existsb].
  - now rewrite andb_false_r.
  - destruct (eqb3 x z) eqn:E; cbn [negb existsb].
    + rewrite IH. apply eqb3_eq in E. subst z. destruct (eqb3 y x) eqn:F.
      * rewrite (eqb3_sym x y), F. reflexivity.
      * reflexivity.
    + rewrite IH. destruct (eqb3 y z) eqn:F; cbn [orb]; auto.
      apply eqb3_eq in F. subst z. rewrite E. reflexivity.
  Qed.

Definition spec_eq (m m' : spec) : Prop :=
  (forall k, s_ops m k = s_ops m' k) /\ (forall x, s_topics m x = s_topics m' x) /\
  (forall n, s_cursors m n = s_cursors m' n).

Lemma spec_eq_refl m : spec_eq m m.
Proof. repeat split. Qed.

Lemma spec_eq_sym m m' : spec_eq m m' -> spec_eq m' m.
Proof. intros [H1 [H2 H3]]. repeat split; intros; symmetry; auto. Qed.

Definition out_ok (o : out) (so : sout) : Prop :=
  match o, so with
  | OB b, SB b' => b = b'
  | OOp x, SOp y => x = y
  | OPairs l, SSet p => NoDup l /\ forall q, In q l <-> p q = true
  | OCur x, SCur y => x = y
  | OUnit, SUnit => True
  | _, _ => False
  end.

(** The UNIQUE constraint, as an invariant of the topic table. *)
Definition inv (i : impl) : Prop := NoDup (i_topics i).

Definition opval_of (r : oprow) : opval := (op_hdr r, op_body r, op_log r).

Lemma abs_ops i id : s_ops (abs i) id = option_map opval_of (lookup op_id (i_ops i) id).
Proof. reflexivity. Qed.

Lemma abs_cursors i n : s_cursors (abs i) n = option_map snd (lookup fst (i_cursors i) n).
Proof. reflexivity. Qed.

Lemma find_op_lookup rows id : find_op rows id = lookup op_id rows id.
Proof. reflexivity. Qed.

Lemma find_fst_lookup (rows : list (N * N)) n : find (fun r => fst r =? n) rows = lookup fst rows n.
Proof. reflexivity. Qed.

Lemma has_op_abs i id : has_op (i_ops i) id = is_some (s_ops (abs i) id).
Proof.
  rewrite abs_ops. unfold has_op. rewrite existsb_lookup. destruct (lookup op_id (i_ops i) id); reflexivity.
Qed.

Lemma get_abs i id :
  option_map (fun r => (op_id r, op_hdr r, op_body r)) (find_op (i_ops i) id) =
  option_map (fun v : opval => (id, fst (fst v), snd (fst v))) (s_ops (abs i) id).
Proof.
  rewrite abs_ops, find_op_lookup. destruct (lookup op_id (i_ops i) id) as [r|] eqn:E; [|reflexivity].
  apply lookup_key in E. cbn [option_map]. now rewrite E.
Qed.

Lemma resolve_nodup rows t :
  NoDup rows -> NoDup (map (fun x : triple => (snd (fst x), snd x)) (filter (fun x => fst (fst x) =? t) rows)).
Proof.
  induction rows as [|[[t' a] l] r IH]; cbn [filter map]; intros H; [constructor|].
  inversion H as [|? ? Hn Hr]; subst. cbn [fst snd]. destruct (t' =? t) eqn:E; auto.
  cbn [map fst snd]. constructor; auto. intros Hin. apply Hn. apply in_map_iff in Hin.
  destruct Hin as [[[t2 a2] l2] [H1 H2]]. apply filter_In in H2. cbn [fst snd] in *.
  destruct H2 as [H2 H3]. apply N.eqb_eq in E, H3. inversion H1. subst. auto.
Qed.

Lemma resolve_in rows t q :
  In q (map (fun x : triple => (snd (fst x), snd x)) (filter (fun x => fst (fst x) =? t) rows)) <->
  has_triple rows (t, fst q, snd q) = true.
Proof.
  rewrite has_triple_in, in_map_iff. split.
  - intros [[[t2 a2] l2] [H1 H2]]. apply filter_In in H2. cbn [fst snd] in *. destruct H2 as [H2 H3].
    apply N.eqb_eq in H3. subst. cbn [fst snd]. auto.
  - intros H. exists (t, fst q, snd q). cbn [fst snd]. split; [now destruct q|].
    apply filter_In. cbn [fst]. split; auto. apply N.eqb_refl.
Qed.

Lemma spec_eq_ops i m rows f :
  spec_eq (abs i) m -> (forall k, s_ops (abs (set_ops i rows)) k = f k) ->
  spec_eq (abs (set_ops i rows)) (mkspec f (s_topics m) (s_cursors m)).
Proof. intros (_ & H2 & H3) Hf. repeat split; assumption. Qed.

Lemma spec_eq_topics i m rows f :
  spec_eq (abs i) m -> (forall x, has_triple rows x = f x) ->
  spec_eq (abs (set_topics i rows)) (mkspec (s_ops m) f (s_cursors m)).
Proof. intros (H1 & _ & H3) Hf. repeat split; assumption. Qed.

Lemma spec_eq_cursors i m rows f :
  spec_eq (abs i) m -> (forall n, s_cursors (abs (set_cursors i rows)) n = f n) ->
  spec_eq (abs (set_cursors i rows)) (mkspec (s_ops m) (s_topics m) f).
Proof. intros (H1 & H2 & _) Hf. repeat split; assumption. Qed.

(** The three parts of [step_simulates] hold each for its own reason: the next states correspond
    without any invariant; only the answer of [TResolve] needs the UNIQUE constraint; the
    constraint is kept by the topic table alone. *)
Lemma step_abs i m c :
  spec_eq (abs i) m -> cmd_signed c = true -> spec_eq (abs (fst (step_impl i c))) (fst (step_spec m c)).
Proof.
  intros He Hs. pose proof He as (H1 & H2 & H3).
  destruct c; cbn [step_impl step_spec cmd_signed] in *; try exact He.
  - (* OpInsert *) subst signed. cbn [negb]. rewrite has_op_abs, H1.
    destruct (s_ops m id) eqn:E; cbn [is_some fst]; [exact He|].
    apply spec_eq_ops; [exact He|]. exact (insert_upd op_id opval_of _ _ (mkoprow id hdr body log) H1 E).
  - (* OpDelete *) apply spec_eq_ops; [exact He|]. exact (delete_upd op_id opval_of _ _ id H1).
  - (* OpDeletePayload *) apply spec_eq_ops; [exact He|].
    exact (update_upd op_id opval_of (fun r => mkoprow (op_id r) (op_hdr r) None (op_log r))
             (fun v => (fst (fst v), None, snd v)) _ _ id H1 (fun _ E => E) (fun _ => eq_refl)).
  - (* TAssociate *) destruct (has_triple (i_topics i) (t, a, l)) eqn:E; cbn [fst].
    + split; [exact H1|split; [|exact H3]]. intros x. cbn [s_topics]. rewrite <- H2.
      destruct (eqb3 (t, a, l) x) eqn:F; [|reflexivity]. apply eqb3_eq in F. subst x. exact E.
    + apply spec_eq_topics; [exact He|]. intros x. rewrite <- H2. apply has_triple_snoc.
  - (* TRemove *) apply spec_eq_topics; [exact He|]. intros x. rewrite <- H2. apply has_triple_remove.
  - (* CSet *) pose proof (H3 name) as Hn. rewrite abs_cursors in Hn.
    unfold has_name. rewrite existsb_lookup.
    destruct (lookup fst (i_cursors i) name) as [r|]; cbn [is_some fst]; (apply spec_eq_cursors; [exact He|]).
    + intros k. pose proof (update_upd fst snd (fun _ => (name, v)) (fun _ => v) _ _ name H3
                              (fun _ _ => eq_refl) (fun _ => eq_refl) k) as U.
      rewrite <- Hn in U. exact U.
    + exact (insert_upd fst snd _ _ (name, v) H3 (eq_sym Hn)).
  - (* CDelete *) apply spec_eq_cursors; [exact He|]. exact (delete_upd fst snd _ _ name H3).
Qed.

Lemma step_out i m c :
  inv i -> spec_eq (abs i) m -> cmd_signed c = true -> out_ok (snd (step_impl i c)) (snd (step_spec m c)).
Proof.
  intros Hinv (H1 & H2 & H3) Hs. destruct c; cbn [step_impl step_spec cmd_signed snd out_ok] in *.
  - (* OpInsert *) subst signed. cbn [negb]. rewrite has_op_abs, H1. destruct (s_ops m id); reflexivity.
  - (* OpGet *) rewrite <- H1. f_equal. apply get_abs.
  - (* OpHas *) rewrite <- H1. apply has_op_abs.
  - (* OpDelete *) rewrite <- H1. apply has_op_abs.
  - (* OpDeletePayload *) rewrite <- H1. apply has_op_abs.
  - (* TAssociate *) rewrite <- H2. change (s_topics (abs i) (t, a, l)) with (has_triple (i_topics i) (t, a, l)).
    destruct (has_triple (i_topics i) (t, a, l)); reflexivity.
  - (* TRemove *) apply H2.
  - (* TResolve *) split; [apply resolve_nodup, Hinv|]. intros q. rewrite <- H2. apply resolve_in.
  - (* CSet *) destruct (has_name (i_cursors i) name); exact I.
  - (* CGet *) f_equal. apply H3.
  - (* CDelete *) exact I.
Qed.

Lemma step_inv i c : inv i -> inv (fst (step_impl i c)).
Proof.
  unfold inv. intros Hinv. destruct c; cbn [step_impl]; try exact Hinv.
  - (* OpInsert *) destruct (negb signed); [exact Hinv|]. destruct (has_op (i_ops i) id); exact Hinv.
  - (* TAssociate *) destruct (has_triple (i_topics i) (t, a, l)) eqn:E; [exact Hinv|]. cbn [fst set_topics i_topics].
    apply (NoDup_Add (Add_app (t, a, l) (i_topics i) [])). rewrite app_nil_r. split; [exact Hinv|].
    rewrite <- has_triple_in, E. discriminate.
  - (* TRemove *) now apply NoDup_filter.
  - (* CSet *) destruct (has_name (i_cursors i) name); exact Hinv.
Qed.

Theorem step_simulates i m c :
  inv i -> spec_eq (abs i) m -> cmd_signed c = true ->
  spec_eq (abs (fst (step_impl i c))) (fst (step_spec m c)) /\
  out_ok (snd (step_impl i c)) (snd (step_spec m c)) /\
  inv (fst (step_impl i c)).
Proof. intros Hinv He Hs. split; [apply step_abs|split; [apply step_out|apply step_inv]]; assumption. Qed.

Theorem step_refines : forall (i : impl) (c : cmd),
  inv i -> cmd_signed c = true ->
  spec_eq (abs (fst (step_impl i c))) (fst (step_spec (abs i) c)) /\
  out_ok (snd (step_impl i c)) (snd (step_spec (abs i) c)) /\
  inv (fst (step_impl i c)).
Proof. intros i c Hinv Hs. apply step_simulates; [exact Hinv|apply spec_eq_refl|exact Hs]. Qed.

Example step_refines_ex :
  let i := mkimpl [mkoprow 1 1 (Some 1) 0] [(0, 1, 2)] [(3, 9)] in
  inv i /\ snd (step_impl i (OpInsert 1 1 None 2 true)) = OB false /\
  snd (step_impl i (OpInsert 2 2 None 2 true)) = OB true /\ snd (step_impl i (TResolve 0)) = OPairs [(1, 2)].
Proof. repeat split; try reflexivity. repeat constructor; intros []. Qed.

(** An unsigned header: NOT NULL is violated, OR IGNORE swallows it, nothing is stored. *)
Lemma unsigned_insert_reports_false : forall i id hdr body log,
  step_impl i (OpInsert id hdr body log false) = (i, OB false).
Proof. reflexivity. Qed.

Theorem run_refines_from : forall (cs : list cmd) (i : impl) (m : spec),
  inv i -> spec_eq (abs i) m -> forallb cmd_signed cs = true ->
  Forall2 out_ok (snd (run_impl i cs)) (snd (run_spec m cs)) /\
  spec_eq (abs (fst (run_impl i cs))) (fst (run_spec m cs)) /\ inv (fst (run_impl i cs)).
Proof.
  induction cs as [|c r IH]; intros i m Hinv Heq Hs; cbn [run_impl run_spec].
  - cbn [fst snd]. auto.
  - cbn [forallb] in Hs. apply andb_true_iff in Hs. destruct Hs as [Hc Hr].
    destruct (step_simulates i m c Hinv Heq Hc) as (R1 & R2 & R3).
    destruct (step_impl i c) as [i1 o]. destruct (step_spec m c) as [m1 so]. cbn [fst snd] in *.
    specialize (IH i1 m1 R3 R1 Hr).
    destruct (run_impl i1 r) as [i2 os]. destruct (run_spec m1 r) as [m2 sos]. cbn [fst snd] in *.
    destruct IH as (I1 & I2 & I3). auto.
Qed.

Theorem run_refines : forall cs : list cmd,
  forallb cmd_signed cs = true ->
  Forall2 out_ok (snd (run_impl empty cs)) (snd (run_spec spec_empty cs)).
Proof.
  intros cs H. apply run_refines_from; auto.
  - constructor.
  - repeat split.
Qed.

Example run_refines_ex :
  let cs := [OpInsert 1 1 (Some 1) 0 true; OpInsert 1 1 (Some 1) 2 true; OpDeletePayload 1; OpGet 1;
             TAssociate 0 1 2; TAssociate 0 1 2; TResolve 0; CSet 3 9; CSet 3 10; CGet 3] in
  forallb cmd_signed cs = true /\
  snd (run_impl empty cs) = [OB true; OB false; OB true; OOp (Some (1, 1, None)); OB true; OB false;
                             OPairs [(1, 2)]; OUnit; OUnit; OCur (Some 10)].
Proof. split; reflexivity. Qed.

(** After an insert that reported [true]: the same id is reported [false] from then on (until
    deleted), and reading it back returns the same id, header and body. *)
Theorem insert_once_and_read_back : forall i id hdr body log i',
  step_impl i (OpInsert id hdr body log true) = (i', OB true) ->
  (forall hdr' body' log' s', snd (step_impl i' (OpInsert id hdr' body' log' s')) = OB false) /\
  snd (step_impl i' (OpGet id)) = OOp (Some (id, hdr, body)) /\
  snd (step_impl i' (OpHas id)) = OB true /\
  snd (step_impl i (OpHas id)) = OB false.
Proof.
  intros i id hdr body log i' H.
  assert (E : s_ops (abs i) id = None).
  { cbn [step_impl negb] in H. rewrite has_op_abs in H. destruct (s_ops (abs i) id); [discriminate|reflexivity]. }
  assert (E' : s_ops (abs i') id = Some (hdr, body, log)).
  { destruct (step_abs i (abs i) (OpInsert id hdr body log true) (spec_eq_refl _) eq_refl) as (H1 & _).
    rewrite H in H1. cbn [fst step_spec] in H1. rewrite H1, E. cbn [fst s_ops]. unfold upd. now rewrite N.eqb_refl. }
  cbn [step_impl snd]. rewrite get_abs, !has_op_abs, E, E'. repeat split.
  intros hdr' body' log' s'. now destruct (negb s').
Qed.

(** A cursor read returns the last cursor written under that name. *)
Theorem cursor_last_writer_wins : forall i n v,
  snd (step_impl (fst (step_impl i (CSet n v))) (CGet n)) = OCur (Some v) /\
  (forall n', n' <> n ->
     snd (step_impl (fst (step_impl i (CSet n v))) (CGet n')) = snd (step_impl i (CGet n'))) /\
  snd (step_impl (fst (step_impl i (CDelete n))) (CGet n)) = OCur None.
Proof.
  intros i n v.
  assert (G : forall j k, snd (step_impl j (CGet k)) = OCur (s_cursors (abs j) k)) by reflexivity.
  assert (T : forall c k, cmd_signed c = true ->
            s_cursors (abs (fst (step_impl i c))) k = s_cursors (fst (step_spec (abs i) c)) k).
  { intros c k Hc. apply (step_abs i (abs i) c (spec_eq_refl _) Hc). }
  rewrite !G, !T by reflexivity. cbn [step_spec fst s_cursors]. unfold upd. rewrite N.eqb_refl.
  split; [reflexivity|split; [|reflexivity]].
  intros n' Hn. rewrite G, T by reflexivity. cbn [step_spec fst s_cursors]. unfold upd.
  apply N.eqb_neq in Hn. now rewrite Hn.
Qed.
