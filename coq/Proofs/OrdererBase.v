(** What each of the six store operations of the orderer model does, in terms of membership in the
    two tables; [ready] read as a set test; how a drain empties the queue. *)
From Coq Require Import List Arith NArith Bool Lia Permutation.
From PV Require Import Lib.ListFacts Model.Orderer.
Import ListNotations.

Lemma memN_In x l : memN x l = true <-> In x l.
Proof.
  unfold memN. rewrite existsb_exists. split.
  - intros [y [Hy E]]. apply N.eqb_eq in E. subst. exact Hy.
  - intros H. exists x. split; [exact H | apply N.eqb_refl].
Qed.

Lemma memN_false x l : memN x l = false <-> ~ In x l.
Proof. rewrite <- memN_In, not_true_iff_false. reflexivity. Qed.

Lemma nodupN_In x l : In x (nodupN l) <-> In x l.
Proof.
  induction l as [|a l IH]; [reflexivity|].
  cbn [nodupN]. destruct (memN a l) eqn:E; cbn [In]; rewrite IH; [|reflexivity].
  apply memN_In in E. split; [auto|]. intros [H|H]; [subst; exact E | exact H].
Qed.

Lemma nodupN_NoDup l : NoDup (nodupN l).
Proof.
  induction l as [|a l IH]; [constructor|].
  cbn [nodupN]. destruct (memN a l) eqn:E; [exact IH|].
  constructor; [|exact IH]. rewrite nodupN_In. apply memN_false. exact E.
Qed.

Lemma nodupN_id l : NoDup l -> nodupN l = l.
Proof.
  induction 1 as [|a l Ha _ IH]; [reflexivity|].
  cbn [nodupN]. apply memN_false in Ha. rewrite Ha, IH. reflexivity.
Qed.

Lemma insert_sorted_In x y l : In x (insert_sorted y l) <-> x = y \/ In x l.
Proof.
  induction l as [|a l IH]; cbn [insert_sorted In].
  - split; intros [H|[]]; auto.
  - destruct (N.leb y a); cbn [In]; [|rewrite IH]; split; intros [H|[H|H]]; auto.
Qed.

Lemma sortN_In x l : In x (sortN l) <-> In x l.
Proof.
  induction l as [|a l IH]; [reflexivity|].
  cbn [sortN fold_right]. rewrite insert_sorted_In. fold (sortN l). rewrite IH.
  cbn [In]. split; intros [H|H]; auto.
Qed.

Lemma listN_eqb_eq a b : listN_eqb a b = true <-> a = b.
Proof.
  revert b; induction a as [|x a IH]; intros [|y b]; cbn [listN_eqb]; try (split; [discriminate|congruence]).
  - split; reflexivity.
  - rewrite andb_true_iff, N.eqb_eq, IH. split; [intros [-> ->]; reflexivity | intros [= -> ->]; auto].
Qed.

Lemma pair_eqb_eq {A B} (ea : A -> A -> bool) (eb : B -> B -> bool) :
  (forall a a', ea a a' = true <-> a = a') -> (forall b b', eb b b' = true <-> b = b') ->
  forall p q : A * B, ea (fst p) (fst q) && eb (snd p) (snd q) = true <-> p = q.
Proof.
  intros Ha Hb [a b] [a' b']. cbn [fst snd]. rewrite andb_true_iff, Ha, Hb.
  split; [intros [-> ->]; reflexivity | intros [= -> ->]; auto].
Qed.

Lemma dig_eqb_eq (a b : digest) : dig_eqb a b = true <-> a = b.
Proof. exact (pair_eqb_eq _ _ N.eqb_eq listN_eqb_eq a b). Qed.

Lemma cd_eqb_eq (a b : id * digest) : cd_eqb a b = true <-> a = b.
Proof. exact (pair_eqb_eq _ _ N.eqb_eq dig_eqb_eq a b). Qed.

Lemma prow_eqb_eq a b : prow_eqb a b = true -> a = b.
Proof.
  destruct a as [a1 a2 a3 a4], b as [b1 b2 b3 b4]. unfold prow_eqb. cbn [p_id p_child p_parent p_dig].
  intros H. apply andb_prop in H. destruct H as [H H4]. apply andb_prop in H. destruct H as [H H3].
  apply andb_prop in H. destruct H as [H1 H2]. apply N.eqb_eq in H1, H2, H3. apply dig_eqb_eq in H4.
  congruence.
Qed.

Lemma nodup_by_In {A} (eqb : A -> A -> bool) (Heq : forall a b, eqb a b = true <-> a = b) x l :
  In x (nodup_by eqb l) <-> In x l.
Proof.
  induction l as [|a l IH]; [reflexivity|].
  cbn [nodup_by]. destruct (existsb (eqb a) l) eqn:E; cbn [In]; rewrite IH; [|reflexivity].
  apply existsb_exists in E. destruct E as [y [Hy E]]. apply Heq in E. subst y.
  split; [auto|]. intros [H|H]; [subst; exact Hy | exact H].
Qed.

Lemma fold_left_In {A B} (g : list A -> B -> list A) (Q : B -> A -> Prop)
      (Hg : forall t b x, In x (g t b) <-> In x t \/ Q b x) :
  forall l t x, In x (fold_left g l t) <-> In x t \/ exists b, In b l /\ Q b x.
Proof.
  induction l as [|b l IH]; intros t x; cbn [fold_left].
  - split; [auto|]. intros [H|[b [[] _]]]. exact H.
  - rewrite IH, Hg. split.
    + intros [[H|H]|[b' [Hb HQ]]]; [auto | right; exists b | right; exists b']; cbn [In]; auto.
    + intros [H|[b' [[Hb|Hb] HQ]]]; [auto | subst; auto | right; exists b'; auto].
Qed.

Lemma fold_left_inv {A B} (P : A -> Prop) (g : A -> B -> A) l :
  (forall a b, In b l -> P a -> P (g a b)) -> forall a, P a -> P (fold_left g l a).
Proof.
  induction l as [|b l IH]; intros H a Ha; [exact Ha|]. cbn [fold_left].
  apply IH; [intros a' b' Hb'; apply H; right; exact Hb' | apply H; [left; reflexivity | exact Ha]].
Qed.

Lemma filter_length_le {A} (p : A -> bool) l : length (filter p l) <= length l.
Proof. induction l as [|a l IH]; [constructor|]. cbn [filter]. destruct (p a); cbn [length]; lia. Qed.

Definition ids (s : store) : list id := map r_id (ready_tbl s).
Definition PK (s : store) : Prop := NoDup (ids s).

Lemma is_ready_row s x : is_ready s x = true <-> exists r, In r (ready_tbl s) /\ r_id r = x.
Proof.
  unfold is_ready. rewrite existsb_exists.
  split; intros [r [Hr E]]; exists r; (split; [exact Hr | apply N.eqb_eq; exact E]).
Qed.

Lemma is_ready_In s x : is_ready s x = true <-> In x (ids s).
Proof.
  rewrite is_ready_row. unfold ids. rewrite in_map_iff. split; intros [r [A B]]; exists r; auto.
Qed.

(** The rows counted by [count_in s U] carry distinct ids, all in [U]; with [U] duplicate-free
    their number is [length U] exactly when every member of [U] has a row. *)
Lemma ready_spec s ds : PK s -> (ready s ds = true <-> forall d, In d ds -> is_ready s d = true).
Proof.
  intros Hpk. unfold ready, count_in. rewrite Nat.eqb_eq.
  set (U := nodupN ds). set (F := filter (fun r => memN (r_id r) U) (ready_tbl s)).
  rewrite <- (map_length r_id F).
  assert (HF : NoDup (map r_id F)) by (apply NoDup_map_filter; exact Hpk).
  assert (HFU : incl (map r_id F) U).
  { intros u Hu. apply in_map_iff in Hu. destruct Hu as [r [<- Hr]]. apply filter_In in Hr.
    apply memN_In, Hr. }
  split.
  - intros E d Hd. apply is_ready_row.
    assert (HUF : incl U (map r_id F)) by (apply (NoDup_length_incl HF); [rewrite E; constructor | exact HFU]).
    apply nodupN_In, HUF, in_map_iff in Hd. destruct Hd as [r [E' Hr]]. apply filter_In in Hr. exists r. tauto.
  - intros H. apply Nat.le_antisymm; [exact (NoDup_incl_length HF HFU)|].
    apply (NoDup_incl_length (nodupN_NoDup ds)). intros d Hd.
    destruct (proj1 (is_ready_row s d) (H d (proj1 (nodupN_In d ds) Hd))) as [r [Hr <-]].
    apply in_map, filter_In. split; [exact Hr | apply memN_In; exact Hd].
Qed.

Lemma ready_false s ds : PK s -> ready s ds = false -> exists d, In d ds /\ is_ready s d = false.
Proof.
  intros Hpk H.
  destruct (Forall_Exists_dec (fun d => is_ready s d = true) (fun d => bool_dec _ true) ds) as [F|E].
  - rewrite Forall_forall in F. apply (ready_spec s ds Hpk) in F. congruence.
  - apply Exists_exists in E. destruct E as [d [Hd Hn]]. exists d. split; [exact Hd|].
    apply not_true_is_false, Hn.
Qed.

Lemma ready_set s ds ds' : (forall d, In d ds <-> In d ds') -> ready s ds = ready s ds'.
Proof.
  intros Hs. unfold ready, count_in.
  assert (E : length (nodupN ds) = length (nodupN ds')).
  { apply Nat.le_antisymm; apply NoDup_incl_length; try apply nodupN_NoDup;
      intros d Hd; rewrite nodupN_In in *; apply Hs; exact Hd. }
  rewrite E. do 2 f_equal. apply filter_ext. intros r.
  apply eq_true_iff_eq. rewrite !memN_In, !nodupN_In. apply Hs.
Qed.

Lemma ready_nodup s ds : ready s ds = ready s (nodupN ds).
Proof. unfold ready. rewrite (nodupN_id (nodupN ds)) by apply nodupN_NoDup. reflexivity. Qed.

(** [ready_asis], the code before the fix (count against the length of the list), is *not* a set test *)
Lemma ready_asis_counterexample :
  exists s ds, PK s /\ (forall d, In d ds -> is_ready s d = true) /\ ready_asis s ds = false.
Proof.
  exists (mark_ready empty 0%N), [0%N; 0%N]. split; [|split].
  - vm_compute. repeat constructor. intros [].
  - intros d [H|[H|[]]]; subst; reflexivity.
  - reflexivity.
Qed.

Lemma insert_ignore_In t row x : In x (insert_ignore t row) <-> In x t \/ x = row.
Proof.
  unfold insert_ignore. destruct (existsb (prow_eqb row) t) eqn:E.
  - apply existsb_exists in E. destruct E as [y [Hy E]]. apply prow_eqb_eq in E. subst y.
    split; [auto|]. intros [H|H]; [exact H | subst; exact Hy].
  - rewrite in_app_iff. cbn [In]. split; intros [H|H]; auto. destruct H as [H|[]]; auto.
Qed.

Lemma mark_pending_In s c ps row :
  In row (pending_tbl (mark_pending s c ps)) <->
  In row (pending_tbl s) \/
  exists i p, In i ps /\ is_ready s i = false /\ In p ps /\ row = mkP i c p (c, sortN ps).
Proof.
  unfold mark_pending. cbn [pending_tbl set_pending].
  rewrite (fold_left_In _
             (fun i x => is_ready s i = false /\ exists p, In p (sortN ps) /\ x = mkP i c p (c, sortN ps))).
  - split; (intros [H|[i H]]; [left; exact H | right]).
    + destruct H as [Hi [Hr [p [Hp E]]]]. rewrite sortN_In in Hi, Hp. exists i, p. auto.
    + destruct H as [p [Hi [Hr [Hp E]]]]. rewrite <- sortN_In in Hi, Hp. exists i. eauto.
  - intros t i x. destruct (is_ready s i).
    + split; [auto|]. intros [H|[H _]]; [exact H | discriminate].
    + rewrite (fold_left_In _ (fun p x => x = mkP i c p (c, sortN ps)))
        by (intros; apply insert_ignore_In).
      split; (intros [H|H]; [left; exact H | right]); [auto | apply H].
Qed.

Lemma mark_pending_ready s c ps : ready_tbl (mark_pending s c ps) = ready_tbl s.
Proof. reflexivity. Qed.

Lemma remove_pending_In s k row :
  In row (pending_tbl (remove_pending s k)) <-> In row (pending_tbl s) /\ p_id row <> k.
Proof.
  unfold remove_pending. cbn [pending_tbl set_pending]. rewrite filter_In.
  rewrite negb_true_iff, N.eqb_neq. reflexivity.
Qed.

Lemma remove_pending_ready s k : ready_tbl (remove_pending s k) = ready_tbl s.
Proof. reflexivity. Qed.

Lemma gnp_None s k :
  get_next_pending s k = None -> forall row, In row (pending_tbl s) -> p_id row <> k.
Proof.
  unfold get_next_pending. intros H row Hrow Hk.
  assert (Hin : In row (filter (fun r => N.eqb (p_id r) k) (pending_tbl s))).
  { apply filter_In. split; [exact Hrow | apply N.eqb_eq; exact Hk]. }
  destruct (filter _ (pending_tbl s)); [exact Hin | discriminate].
Qed.

Lemma group_parents_In t c d p :
  In p (group_parents t c d) <-> exists row, In row t /\ p_child row = c /\ p_dig row = d /\ p_parent row = p.
Proof.
  unfold group_parents. rewrite sortN_In, in_map_iff. split.
  - intros [row [Ep Hrow]]. apply filter_In in Hrow. destruct Hrow as [Hrow Hc].
    apply andb_true_iff in Hc. destruct Hc as [Hc Hd]. apply N.eqb_eq in Hc. apply dig_eqb_eq in Hd.
    exists row. auto.
  - intros [row [Hrow [Hc [Hd Hp]]]]. exists row. split; [exact Hp|]. apply filter_In.
    split; [exact Hrow|]. apply andb_true_iff. split; [apply N.eqb_eq; exact Hc | apply dig_eqb_eq; exact Hd].
Qed.

Lemma gnp_Some_In s k es e :
  get_next_pending s k = Some es ->
  (In e es <-> exists row, In row (pending_tbl s) /\ p_id row = k /\
                           e = (p_child row, group_parents (pending_tbl s) (p_child row) (p_dig row))).
Proof.
  unfold get_next_pending.
  destruct (filter (fun r => N.eqb (p_id r) k) (pending_tbl s)) as [|r0 rows] eqn:E; [discriminate|].
  rewrite <- E. clear E r0 rows. intros [= <-]. split.
  - intros He. apply (nodup_by_In entry_eqb dig_eqb_eq), in_map_iff in He. destruct He as [cd [Ecd Hcd]].
    apply (nodup_by_In cd_eqb cd_eqb_eq), in_map_iff in Hcd.
    destruct Hcd as [row [<- Hrow]]. apply filter_In in Hrow. destruct Hrow as [Hrow Hk].
    apply N.eqb_eq in Hk. exists row. auto.
  - intros [row [Hrow [Hk Ee]]]. apply (nodup_by_In entry_eqb dig_eqb_eq), in_map_iff.
    exists (p_child row, p_dig row). split; [auto|].
    apply (nodup_by_In cd_eqb cd_eqb_eq), in_map_iff. exists row. split; [reflexivity|].
    apply filter_In. split; [exact Hrow | apply N.eqb_eq; exact Hk].
Qed.

Lemma find_row_Some (t : list rrow) x r :
  find (fun r => N.eqb (r_id r) x) t = Some r -> In r t /\ r_id r = x.
Proof. intros H. apply find_some in H. destruct H as [H E]. apply N.eqb_eq in E. auto. Qed.

Lemma max_idx_ge (t : list rrow) r : In r t -> (r_idx r <= max_idx t)%N.
Proof.
  induction t as [|a t IH]; [intros []|]. cbn [max_idx fold_right]. fold (max_idx t).
  intros [H|H]; [subst; lia|]. specialize (IH H). lia.
Qed.

Lemma ids_map (f : rrow -> rrow) s :
  (forall r, In r (ready_tbl s) -> r_id (f r) = r_id r) -> ids (set_ready s (map f (ready_tbl s))) = ids s.
Proof. intros H. unfold ids. cbn [ready_tbl set_ready]. rewrite map_map. apply map_ext_in, H. Qed.

Lemma mark_ready_frame s x : mark_ready s x = set_ready s (ready_tbl (mark_ready s x)).
Proof.
  unfold mark_ready. destruct (find _ _) as [r|]; [destruct (r_inq r)|]; try reflexivity.
  destruct s; reflexivity.
Qed.

Lemma mark_ready_pending s x : pending_tbl (mark_ready s x) = pending_tbl s.
Proof. rewrite mark_ready_frame. reflexivity. Qed.

Lemma mark_ready_oof s x : oof (mark_ready s x) = oof s.
Proof. rewrite mark_ready_frame. reflexivity. Qed.

Lemma mark_ready_ids_eq s x : ids (mark_ready s x) = if is_ready s x then ids s else ids s ++ [x].
Proof.
  unfold mark_ready. destruct (find _ (ready_tbl s)) as [r|] eqn:E.
  - apply find_row_Some in E. rewrite (proj2 (is_ready_row s x)) by eauto.
    destruct (r_inq r); [reflexivity|]. apply ids_map. intros a _.
    destruct (N.eqb (r_id a) x) eqn:Ea; [|reflexivity]. apply N.eqb_eq in Ea. auto.
  - assert (Hn : is_ready s x = false).
    { apply not_true_is_false. intros Hr. apply is_ready_row in Hr. destruct Hr as [r [Hr Ex]].
      apply (find_none _ _ E), N.eqb_neq in Hr. exact (Hr Ex). }
    rewrite Hn.
    unfold ids. cbn [ready_tbl set_ready]. apply map_app.
Qed.

Lemma mark_ready_is_ready s x y :
  is_ready (mark_ready s x) y = true <-> is_ready s y = true \/ y = x.
Proof.
  rewrite !is_ready_In, mark_ready_ids_eq. destruct (is_ready s x) eqn:E.
  - apply is_ready_In in E. split; [auto|]. intros [H|H]; [exact H | subst; exact E].
  - rewrite in_app_iff. cbn [In]. split; intros [H|H]; auto. destruct H as [H|[]]; auto.
Qed.

Lemma mark_ready_PK s x : PK s -> PK (mark_ready s x).
Proof.
  unfold PK. rewrite mark_ready_ids_eq. intros H. destruct (is_ready s x) eqn:E; [exact H|].
  apply (Permutation_NoDup (Permutation_cons_append _ _)). constructor; [|exact H].
  rewrite <- is_ready_In, E. discriminate.
Qed.

Lemma mark_ready_rows s x :
  let t := ready_tbl s in
  let t' := ready_tbl (mark_ready s x) in
  let rx := mkR x (max_idx t + 1) true in
  (forall r', In r' t' -> In r' t \/ r' = rx) /\
  (forall r, In r t -> In r t' \/
     (r_id r = x /\ In rx t' /\ exists r0, In r0 t /\ r_id r0 = x /\ r_inq r0 = false)).
Proof.
  unfold mark_ready. destruct (find _ (ready_tbl s)) as [r0|] eqn:E.
  - apply find_row_Some in E. destruct E as [Hr0 Ex]. destruct (r_inq r0) eqn:Eq; [auto|].
    cbn [ready_tbl set_ready]. split.
    + intros r' Hr'. apply in_map_iff in Hr'. destruct Hr' as [r [<- Hr]].
      destruct (N.eqb (r_id r) x); auto.
    + intros r Hr. destruct (N.eqb (r_id r) x) eqn:Er.
      * right. apply N.eqb_eq in Er. split; [exact Er|]. split; [|eauto].
        apply in_map_iff. exists r. rewrite (proj2 (N.eqb_eq _ _) Er). auto.
      * left. apply in_map_iff. exists r. rewrite Er. auto.
  - cbn [ready_tbl set_ready]. split.
    + intros r' Hr'. apply in_app_iff in Hr'. destruct Hr' as [Hr'|[Hr'|[]]]; auto.
    + intros r Hr. left. apply in_app_iff. auto.
Qed.

Lemma min_row_None t : min_row t = None -> forall r, In r t -> r_inq r = false.
Proof.
  induction t as [|a t IH]; intros H r Hr; [destruct Hr|].
  cbn [min_row] in H. destruct (r_inq a) eqn:Ea.
  - destruct (min_row t) as [m'|]; [destruct (N.leb _ _)|]; discriminate.
  - destruct Hr as [Hr|Hr]; [subst; exact Ea | exact (IH H r Hr)].
Qed.

Lemma min_row_spec t m :
  min_row t = Some m ->
  In m t /\ r_inq m = true /\ forall r, In r t -> r_inq r = true -> (r_idx m <= r_idx r)%N.
Proof.
  revert m. induction t as [|a t IH]; intros m H; [discriminate|].
  cbn [min_row] in H. destruct (r_inq a) eqn:Ea.
  - destruct (min_row t) as [m'|] eqn:Em.
    + destruct (IH m' eq_refl) as [Hin [Hq Hmin]].
      destruct (N.leb (r_idx a) (r_idx m')) eqn:El; injection H as <-.
      * apply N.leb_le in El. split; [left; reflexivity|]. split; [exact Ea|].
        intros r [<-|Hr] Hrq; [apply N.le_refl | exact (N.le_trans _ _ _ El (Hmin r Hr Hrq))].
      * apply N.leb_gt in El. split; [right; exact Hin|]. split; [exact Hq|].
        intros r [<-|Hr] Hrq; [apply N.lt_le_incl, El | exact (Hmin r Hr Hrq)].
    + injection H as <-. split; [left; reflexivity|]. split; [exact Ea|].
      intros r [<-|Hr] Hrq; [apply N.le_refl|]. rewrite (min_row_None t Em r Hr) in Hrq. discriminate.
  - destruct (IH m H) as [Hin [Hq Hmin]]. split; [right; exact Hin|]. split; [exact Hq|].
    intros r [<-|Hr] Hrq; [congruence | exact (Hmin r Hr Hrq)].
Qed.

(** the function [take_next_ready] maps over the table is [dequeue (r_id m)] for the row [m] found
    by [min_row], by computation *)
Definition dequeue (x : id) (r : rrow) : rrow :=
  if N.eqb (r_id r) x then mkR (r_id r) (r_idx r) false else r.

Lemma dequeue_id x r : r_id (dequeue x r) = r_id r.
Proof. unfold dequeue. destruct (N.eqb (r_id r) x); reflexivity. Qed.

Lemma dequeue_idx x r : r_idx (dequeue x r) = r_idx r.
Proof. unfold dequeue. destruct (N.eqb (r_id r) x); reflexivity. Qed.

Lemma dequeue_inq x r : r_inq (dequeue x r) = r_inq r && negb (N.eqb (r_id r) x).
Proof.
  unfold dequeue. destruct (N.eqb (r_id r) x); cbn [r_inq negb];
    [rewrite andb_false_r | rewrite andb_true_r]; reflexivity.
Qed.

Lemma take_None s s' :
  take_next_ready s = (s', None) -> s' = s /\ forall r, In r (ready_tbl s) -> r_inq r = false.
Proof.
  unfold take_next_ready. destruct (min_row (ready_tbl s)) eqn:Em; [discriminate|].
  intros [= <-]. split; [reflexivity | exact (min_row_None _ Em)].
Qed.

Lemma take_Some s s' x :
  take_next_ready s = (s', Some x) ->
  s' = set_ready s (map (dequeue x) (ready_tbl s)) /\
  exists m, In m (ready_tbl s) /\ r_id m = x /\ r_inq m = true /\
            forall r, In r (ready_tbl s) -> r_inq r = true -> (r_idx m <= r_idx r)%N.
Proof.
  unfold take_next_ready. destruct (min_row (ready_tbl s)) as [m|] eqn:Em; [|discriminate].
  intros [= <- <-]. split; [reflexivity|]. exists m. apply min_row_spec in Em. tauto.
Qed.

Lemma take_snd_Some s x :
  snd (take_next_ready s) = Some x -> take_next_ready s = (fst (take_next_ready s), Some x).
Proof. destruct (take_next_ready s) as [s' r]. cbn [fst snd]. intros ->. reflexivity. Qed.

Lemma take_out_of_queue s s' x r' :
  take_next_ready s = (s', Some x) -> In r' (ready_tbl s') -> r_inq r' = false ->
  r_id r' = x \/ exists r, In r (ready_tbl s) /\ r_id r = r_id r' /\ r_inq r = false.
Proof.
  intros E Hr' Hq. apply take_Some in E. destruct E as [-> _]. cbn [ready_tbl set_ready] in Hr'.
  apply in_map_iff in Hr'. destruct Hr' as [r [<- Hr]]. rewrite dequeue_id.
  rewrite dequeue_inq in Hq. apply andb_false_iff in Hq. destruct Hq as [Hq|Hq].
  - right. exists r. auto.
  - left. apply N.eqb_eq, negb_false_iff, Hq.
Qed.

Lemma take_ids s : ids (fst (take_next_ready s)) = ids s.
Proof.
  destruct (take_next_ready s) as [s' [x|]] eqn:E; cbn [fst].
  - apply take_Some in E. destruct E as [-> _]. apply ids_map. intros r _. apply dequeue_id.
  - apply take_None in E. destruct E as [-> _]. reflexivity.
Qed.

Lemma take_pending s : pending_tbl (fst (take_next_ready s)) = pending_tbl s.
Proof. unfold take_next_ready. destruct (min_row (ready_tbl s)); reflexivity. Qed.

Lemma take_oof s : oof (fst (take_next_ready s)) = oof s.
Proof. unfold take_next_ready. destruct (min_row (ready_tbl s)); reflexivity. Qed.

Lemma take_is_ready s x : is_ready (fst (take_next_ready s)) x = is_ready s x.
Proof. apply eq_true_iff_eq. rewrite !is_ready_In, take_ids. reflexivity. Qed.

Lemma dequeue_count x (t : list rrow) :
  length (filter r_inq (map (dequeue x) t)) + length (filter (fun r => r_inq r && N.eqb (r_id r) x) t)
  = length (filter r_inq t).
Proof.
  induction t as [|a t IH]; [reflexivity|]. cbn [map filter]. rewrite dequeue_inq.
  destruct (r_inq a), (N.eqb (r_id a) x); cbn [andb negb length]; rewrite <- IH; [|reflexivity ..].
  symmetry. apply plus_n_Sm.
Qed.

(** every successful take shortens the queue, so [n] takes empty a queue shorter than [n] *)
Lemma drain_empties : forall n s, length (filter r_inq (ready_tbl s)) < n ->
  forall r, In r (ready_tbl (fst (drain n s))) -> r_inq r = false.
Proof.
  induction n as [|n IH]; intros s Hn; [lia|]. cbn [drain].
  destruct (take_next_ready s) as [s' [x|]] eqn:Et.
  - apply take_Some in Et. destruct Et as [-> [m [Hm [Ex [Hq _]]]]].
    pose proof (dequeue_count x (ready_tbl s)) as Hc.
    set (F := filter (fun r => r_inq r && N.eqb (r_id r) x) (ready_tbl s)) in Hc.
    assert (Hin : In m F) by (apply filter_In; rewrite Hq, (proj2 (N.eqb_eq _ _) Ex); auto).
    specialize (IH (set_ready s (map (dequeue x) (ready_tbl s)))).
    destruct (drain n _) as [s'' l]. apply IH. cbn [ready_tbl set_ready].
    destruct F; [destruct Hin | cbn [length] in Hc; lia].
  - apply take_None in Et. destruct Et as [-> Hall]. exact Hall.
Qed.

(** hence the bound [S (length (ready_tbl s))] of the [Drain] operation *)
Lemma drain_all_empties s r :
  In r (ready_tbl (fst (drain (S (length (ready_tbl s))) s))) -> r_inq r = false.
Proof. apply drain_empties. apply le_n_S, filter_length_le. Qed.
