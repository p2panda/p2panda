(** Proofs about the wire-framing model (Model/Codec.v).

    Trusted assumptions (Section variables/hypotheses, become premises of the closed theorems):
    [M], [ser], [de] with [de_ser : forall m, de (ser m) = Some m] (postcard round trip on the
    exact payload slice). *)
From Coq Require Import List Arith NArith Lia.
From PV Require Import Model.Codec.
Import ListNotations.
Local Open Scope N_scope.

Lemma div_digit (b q r : N) : r < b -> (q * b + r) / b = q.
Proof. intros H. symmetry. apply (N.div_unique _ b q r H). rewrite N.mul_comm. reflexivity. Qed.

Lemma mod_digit (b q r : N) : r < b -> (q * b + r) mod b = r.
Proof. intros H. symmetry. apply (N.mod_unique _ b q r H). rewrite N.mul_comm. reflexivity. Qed.

Lemma digits_join (b n : N) : n / b * b + n mod b = n.
Proof. rewrite N.mul_comm. symmetry. apply N.div_mod'. Qed.

Lemma of_be32_be32 (n : N) :
  n <= u32_max ->
  of_be32 ((n / 256 / 256 / 256) mod 256) ((n / 256 / 256) mod 256) ((n / 256) mod 256) (n mod 256) = n.
Proof.
  intros H. unfold of_be32. rewrite (N.mod_small (n / 256 / 256 / 256)).
  - rewrite !digits_join. reflexivity.
  - (* the top digit is below 256 because n < 256^4 *)
    repeat apply N.div_lt_upper_bound; try discriminate.
    change (n < N.succ u32_max). apply N.lt_succ_r, H.
Qed.

Lemma be32_bytes (n : N) : Forall (fun b => b < 256) (be32 n).
Proof. unfold be32. repeat constructor; apply N.mod_lt; discriminate. Qed.

Lemma be32_length (n : N) : length (be32 n) = 4%nat.
Proof. reflexivity. Qed.

Lemma be32_of_be32 (b0 b1 b2 b3 : N) :
  b0 < 256 -> b1 < 256 -> b2 < 256 -> b3 < 256 ->
  of_be32 b0 b1 b2 b3 <= u32_max /\ be32 (of_be32 b0 b1 b2 b3) = [b0; b1; b2; b3].
Proof.
  intros L0 L1 L2 L3. unfold of_be32, be32, u32_max. split; [lia|].
  rewrite !div_digit, !mod_digit by assumption. rewrite (N.mod_small b0) by exact L0. reflexivity.
Qed.

Lemma blen_app (a b : bytes) : blen (a ++ b) = blen a + blen b.
Proof. unfold blen. rewrite app_length. lia. Qed.

Lemma to_nat_blen (b : bytes) : N.to_nat (blen b) = length b.
Proof. unfold blen. apply Nat2N.id. Qed.

Section CodecProofs.
  Variable M : Type.
  Variable ser : M -> bytes.
  Variable de : bytes -> option M.
  Variable max : N.

  (* These notations shadow the constants: to unfold one, name it qualified ([unfold Codec.frame]). *)
  Notation decode := (decode M de max).
  Notation encode := (encode M ser max).
  Notation drain := (drain M de max).
  Notation drain_all := (drain_all M de max).
  Notation feed1 := (feed1 M de max).
  Notation feed_chunks := (feed_chunks M de max).
  Notation stream_out := (stream_out M de max).
  Notation encode_all := (encode_all M ser max).
  Notation frame := (frame M ser).
  Notation enc_check := (enc_check max).

  Definition fits (m : M) : Prop := blen (ser m) <= max /\ blen (ser m) <= u32_max.

  Definition decode_body (fl : N) (body : bytes) : dec_result M :=
    if max <? fl then DecErr (TooLargeMessage fl max)
    else if blen body <? fl then DecNone
    else match de (firstn (N.to_nat fl) body) with
         | None => DecErr Postcard
         | Some m => DecSome m (skipn (N.to_nat fl) body)
         end.

  Lemma decode_unfold (b0 b1 b2 b3 : N) (body : bytes) :
    decode (b0 :: b1 :: b2 :: b3 :: body) = decode_body (of_be32 b0 b1 b2 b3) body.
  Proof. reflexivity. Qed.

  Lemma decode_short (src : bytes) : (length src < 4)%nat -> decode src = DecNone.
  Proof.
    destruct src as [|b0 [|b1 [|b2 [|b3 body]]]]; try reflexivity.
    cbn [length]. lia.
  Qed.

  Lemma decode_be32 (n : N) (body : bytes) :
    n <= u32_max -> decode (be32 n ++ body) = decode_body n body.
  Proof.
    intros H. unfold be32. cbn [app]. rewrite decode_unfold, (of_be32_be32 n H). reflexivity.
  Qed.

  Lemma decode_body_large (fl : N) (body : bytes) :
    max < fl -> decode_body fl body = DecErr (TooLargeMessage fl max).
  Proof. intros H. unfold decode_body. apply N.ltb_lt in H. rewrite H. reflexivity. Qed.

  Lemma decode_body_wait (fl : N) (body : bytes) :
    fl <= max -> blen body < fl -> decode_body fl body = DecNone.
  Proof.
    intros H1 H2. unfold decode_body. apply N.ltb_ge in H1. apply N.ltb_lt in H2.
    rewrite H1, H2. reflexivity.
  Qed.

  Lemma decode_body_exact (p rest : bytes) (m : M) :
    blen p <= max -> de p = Some m -> decode_body (blen p) (p ++ rest) = DecSome m rest.
  Proof.
    intros H Hde. unfold decode_body. apply N.ltb_ge in H. rewrite H.
    rewrite (proj2 (N.ltb_ge _ _)) by (rewrite blen_app; apply N.le_add_r).
    rewrite to_nat_blen, firstn_app, skipn_app, Nat.sub_diag, firstn_all, skipn_all, app_nil_r, Hde.
    reflexivity.
  Qed.

  Lemma decode_body_app (fl : N) (body c : bytes) :
    decode_body fl (body ++ c) =
    match decode_body fl body with
    | DecNone => decode_body fl (body ++ c)
    | DecSome m rest => DecSome m (rest ++ c)
    | DecErr e => DecErr e
    end.
  Proof.
    unfold decode_body. destruct (max <? fl); [reflexivity|].
    destruct (N.ltb_spec (blen body) fl) as [|Hge]; [reflexivity|].
    rewrite (proj2 (N.ltb_ge _ _)) by (rewrite blen_app; lia).
    assert (Hn : (N.to_nat fl - length body = 0)%nat) by (unfold blen in Hge; lia).
    rewrite firstn_app, skipn_app, Hn, app_nil_r.
    destruct (de _); reflexivity.
  Qed.

  Lemma decode_body_some_shorter (fl : N) (body : bytes) (m : M) (rest : bytes) :
    decode_body fl body = DecSome m rest -> (length rest <= length body)%nat.
  Proof.
    unfold decode_body. destruct (max <? fl); [discriminate|].
    destruct (blen body <? fl); [discriminate|]. destruct (de _); [|discriminate].
    intros E. injection E as _ <-. rewrite skipn_length. lia.
  Qed.

  Lemma decode_body_size_error (fl : N) (body : bytes) (l mx : N) :
    decode_body fl body = DecErr (TooLargeMessage l mx) -> l = fl /\ mx = max /\ max < fl.
  Proof.
    unfold decode_body. destruct (N.ltb_spec max fl) as [Hlt|_].
    - intros E. injection E as <- <-. auto.
    - destruct (blen body <? fl); [discriminate|]. destruct (de _); discriminate.
  Qed.

  Lemma decode_frame (m : M) (rest : bytes) :
    de (ser m) = Some m -> fits m -> decode (frame m ++ rest) = DecSome m rest.
  Proof.
    intros Hde [Hmax Hu32]. unfold Codec.frame.
    rewrite <- app_assoc, (decode_be32 _ _ Hu32). apply decode_body_exact; assumption.
  Qed.

  Lemma decode_frame_prefix (m : M) (k : nat) :
    fits m -> (k < length (frame m))%nat -> decode (firstn k (frame m)) = DecNone.
  Proof.
    intros [Hmax Hu32] Hk. destruct (Nat.lt_ge_cases k 4) as [Hk4|Hk4].
    - apply decode_short. rewrite firstn_length. lia.
    - unfold Codec.frame in *. rewrite app_length, be32_length in Hk.
      rewrite firstn_app, be32_length, (firstn_all2 (be32 _)) by (rewrite be32_length; exact Hk4).
      rewrite (decode_be32 _ _ Hu32). apply decode_body_wait; [exact Hmax|].
      unfold blen. rewrite firstn_length. lia.
  Qed.

  Lemma decode_too_large (b0 b1 b2 b3 : N) (body : bytes) :
    max < of_be32 b0 b1 b2 b3 ->
    decode (b0 :: b1 :: b2 :: b3 :: body) = DecErr (TooLargeMessage (of_be32 b0 b1 b2 b3) max).
  Proof. apply decode_body_large. Qed.

  Lemma decode_too_large_be32 (n : N) (body : bytes) :
    n <= u32_max -> max < n -> decode (be32 n ++ body) = DecErr (TooLargeMessage n max).
  Proof. intros Hu Hm. rewrite (decode_be32 _ _ Hu). apply decode_body_large, Hm. Qed.

  Lemma decode_size_error_only_if_larger (src : bytes) (l mx : N) :
    decode src = DecErr (TooLargeMessage l mx) ->
    mx = max /\ max < l /\
    exists b0 b1 b2 b3 body, src = b0 :: b1 :: b2 :: b3 :: body /\ l = of_be32 b0 b1 b2 b3.
  Proof.
    destruct src as [|b0 [|b1 [|b2 [|b3 body]]]]; try discriminate.
    intros E. apply decode_body_size_error in E. destruct E as [-> [-> Hlt]].
    repeat split; auto. exists b0, b1, b2, b3, body. auto.
  Qed.

  Lemma decode_app (buf c : bytes) :
    decode (buf ++ c) =
    match decode buf with
    | DecNone => decode (buf ++ c)
    | DecSome m rest => DecSome m (rest ++ c)
    | DecErr e => DecErr e
    end.
  Proof.
    destruct buf as [|b0 [|b1 [|b2 [|b3 body]]]]; try reflexivity. apply decode_body_app.
  Qed.

  Lemma decode_some_shorter (buf : bytes) (m : M) (rest : bytes) :
    decode buf = DecSome m rest -> (length rest + 4 <= length buf)%nat.
  Proof.
    destruct buf as [|b0 [|b1 [|b2 [|b3 body]]]]; try discriminate.
    intros D. apply decode_body_some_shorter in D. cbn [length]. lia.
  Qed.

  Lemma drain_fuel (f1 : nat) : forall (f2 : nat) (buf : bytes),
    (length buf < f1)%nat -> (length buf < f2)%nat -> drain f1 buf = drain f2 buf.
  Proof.
    induction f1 as [|f1 IH]; intros f2 buf H1 H2; [lia|].
    destruct f2 as [|f2]; [lia|].
    cbn [Codec.drain].
    destruct (decode buf) as [| m rest | e] eqn:D; try reflexivity.
    apply decode_some_shorter in D.
    rewrite (IH f2 rest) by lia. reflexivity.
  Qed.

  (** [drain_all] unfolds by what the first [decode] answers, with no fuel in sight. *)
  Lemma drain_all_wait (buf : bytes) : decode buf = DecNone -> drain_all buf = ([], Some buf).
  Proof. intros D. unfold Codec.drain_all. cbn [Codec.drain]. rewrite D. reflexivity. Qed.

  Lemma drain_all_err (buf : bytes) (e : error) :
    decode buf = DecErr e -> drain_all buf = ([IErr e], None).
  Proof. intros D. unfold Codec.drain_all. cbn [Codec.drain]. rewrite D. reflexivity. Qed.

  Lemma drain_all_some (buf : bytes) (m : M) (rest : bytes) :
    decode buf = DecSome m rest ->
    drain_all buf = let '(o, b) := drain_all rest in (IOk m :: o, b).
  Proof.
    intros D. unfold Codec.drain_all at 1. cbn [Codec.drain]. rewrite D.
    apply decode_some_shorter in D.
    rewrite (drain_fuel (length buf) (S (length rest)) rest) by lia. reflexivity.
  Qed.

  Lemma drain_all_app (buf c : bytes) :
    drain_all (buf ++ c) =
    match drain_all buf with
    | (o, None) => (o, None)
    | (o, Some b) => let '(o2, st2) := drain_all (b ++ c) in (o ++ o2, st2)
    end.
  Proof.
    induction buf as [buf IH] using (induction_ltof1 _ (@length N)). unfold ltof in IH.
    destruct (decode buf) as [| m rest | e] eqn:D.
    - rewrite (drain_all_wait buf D). destruct (drain_all (buf ++ c)); reflexivity.
    - rewrite (drain_all_some buf m rest D), (drain_all_some (buf ++ c) m (rest ++ c))
        by (rewrite decode_app, D; reflexivity).
      apply decode_some_shorter in D. rewrite (IH rest) by lia.
      destruct (drain_all rest) as [o [b|]]; [destruct (drain_all (b ++ c))|]; reflexivity.
    - rewrite (drain_all_err buf e D), (drain_all_err (buf ++ c) e)
        by (rewrite decode_app, D; reflexivity).
      reflexivity.
  Qed.

  Lemma feed1_drain_all (s c : bytes) : feed1 (drain_all s) c = drain_all (s ++ c).
  Proof.
    rewrite drain_all_app. unfold Codec.feed1.
    destruct (drain_all s) as [o [b|]]; reflexivity.
  Qed.

  Lemma fold_feed1 (chunks : list bytes) : forall s : bytes,
    fold_left feed1 chunks (drain_all s) = drain_all (s ++ concat chunks).
  Proof.
    induction chunks as [|c r IH]; intros s; cbn [fold_left concat].
    - rewrite app_nil_r. reflexivity.
    - rewrite feed1_drain_all, IH, app_assoc. reflexivity.
  Qed.

  Theorem feed_chunks_concat (chunks : list bytes) :
    feed_chunks chunks = drain_all (concat chunks).
  Proof. exact (fold_feed1 chunks []). Qed.

  Theorem chunking_irrelevant_any_stream (chunks1 chunks2 : list bytes) :
    concat chunks1 = concat chunks2 ->
    feed_chunks chunks1 = feed_chunks chunks2 /\ stream_out chunks1 = stream_out chunks2.
  Proof.
    intros E. unfold Codec.stream_out. rewrite !feed_chunks_concat, E. split; reflexivity.
  Qed.

  Lemma enc_check_fits (fl : N) : fl <= max -> fl <= u32_max -> enc_check fl = None.
  Proof.
    intros H1 H2. unfold Codec.enc_check. apply N.ltb_ge in H1. apply N.ltb_ge in H2.
    rewrite H1, H2. reflexivity.
  Qed.

  Lemma enc_check_large (fl : N) : max < fl -> enc_check fl = Some (TooLargeMessage fl max).
  Proof. intros H. unfold Codec.enc_check. apply N.ltb_lt in H. rewrite H. reflexivity. Qed.

  Lemma enc_check_refused (fl l mx : N) :
    enc_check fl = Some (TooLargeMessage l mx) -> l = fl /\ N.min max u32_max < l.
  Proof.
    unfold Codec.enc_check. rewrite N.min_lt_iff.
    destruct (N.ltb_spec max fl); [|destruct (N.ltb_spec u32_max fl); [|discriminate]];
      intros E; injection E as <- <-; auto.
  Qed.

  Lemma encode_fits (m : M) (dst : bytes) : fits m -> encode m dst = EncOk (dst ++ frame m).
  Proof. intros [Hm Hu]. unfold Codec.encode. rewrite (enc_check_fits _ Hm Hu). reflexivity. Qed.

  Lemma encode_too_large (m : M) (dst : bytes) :
    max < blen (ser m) -> encode m dst = EncErr (TooLargeMessage (blen (ser m)) max).
  Proof. intros H. unfold Codec.encode. rewrite (enc_check_large _ H). reflexivity. Qed.

  Lemma encode_all_fits (ms : list M) : forall dst : bytes,
    Forall fits ms ->
    encode_all ms dst = (map (fun _ => None) ms, dst ++ concat (map frame ms)).
  Proof.
    induction ms as [|m r IH]; intros dst HF.
    - cbn [Codec.encode_all map concat]. rewrite app_nil_r. reflexivity.
    - inversion HF as [|? ? Hm Hr]; subst.
      cbn [Codec.encode_all]. rewrite (encode_fits m dst Hm), (IH _ Hr).
      cbn [map concat]. rewrite <- app_assoc. reflexivity.
  Qed.

  Lemma encode_keeps_prefix (m : M) (dst dst' : bytes) :
    encode m dst = EncOk dst' -> exists f, dst' = dst ++ f.
  Proof.
    unfold Codec.encode. destruct (enc_check _); [discriminate|].
    intros E. injection E as <-. eauto.
  Qed.

  (** C26, second sentence. *)
  Theorem too_large_rejected_both_ways (m : M) (dst : bytes) (n : N) (body : bytes) :
    (max < blen (ser m) -> encode m dst = EncErr (TooLargeMessage (blen (ser m)) max)) /\
    (n <= u32_max -> max < n -> decode (be32 n ++ body) = DecErr (TooLargeMessage n max)).
  Proof.
    split; [apply encode_too_large|apply decode_too_large_be32].
  Qed.

  Theorem size_refusal_only_if_larger (m : M) (dst src : bytes) (l mx : N) :
    (encode m dst = EncErr (TooLargeMessage l mx) -> l = blen (ser m) /\ N.min max u32_max < l) /\
    (decode src = DecErr (TooLargeMessage l mx) -> mx = max /\ max < l).
  Proof.
    split.
    - unfold Codec.encode. destruct (enc_check _) as [e|] eqn:C; [|discriminate].
      intros E. injection E as ->. apply enc_check_refused in C. exact C.
    - intros D. apply decode_size_error_only_if_larger in D. tauto.
  Qed.

  Hypothesis de_ser : forall m, de (ser m) = Some m.

  Lemma drain_frames (ms : list M) (tail : bytes) :
    Forall fits ms ->
    drain_all (concat (map frame ms) ++ tail) =
    let '(o, st) := drain_all tail in (map IOk ms ++ o, st).
  Proof.
    induction 1 as [|m r Hm _ IH]; cbn [map concat app].
    - destruct (drain_all tail). reflexivity.
    - rewrite <- app_assoc, (drain_all_some _ m _ (decode_frame m _ (de_ser m) Hm)), IH.
      destruct (drain_all tail). reflexivity.
  Qed.

  Theorem frames_then_waiting_tail (ms : list M) (tail : bytes) (chunks : list bytes) :
    Forall fits ms -> decode tail = DecNone ->
    concat chunks = concat (map frame ms) ++ tail ->
    feed_chunks chunks = (map IOk ms, Some tail) /\
    stream_out chunks = map IOk ms ++ eof_items M (Some tail).
  Proof.
    intros HF D E.
    assert (F : feed_chunks chunks = (map IOk ms, Some tail)).
    { rewrite feed_chunks_concat, E, (drain_frames ms tail HF), (drain_all_wait tail D).
      cbv beta iota. rewrite app_nil_r. reflexivity. }
    split; [exact F|]. unfold Codec.stream_out. rewrite F. reflexivity.
  Qed.

  (** C26, first sentence. *)
  Theorem chunking_irrelevant (ms : list M) (chunks : list bytes) :
    Forall fits ms ->
    concat chunks = snd (encode_all ms []) ->
    fst (encode_all ms []) = map (fun _ => None) ms /\
    feed_chunks chunks = (map IOk ms, Some []) /\
    stream_out chunks = map IOk ms.
  Proof.
    intros HF E. rewrite (encode_all_fits ms [] HF) in *. cbn [fst snd app] in *.
    split; [reflexivity|].
    rewrite <- (app_nil_r (map IOk ms)) at 2.
    apply (frames_then_waiting_tail ms [] chunks HF eq_refl). rewrite app_nil_r. exact E.
  Qed.

  Theorem truncated_stream (ms : list M) (m : M) (k : nat) (chunks : list bytes) :
    Forall fits ms -> fits m -> (0 < k < length (frame m))%nat ->
    concat chunks = concat (map frame ms) ++ firstn k (frame m) ->
    feed_chunks chunks = (map IOk ms, Some (firstn k (frame m))) /\
    stream_out chunks = map IOk ms ++ [IErr Io].
  Proof.
    intros HF Hm [Hk0 Hk] E.
    destruct (frames_then_waiting_tail ms _ chunks HF (decode_frame_prefix m k Hm Hk) E) as [F S].
    split; [exact F|]. rewrite S.
    (* at least the first prefix byte is left over *)
    destruct k; [inversion Hk0|]. reflexivity.
  Qed.

  Theorem no_smaller_frame_rejected (m : M) (dst rest : bytes) :
    fits m ->
    encode m dst = EncOk (dst ++ frame m) /\ decode (frame m ++ rest) = DecSome m rest.
  Proof. intros H. split; [apply encode_fits|apply decode_frame; [apply de_ser|]]; exact H. Qed.

  Theorem boundary (m m' : M) (dst rest body : bytes) :
    max <= u32_max ->
    (blen (ser m) = max ->
       encode m dst = EncOk (dst ++ frame m) /\ decode (frame m ++ rest) = DecSome m rest) /\
    (blen (ser m') = max + 1 ->
       encode m' dst = EncErr (TooLargeMessage (max + 1) max)) /\
    (max + 1 <= u32_max ->
       decode (be32 (max + 1) ++ body) = DecErr (TooLargeMessage (max + 1) max)).
  Proof.
    intros Hu. split; [|split].
    - intros E. apply no_smaller_frame_rejected. unfold fits. rewrite E. split; [reflexivity|exact Hu].
    - intros E. rewrite <- E. apply encode_too_large. rewrite E. apply N.lt_add_pos_r. reflexivity.
    - intros H. apply decode_too_large_be32; [exact H|]. apply N.lt_add_pos_r. reflexivity.
  Qed.
End CodecProofs.

Lemma de_ser_raw (m : bytes) : de_raw false (ser_raw m) = Some m.
Proof. unfold de_raw, ser_raw. destruct m as [|x l]; [reflexivity|]. destruct x as [|p]; [reflexivity|].
  (* [de_raw] matches on the literal 255: walk the eight bits of the byte *)
  repeat (destruct p as [p|p|]; try reflexivity). Qed.

(** Non-vacuity: the hypotheses of the theorems are satisfiable by non-trivial values. *)
Definition ex_ms : list bytes := [[1; 2; 3]; []; [255; 0]; [7]].
Definition ex_stream : bytes := snd (encode_all bytes ser_raw 3 ex_ms []).

Example ex_fits : Forall (fits bytes ser_raw 3) ex_ms.
Proof. repeat constructor; discriminate. Qed.

Example ex_chunking :
  let chunks := split_at [1; 0; 3; 5; 1; 1; 2]%nat ex_stream in
  concat chunks = ex_stream /\ length chunks = 8%nat /\
  stream_out bytes (de_raw false) 3 chunks = map IOk ex_ms.
Proof. vm_compute. repeat split; reflexivity. Qed.

Example ex_chunking_thm :
  stream_out bytes (de_raw false) 3 (split_at [1; 0; 3; 5; 1; 1; 2]%nat ex_stream) = map IOk ex_ms.
Proof.
  refine (proj2 (proj2 (chunking_irrelevant bytes ser_raw (de_raw false) 3 de_ser_raw ex_ms _ ex_fits _))).
  vm_compute. reflexivity.
Qed.

Example ex_boundary :
  encode bytes ser_raw 3 [1; 2; 3] [] = EncOk [0; 0; 0; 3; 1; 2; 3] /\
  encode bytes ser_raw 3 [1; 2; 3; 4] [] = EncErr (TooLargeMessage 4 3) /\
  decode bytes (de_raw false) 3 [0; 0; 0; 3; 1; 2; 3; 9] = DecSome [1; 2; 3] [9] /\
  decode bytes (de_raw false) 3 [0; 0; 0; 4] = DecErr (TooLargeMessage 4 3) /\
  decode bytes (de_raw false) 3 [0; 0; 0; 3; 1; 2] = DecNone.
Proof. vm_compute. repeat split; reflexivity. Qed.

(** Before the repair of [Codec::encode] a frame of 4 GiB or more within a larger [max_frame_len]
    made it panic ([enc_check_asis]). *)
Example ex_u32_cap :
  enc_check 18446744073709551615 4294967296 = Some (TooLargeMessage 4294967296 u32_max) /\
  enc_check_asis 18446744073709551615 4294967296 = EncPanic /\
  enc_check 18446744073709551615 4294967295 = None.
Proof. vm_compute. repeat split; reflexivity. Qed.
