From Coq Require Import List Arith NArith Bool.
From PV Require Import Oracle.C39.
Import ListNotations.

Definition okey (o : obs) : nat * N := (o_peer o, o_msg o).

Lemma keyeqb_refl k : keyeqb k k = true.
Proof. unfold keyeqb. rewrite Nat.eqb_refl, N.eqb_refl. reflexivity. Qed.

Lemma memK_cons k x l : memK k l = true -> memK k (x :: l) = true.
Proof. unfold memK. cbn [existsb]. intros ->. apply orb_true_r. Qed.

Lemma memK_head k l : memK k (k :: l) = true.
Proof. unfold memK. cbn [existsb]. rewrite keyeqb_refl. reflexivity. Qed.

Lemma quiet_obs_spec o : quiet_obs o = true -> o_nev o = 0 /\ o_chg o = false.
Proof.
  unfold quiet_obs. intros Hq. apply andb_true_iff in Hq as [Hn Hc].
  apply Nat.eqb_eq in Hn. apply negb_true_iff in Hc. auto.
Qed.

Lemma obs_ok_spec b o :
  obs_ok b o = true ->
  o_res o <> 2%N /\ (o_res o = 1%N -> o_nev o = 0 /\ o_chg o = false) /\
  (b = true -> o_nev o = 0 /\ o_chg o = false).
Proof.
  unfold obs_ok. intros Hk. apply andb_true_iff in Hk as [Hp Hq].
  apply negb_true_iff, N.eqb_neq in Hp. split; [exact Hp|]. split.
  - intros Hr. rewrite Hr in Hq. cbn [N.eqb Pos.eqb] in Hq. rewrite orb_true_r in Hq. apply quiet_obs_spec, Hq.
  - intros ->. cbn [orb] in Hq. apply quiet_obs_spec, Hq.
Qed.

(** If the oracle accepts a trace then, at every position: no panic; an error emitted nothing and
    changed nothing; and a delivery of a message the peer authored itself, or processed
    successfully at any earlier position, emitted nothing and changed nothing. *)
Theorem check_sound : forall pre authored o post,
  check authored (pre ++ o :: post) = true ->
  o_res o <> 2%N /\
  (o_res o = 1%N -> o_nev o = 0 /\ o_chg o = false) /\
  ((memK (okey o) authored = true \/
    exists o', In o' pre /\ okey o' = okey o /\ o_res o' = 0%N) ->
   o_nev o = 0 /\ o_chg o = false).
Proof.
  unfold check. induction pre as [|a pre IH]; intros s o post Hc.
  - cbn [app check_from] in Hc. apply andb_true_iff in Hc as [Hk _].
    destruct (obs_ok_spec _ _ Hk) as (Hp & He & Hs).
    split; [exact Hp|]. split; [exact He|].
    intros [Hm|(o' & [] & _)]. apply Hs, Hm.
  - cbn [app check_from] in Hc. apply andb_true_iff in Hc as [_ Hr].
    destruct (IH _ o post Hr) as (Hp & He & Hs). split; [exact Hp|]. split; [exact He|].
    intros Hor. apply Hs. destruct Hor as [Hm|(o' & [Heq|Hin] & Hkey & Hres)].
    + left. destruct (N.eqb (o_res a) 0); [apply memK_cons|]; exact Hm.
    + left. subst o'. rewrite Hres. cbn [N.eqb]. unfold okey in Hkey. rewrite Hkey. apply memK_head.
    + right. exists o'. auto.
Qed.

Example check_accepts :
  check [(0, 5%N)] [Ob 1 5 0 1 true; Ob 1 5 0 0 false; Ob 0 5 0 0 false; Ob 1 9 1 0 false] = true.
Proof. reflexivity. Qed.
Example check_rejects_reemit :
  check [] [Ob 1 5 0 1 true; Ob 1 5 0 1 false] = false.
Proof. reflexivity. Qed.
Example check_rejects_panic : check [] [Ob 1 5 2 0 false] = false.
Proof. reflexivity. Qed.
