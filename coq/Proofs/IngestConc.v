(** Proofs about overlapping ingest calls (Model/IngestConc.v): every interleaving is equivalent
    to awaiting the calls one after the other in their commit order. *)
From Coq Require Import List Arith NArith Bool Permutation.
From PV Require Import Lib.ListFacts Model.Ingest Model.IngestConc Proofs.Ingest.
Import ListNotations.

Lemma upd_same : forall (A : Type) (f : nat -> A) i v, upd f i v i = v.
Proof. intros. unfold upd. rewrite Nat.eqb_refl. reflexivity. Qed.

Lemma upd_other : forall (A : Type) (f : nat -> A) i v j, j <> i -> upd f i v j = f j.
Proof. intros A f i v j H. unfold upd. apply Nat.eqb_neq in H. rewrite H. reflexivity. Qed.

Section Serialisable.
  Variable vpb : option row -> op -> bool -> vres.
  Variable ops : list op.
  Variable s0 : store.

  Notation opn := (opn ops).
  Notation srun := (seq_run vpb ops s0).

  Definition holding (t : tstate) : Prop :=
    match t with THold | TCheck | TRead _ | TIns => True | _ => False end.

  Definition holder_ok (s : store) (o : op) (t : tstate) : Prop :=
    match t with
    | THold => True
    | TCheck => has_op s (o_id o) = false
    | TRead p => has_op s (o_id o) = false /\ p = latest s (o_author o) (o_log o)
    | TIns => has_op s (o_id o) = false /\ vpb (latest s (o_author o) (o_log o)) o (o_prune o) = VOk
    | _ => False
    end.

  Definition lock_ok (s : store) (lock : option nat) (th : nat -> tstate) : Prop :=
    match lock with
    | None => forall j, ~ holding (th j)
    | Some h => holder_ok s (opn h) (th h) /\ forall j, j <> h -> ~ holding (th j)
    end.

  (** [order] lists the calls that have returned, in the order of their returns.  The idea of the
      proof is [holder_ok]: only the permit holder changes the committed store, so what it has
      read so far is still true of it, and when it returns it returns what [ingest_with] gives on
      that store.  [inv_valid] is there so that the holder's [ingest_with] equations apply,
      [inv_lt] only to make [order] a permutation in the end. *)
  Record SerInv (c : config) (order : list nat) : Prop := mkSerInv {
    inv_store : c_store c = fst (srun order);
    inv_res : forall i r, In (i, r) (snd (srun order)) -> c_th c i = TDone r;
    inv_done : forall i, is_done (c_th c i) = true -> In i order;
    inv_nodup : NoDup order;
    inv_lt : forall i, In i order -> i < List.length ops;
    inv_valid : forall i, c_th c i <> TStart -> is_done (c_th c i) = false -> o_valid (opn i) = true;
    inv_lock : lock_ok (c_store c) (c_lock c) (c_th c) }.

  Lemma seq_run_snoc : forall pi i s r,
    ingest_with vpb (fst (srun pi)) (opn i) = (s, r) -> srun (pi ++ [i]) = (s, snd (srun pi) ++ [(i, r)]).
  Proof.
    intros pi i s r H. unfold seq_run in *. rewrite fold_left_app. cbn [fold_left].
    unfold seq_step in *. rewrite H. reflexivity.
  Qed.

  Lemma seq_run_order : forall pi, map fst (snd (srun pi)) = pi.
  Proof.
    intros pi. induction pi as [|i t IH] using rev_ind; [reflexivity|].
    destruct (ingest_with vpb (fst (srun t)) (opn i)) as [s r] eqn:E.
    rewrite (seq_run_snoc _ _ _ _ E). cbn [snd]. rewrite map_app, IH. reflexivity.
  Qed.

  Lemma in_order_done : forall c order i, SerInv c order -> In i order -> is_done (c_th c i) = true.
  Proof.
    intros c order i HI Hi. rewrite <- (seq_run_order order) in Hi.
    apply in_map_iff in Hi. destruct Hi as ((j & r) & Hj & Hin). cbn [fst] in Hj. subst j.
    rewrite (inv_res _ _ HI _ _ Hin). reflexivity.
  Qed.

  Lemma holding_running : forall t, holding t -> is_done t = false /\ t <> TStart.
  Proof. intros [] H; try destruct H; split; (reflexivity || discriminate). Qed.

  Lemma holder_ok_holding : forall s o t, holder_ok s o t -> holding t.
  Proof. intros s o [] H; try destruct H; exact I. Qed.

  Lemma holder_is : forall c order i t, SerInv c order -> c_th c i = t -> holding t ->
    o_valid (opn i) = true /\ c_lock c = Some i /\ holder_ok (c_store c) (opn i) t /\
    forall j, j <> i -> ~ holding (c_th c j).
  Proof.
    intros c order i t HI <- Hh. destruct (holding_running _ Hh) as (Hnd & Hns).
    split; [exact (inv_valid _ _ HI _ Hns Hnd)|].
    pose proof (inv_lock _ _ HI) as HL. unfold lock_ok in HL.
    destruct (c_lock c) as [h|].
    - destruct HL as (Hok & Hoth). destruct (Nat.eq_dec i h) as [->|Hne]; [auto|].
      exfalso. exact (Hoth i Hne Hh).
    - exfalso. exact (HL i Hh).
  Qed.

  Lemma inv_finish : forall c order i s' r lock',
    SerInv c order -> i < List.length ops -> is_done (c_th c i) = false ->
    ingest_with vpb (c_store c) (opn i) = (s', r) ->
    lock_ok s' lock' (upd (c_th c) i (TDone r)) ->
    SerInv (mkCfg s' lock' (upd (c_th c) i (TDone r))) (order ++ [i]).
  Proof.
    intros c order i s' r lock' HI Hlt Hnd Hing HL.
    assert (Hni : ~ In i order).
    { intros Hin. rewrite (in_order_done _ _ _ HI Hin) in Hnd. discriminate. }
    rewrite (inv_store _ _ HI) in Hing. apply seq_run_snoc in Hing.
    constructor; cbn [c_store c_lock c_th]; rewrite ?Hing; cbn [fst snd].
    - reflexivity.
    - intros j r' Hin. apply in_app_iff in Hin. destruct Hin as [Hin|[[= <- <-]|[]]]; [|apply upd_same].
      rewrite upd_other; [exact (inv_res _ _ HI _ _ Hin)|].
      intros ->. apply Hni. rewrite <- (seq_run_order order). exact (in_map fst _ _ Hin).
    - intros j Hd. apply in_app_iff. destruct (Nat.eq_dec j i) as [->|Hj]; [right; left; reflexivity|].
      left. rewrite upd_other in Hd by exact Hj. exact (inv_done _ _ HI _ Hd).
    - apply NoDup_snoc; [exact (inv_nodup _ _ HI)|exact Hni].
    - intros j Hin. apply in_app_iff in Hin. destruct Hin as [Hin|[<-|[]]]; [exact (inv_lt _ _ HI _ Hin)|exact Hlt].
    - intros j Hs Hd. destruct (Nat.eq_dec j i) as [->|Hj].
      + rewrite upd_same in Hd. discriminate.
      + rewrite upd_other in Hs, Hd by exact Hj. exact (inv_valid _ _ HI _ Hs Hd).
    - exact HL.
  Qed.

  Lemma inv_move : forall c order i t' lock',
    SerInv c order -> is_done (c_th c i) = false -> is_done t' = false -> t' <> TStart ->
    o_valid (opn i) = true ->
    lock_ok (c_store c) lock' (upd (c_th c) i t') ->
    SerInv (mkCfg (c_store c) lock' (upd (c_th c) i t')) order.
  Proof.
    intros c order i t' lock' HI Hnd Hnd' Hns Hv HL.
    constructor; cbn [c_store c_lock c_th].
    - exact (inv_store _ _ HI).
    - intros j r Hin. pose proof (inv_res _ _ HI _ _ Hin) as Hj.
      destruct (Nat.eq_dec j i) as [->|Hne]; [rewrite Hj in Hnd; discriminate|].
      rewrite upd_other by exact Hne. exact Hj.
    - intros j Hd. destruct (Nat.eq_dec j i) as [->|Hne].
      + rewrite upd_same in Hd. congruence.
      + rewrite upd_other in Hd by exact Hne. exact (inv_done _ _ HI _ Hd).
    - exact (inv_nodup _ _ HI).
    - exact (inv_lt _ _ HI).
    - intros j Hs Hd. destruct (Nat.eq_dec j i) as [->|Hne]; [exact Hv|].
      rewrite upd_other in Hs, Hd by exact Hne. exact (inv_valid _ _ HI _ Hs Hd).
    - exact HL.
  Qed.

  Lemma not_holding_upd : forall (th : nat -> tstate) i t' j,
    ~ holding t' -> (j <> i -> ~ holding (th j)) -> ~ holding (upd th i t' j).
  Proof.
    intros th i t' j Ht Hj. destruct (Nat.eq_dec j i) as [->|Hne].
    - rewrite upd_same. exact Ht.
    - rewrite upd_other by exact Hne. exact (Hj Hne).
  Qed.

  Lemma lock_ok_bystander : forall s lock th i t',
    lock_ok s lock th -> ~ holding (th i) -> ~ holding t' -> lock_ok s lock (upd th i t').
  Proof.
    intros s lock th i t' HL Hi Ht. unfold lock_ok in *. destruct lock as [h|].
    - destruct HL as (Hok & Hoth).
      assert (Hne : h <> i) by (intros ->; exact (Hi (holder_ok_holding _ _ _ Hok))).
      split; [rewrite upd_other by exact Hne; exact Hok|].
      intros j Hj. apply not_holding_upd; [exact Ht|intros _; exact (Hoth j Hj)].
    - intros j. apply not_holding_upd; [exact Ht|intros _; exact (HL j)].
  Qed.

  Lemma lock_ok_advance : forall s (th : nat -> tstate) i t',
    (forall j, j <> i -> ~ holding (th j)) -> holder_ok s (opn i) t' -> lock_ok s (Some i) (upd th i t').
  Proof.
    intros s th i t' Hoth Hok. split; [rewrite upd_same; exact Hok|].
    intros j Hj. rewrite upd_other by exact Hj. exact (Hoth j Hj).
  Qed.

  Lemma holder_returns : forall c order i t s' r,
    SerInv c order -> i < List.length ops -> c_th c i = t -> holding t ->
    ingest_with vpb (c_store c) (opn i) = (s', r) ->
    SerInv (mkCfg s' None (upd (c_th c) i (TDone r))) (order ++ [i]).
  Proof.
    intros c order i t s' r HI Hlt Et Hh Hing. destruct (holder_is _ _ _ _ HI Et Hh) as (_ & _ & _ & Hoth).
    apply inv_finish; [exact HI|exact Hlt|rewrite Et; apply (holding_running _ Hh)|exact Hing|].
    intros j. apply not_holding_upd; [exact (fun H => H)|exact (Hoth j)].
  Qed.

  Lemma holder_advances : forall c order i t t',
    SerInv c order -> c_th c i = t -> holding t -> holder_ok (c_store c) (opn i) t' ->
    SerInv (mkCfg (c_store c) (c_lock c) (upd (c_th c) i t')) order.
  Proof.
    intros c order i t t' HI Et Hh Hok. destruct (holder_is _ _ _ _ HI Et Hh) as (Hv & -> & _ & Hoth).
    destruct (holding_running _ (holder_ok_holding _ _ _ Hok)) as (Hnd' & Hns').
    apply inv_move; [exact HI|rewrite Et; apply (holding_running _ Hh)|exact Hnd'|exact Hns'|exact Hv|].
    apply lock_ok_advance; assumption.
  Qed.

  Lemma step_inv : forall c order i, SerInv c order -> exists order', SerInv (step vpb ops c i) order'.
  Proof.
    intros c order i HI. unfold step.
    destruct (i <? List.length ops) eqn:Elt; cbn [negb]; [|exists order; exact HI].
    apply Nat.ltb_lt in Elt.
    destruct (c_th c i) eqn:Et.
    - (* TStart: [validate_operation], outside the critical section *)
      assert (Hnd : is_done (c_th c i) = false) by (rewrite Et; reflexivity).
      assert (Hlk : forall t', ~ holding t' -> lock_ok (c_store c) (c_lock c) (upd (c_th c) i t')).
      { intros t'. apply lock_ok_bystander; [exact (inv_lock _ _ HI)|rewrite Et; exact (fun H => H)]. }
      destruct (o_valid (opn i)) eqn:Ev.
      + exists order. apply inv_move; try assumption; [reflexivity|discriminate|].
        apply Hlk. exact (fun H => H).
      + exists (order ++ [i]). apply inv_finish; try assumption.
        * apply ingest_with_invalid. exact Ev.
        * apply Hlk. exact (fun H => H).
    - (* TWait: takes the permit if it is free *)
      pose proof (inv_lock _ _ HI) as HL.
      destruct (c_lock c) as [h|]; [exists order; exact HI|]. cbn [lock_ok] in HL.
      exists order. apply inv_move; [exact HI|rewrite Et; reflexivity|reflexivity|discriminate| |].
      + apply (inv_valid _ _ HI); rewrite Et; [discriminate|reflexivity].
      + apply lock_ok_advance; [intros j _; exact (HL j)|exact I].
    - (* THold: [has_operation_tx] *)
      destruct (holder_is _ _ _ _ HI Et I) as (Hv & _).
      destruct (has_op (c_store c) (o_id (opn i))) eqn:Eh.
      + exists (order ++ [i]). apply (holder_returns _ _ _ _ _ _ HI Elt Et I).
        apply ingest_with_stored; assumption.
      + exists order. apply (holder_advances _ _ _ _ _ HI Et I). exact Eh.
    - (* TCheck: [get_latest_entry_tx] *)
      destruct (holder_is _ _ _ _ HI Et I) as (_ & _ & Eh & _).
      exists order. apply (holder_advances _ _ _ _ _ HI Et I). split; [exact Eh|reflexivity].
    - (* TRead: [validate_prunable_backlink] against the tip read under the permit *)
      destruct (holder_is _ _ _ _ HI Et I) as (Hv & _ & (Eh & Ep) & _). subst p.
      pose proof (ingest_with_new vpb _ _ Hv Eh) as Hing.
      destruct (vpb (latest (c_store c) (o_author (opn i)) (o_log (opn i))) (opn i) (o_prune (opn i))) eqn:Ep.
      + exists order. apply (holder_advances _ _ _ _ _ HI Et I). split; assumption.
      + exists (order ++ [i]). exact (holder_returns _ _ _ _ _ _ HI Elt Et I Hing).
      + exists (order ++ [i]). exact (holder_returns _ _ _ _ _ _ HI Elt Et I Hing).
    - (* TIns: commit *)
      destruct (holder_is _ _ _ _ HI Et I) as (Hv & _ & (Eh & Ep) & _).
      exists (order ++ [i]). apply (holder_returns _ _ _ _ _ _ HI Elt Et I).
      rewrite (ingest_with_new vpb _ _ Hv Eh), Ep. reflexivity.
    - (* TDone *) exists order. exact HI.
  Qed.

  Lemma init_inv : SerInv (init s0) [].
  Proof.
    constructor; cbn [init c_store c_lock c_th is_done lock_ok holding].
    - reflexivity.
    - intros i r H. destruct H.
    - intros i H. discriminate.
    - constructor.
    - intros i H. destruct H.
    - intros i H. exfalso. apply H. reflexivity.
    - intros j H. exact H.
  Qed.

  Lemma run_sched_inv : forall sch c order,
    SerInv c order -> exists order', SerInv (run_sched vpb ops sch c) order'.
  Proof.
    induction sch as [|i t IH]; intros c order HI; [exists order; exact HI|].
    cbn [run_sched fold_left]. destruct (step_inv c order i HI) as (o' & HI'). exact (IH _ _ HI').
  Qed.

  (** Serialisability, at every moment of every interleaving: the committed store is the store of
      the calls that have returned so far, awaited one after the other in their commit order
      [order], and each of them returned what it returns in that sequential run. *)
  Theorem sched_prefix_serialisable : forall sch,
    let c := run_sched vpb ops sch (init s0) in
    exists order, NoDup order /\ (forall i, In i order <-> is_done (c_th c i) = true) /\
      (forall i, In i order -> i < List.length ops) /\
      c_store c = fst (srun order) /\
      forall i r, In (i, r) (snd (srun order)) -> c_th c i = TDone r.
  Proof.
    intros sch c. destruct (run_sched_inv sch _ _ init_inv) as (order & HI). fold c in HI.
    exists order. split; [exact (inv_nodup _ _ HI)|]. split.
    - intros i. split; [apply (in_order_done _ _ _ HI)|apply (inv_done _ _ HI)].
    - split; [exact (inv_lt _ _ HI)|]. split; [exact (inv_store _ _ HI)|exact (inv_res _ _ HI)].
  Qed.

  Theorem concurrent_ingest_serialisable : forall sch,
    let c := run_sched vpb ops sch (init s0) in
    all_done (List.length ops) c = true ->
    exists pi, Permutation pi (seq 0 (List.length ops)) /\
      c_store c = fst (srun pi) /\
      forall i r, In (i, r) (snd (srun pi)) -> c_th c i = TDone r.
  Proof.
    intros sch c Hall. destruct (sched_prefix_serialisable sch) as (order & Hnd & Hiff & Hlt & Hs & Hr).
    fold c in Hiff, Hs, Hr. exists order. split; [|split; assumption].
    apply NoDup_Permutation; [exact Hnd|apply seq_NoDup|].
    intros i. split.
    - intros Hi. apply in_seq. split; [apply Nat.le_0_l|exact (Hlt i Hi)].
    - intros Hi. apply Hiff. unfold all_done in Hall. rewrite forallb_forall in Hall. exact (Hall i Hi).
  Qed.

  Lemma seq_run_preserves : forall (P : store -> Prop),
    (forall s o, P s -> P (fst (ingest_with vpb s o))) -> P s0 ->
    forall pi, P (fst (srun pi)).
  Proof.
    intros P Hstep H0 pi. induction pi as [|i t IH] using rev_ind; [exact H0|].
    specialize (Hstep _ (opn i) IH).
    destruct (ingest_with vpb (fst (srun t)) (opn i)) as [s r] eqn:E.
    rewrite (seq_run_snoc _ _ _ _ E). exact Hstep.
  Qed.

  Theorem sched_preserves : forall (P : store -> Prop),
    (forall s o, P s -> P (fst (ingest_with vpb s o))) -> P s0 ->
    forall sch, P (c_store (run_sched vpb ops sch (init s0))).
  Proof.
    intros P Hstep H0 sch. destruct (sched_prefix_serialisable sch) as (order & _ & _ & _ & -> & _).
    apply seq_run_preserves; assumption.
  Qed.
End Serialisable.

(** C05 for concurrent deliveries: [ops] is any batch of overlapping ingest calls started after
    the prune point [o] went through the pipeline. *)
Theorem no_resurrection_concurrent : forall pre o ops sch,
  wf_history (pre ++ [o]) = true ->
  o_prune o = true -> res_ok (snd (deliver (run pre) o)) = true ->
  forall r, In r (c_store (run_sched validate_prunable_backlink ops sch (init (run (pre ++ [o]))))) ->
    in_log (o_author o) (o_log o) r = true -> (o_seq o <= r_seq r)%N.
Proof.
  intros pre o ops sch Hwf Hpr Hok.
  destruct (prune_point_low_water pre o [] Hwf Hpr Hok) as (_ & HL).
  apply (sched_preserves _ ops _ (low_water (o_author o) (o_log o) (o_seq o))); [|exact HL].
  intros s x. apply low_water_ingest.
Qed.

Lemma incr_snoc : forall s r, incr s ->
  (forall x, In x s -> in_log (r_author x) (r_log x) r = true -> (r_seq x < r_seq r)%N) -> incr (s ++ [r]).
Proof.
  induction s as [|y t IH]; intros r Hi Hall.
  - cbn. split; [intros x []|exact I].
  - cbn [app incr] in *. destruct Hi as (Hy & Ht). split.
    + intros x Hx Hl. apply in_app_iff in Hx. destruct Hx as [Hx|[<-|[]]]; [exact (Hy x Hx Hl)|].
      apply Hall; [left; reflexivity|exact Hl].
    + apply IH; [exact Ht|]. intros x Hx. apply Hall. right. exact Hx.
Qed.

Lemma incr_ingest : forall s o, incr s -> incr (fst (ingest s o)).
Proof.
  intros s o Hi. destruct (ingest_shape s o) as [(_ & -> & _ & _ & Hok)|(_ & ->)]; [|exact Hi].
  apply incr_snoc; [exact Hi|].
  intros x Hx Hl. cbn [row_of r_seq]. apply (extends_above _ _ Hok x Hx).
  apply in_log_true in Hl. cbn [row_of r_author r_log] in Hl. destruct Hl as (Ha & Hb).
  apply in_log_true. split; congruence.
Qed.

(** Commit order inside a batch: every row a call appends lies strictly above everything its log
    holds at that moment, so in insertion order sequence numbers per log strictly increase --
    no call stores an entry below (or at) a prune point, or any entry, committed before it. *)
Theorem concurrent_commit_order_increasing : forall s0 ops sch,
  incr s0 -> incr (c_store (run_sched validate_prunable_backlink ops sch (init s0))).
Proof.
  intros s0 ops sch Hi. apply (sched_preserves _ ops s0 incr); [|exact Hi].
  intros s o. apply incr_ingest.
Qed.

Lemma incr_app_inv : forall s1 p s2 r, incr (s1 ++ p :: s2) -> In r s2 ->
  in_log (r_author p) (r_log p) r = true -> (r_seq p < r_seq r)%N.
Proof.
  induction s1 as [|y t IH]; intros p s2 r Hi Hr Hl.
  - cbn [app incr] in Hi. destruct Hi as (Hp & _). exact (Hp r Hr Hl).
  - cbn [app incr] in Hi. destruct Hi as (_ & Ht). exact (IH _ _ _ Ht Hr Hl).
Qed.

Lemma incrb_sound : forall s, incrb s = true -> incr s.
Proof.
  induction s as [|r t IH]; intros H; [exact I|].
  cbn [incrb] in H. apply andb_true_iff in H. destruct H as (Ha & Hb). split; [|exact (IH Hb)].
  intros x Hx Hl. rewrite forallb_forall in Ha. specialize (Ha x Hx). rewrite Hl in Ha. cbn [negb orb] in Ha.
  apply N.ltb_lt. exact Ha.
Qed.

(** Regression witness about the variant that reads the tip before [begin()].
    Two prune points of one log, seq 5 (call 0) and seq 3 (call 1), empty store.  Schedule: both
    calls read the (empty) tip, call 0 runs to its commit, then call 1 validates against its stale
    tip and commits: the store is [5; 3] in commit order -- entry 3 was stored after the prune
    point 5 was ingested.  No sequential order of the two calls gives that. *)
Definition st_ops : list op := [w_op 1 1 5 5 (Some 4%N) true true; w_op 1 1 3 3 (Some 2%N) true true].
Definition st_sched : list nat := [0; 1; 0; 0; 0; 0; 1; 1; 1; 1]%nat.

Theorem stale_tip_refuted :
  wf_history st_ops = true /\
  let c := vrun_sched validate_prunable_backlink st_ops st_sched (vinit []) in
  v_all_done 2 c = true /\ map r_seq (v_store c) = [5; 3]%N /\
  v_th c 0%nat = VDone Inserted /\ v_th c 1%nat = VDone Inserted /\
  incrb (v_store c) = false /\
  (forall pi, In pi [[0; 1]; [1; 0]]%nat ->
     map r_seq (fst (seq_run validate_prunable_backlink st_ops [] pi)) <> [5; 3]%N).
Proof.
  split; [vm_compute; reflexivity|]. cbv zeta.
  repeat split; try (vm_compute; reflexivity).
  intros pi [<-|[<-|[]]]; vm_compute; discriminate.
Qed.

(** The code as it is, same calls, same schedule: the older prune point is rejected. *)
Definition st_sched_real : list nat := [0; 1; 0; 0; 0; 0; 0]%nat.

Example st_real_code :
  let c := run_sched validate_prunable_backlink st_ops st_sched_real (init []) in
  map r_seq (c_store c) = [5]%N /\ c_th c 1%nat = TWait.
Proof. vm_compute. split; reflexivity. Qed.

Example st_real_code_complete :
  let c := run_sched validate_prunable_backlink st_ops (st_sched_real ++ [1; 1; 1; 1]%nat) (init []) in
  all_done 2 c = true /\ map r_seq (c_store c) = [5]%N /\ c_th c 1%nat = TDone (Rejected ESeqNonIncremental).
Proof. vm_compute. repeat split; reflexivity. Qed.

Example ex_conc_hyp :
  let pre := [w_op 1 1 0 1 None false true; w_op 1 1 1 2 (Some 1%N) false true] in
  let o := w_op 1 1 4 7 (Some 9%N) true true in
  wf_history (pre ++ [o]) = true /\ res_ok (snd (deliver (run pre) o)) = true /\
  all_done 2 (run_sched validate_prunable_backlink st_ops (st_sched_real ++ [1; 1; 1; 1]%nat) (init (run (pre ++ [o])))) = true.
Proof. vm_compute. repeat split; reflexivity. Qed.
