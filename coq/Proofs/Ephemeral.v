(** Proofs about the wrapped ephemeral message and the publisher (C16).

    Trusted assumptions = the hypotheses of [Section Ideal]: an ideal (EUF-CMA as an equation,
    deterministic, collision-free) signature scheme and injective encodings.  They are section
    hypotheses, hence explicit premises of the exported theorems whose proofs use them; [Sym_*]
    at the end shows that the free term algebra of Model/Ephemeral.v satisfies all of them. *)
From Coq Require Import List NArith Bool Sorted FinFun.
From PV Require Import Model.Timestamp Proofs.Timestamp Model.Ephemeral.
Import ListNotations.
Local Open Scope N_scope.

Section Ideal.
  Variables key skey sigT bytes : Type.
  Variable sk_of : key -> skey.
  Variable sign : skey -> bytes -> sigT.
  Variable verify : key -> bytes -> sigT -> bool.
  Variable enc : fields key -> bytes.

  Hypothesis verify_spec : forall p m s, verify p m s = true <-> s = sign (sk_of p) m.
  Hypothesis sign_inj : forall k k' m m', sign k m = sign k' m' -> k = k' /\ m = m'.
  (** The CBOR encoding of the signed tuple is injective. *)
  Hypothesis enc_inj : forall f f', enc f = enc f' -> f = f'.

  Notation from_wire := (from_wire key sigT bytes verify enc).
  Notation accept := (accept key sigT bytes verify enc).
  Notation authentic := (authentic key skey sigT bytes sk_of sign enc).
  Notation new_message := (new_message key skey sigT bytes sk_of sign enc).
  Notation pub_run := (pub_run key skey sigT bytes sk_of sign enc).
  Notation wrapped := (wrapped key sigT).
  Notation incoming := (incoming key sigT).

  Lemma from_wire_ok (w m : wrapped) : from_wire w = inl m <-> m = w /\ authentic w.
  Proof.
    unfold Ephemeral.from_wire, Ephemeral.authentic.
    destruct (N.eqb_spec (ver (wf w)) MESSAGE_VERSION) as [E|E]; cbn [negb].
    - destruct (verify (author (wf w)) (enc (wf w)) (wsig w)) eqn:V.
      + apply verify_spec in V. split.
        * intros [= <-]. auto.
        * intros [-> _]. reflexivity.
      + split; [discriminate|]. intros [_ [_ H]]. apply verify_spec in H. congruence.
    - split; [discriminate|]. intros [_ [H _]]. contradiction.
  Qed.

  Lemma accept_authentic (w : wrapped) : authentic w -> accept (Decoded w) = Some w.
  Proof.
    intros A. cbn [Ephemeral.accept]. rewrite (proj2 (from_wire_ok w w) (conj eq_refl A)). reflexivity.
  Qed.

  Theorem yielded_authentic (i : incoming) (m : wrapped) :
    accept i = Some m ->
    i = Decoded m /\ ver (wf m) = MESSAGE_VERSION /\
    wsig m = sign (sk_of (author (wf m))) (enc (wf m)).
  Proof.
    destruct i as [|w]; [discriminate|]. cbn [Ephemeral.accept].
    destruct (from_wire w) as [m'|e] eqn:E; [|discriminate].
    intros [= <-]. apply from_wire_ok in E. destruct E as [-> A]. split; [reflexivity|exact A].
  Qed.

  Lemma accept_cases (w : wrapped) :
    (authentic w /\ accept (Decoded w) = Some w) \/ (~ authentic w /\ accept (Decoded w) = None).
  Proof.
    destruct (accept (Decoded w)) as [m|] eqn:E.
    - left. apply yielded_authentic in E. destruct E as [[= <-] A]. split; [exact A|reflexivity].
    - right. split; [|reflexivity]. intros A. apply accept_authentic in A. congruence.
  Qed.

  (** The signature is made by key [k] over fields [f1] and arrives with fields [f2]: this
      covers tampering of any field ([f1 <> f2]) and re-signing under another key. *)
  Theorem accept_iff (k : skey) (f1 f2 : fields key) :
    (exists m, accept (Decoded {| wf := f2; wsig := sign k (enc f1) |}) = Some m) <->
    (ver f2 = MESSAGE_VERSION /\ f1 = f2 /\ k = sk_of (author f2)).
  Proof.
    split.
    - intros [m H]. apply yielded_authentic in H. destruct H as [[= <-] [V S]]. cbn [wf wsig] in V, S.
      apply sign_inj in S. destruct S as [K F]. apply enc_inj in F. auto.
    - intros [V [-> ->]]. eexists. apply accept_authentic. split; [exact V|reflexivity].
  Qed.

  Theorem tamper_rejected (k : skey) (f1 f2 : fields key) :
    f1 <> f2 \/ k <> sk_of (author f2) \/ ver f2 <> MESSAGE_VERSION ->
    accept (Decoded {| wf := f2; wsig := sign k (enc f1) |}) = None.
  Proof.
    intros H. destruct (accept _) as [m|] eqn:E; [|reflexivity].
    destruct (proj1 (accept_iff k f1 f2) (ex_intro _ m E)) as [A [B C]].
    destruct H as [H|[H|H]]; contradiction.
  Qed.

  Theorem forged_rejected (f : fields key) (s : sigT) :
    s <> sign (sk_of (author f)) (enc f) ->
    accept (Decoded {| wf := f; wsig := s |}) = None.
  Proof.
    intros H. destruct (accept_cases {| wf := f; wsig := s |}) as [[[_ S] _]|[_ E]]; [|exact E].
    contradiction (H S).
  Qed.

  Lemma new_message_accepted (pk : key) (ts : hts) (b : N) :
    accept (Decoded (new_message pk ts b)) = Some (new_message pk ts b).
  Proof. apply accept_authentic. split; reflexivity. Qed.

  Lemma msg_ts_new (pk : key) (ts : hts) (b : N) : msg_ts key sigT (new_message pk ts b) = ts.
  Proof. destruct ts. reflexivity. Qed.

  Lemma pub_run_ts (pk : key) (script : list (N * N)) : forall st,
    map (msg_ts key sigT) (fst (pub_run pk st script)) = fst (run st (map fst script)) /\
    snd (pub_run pk st script) = snd (run st (map fst script)).
  Proof.
    induction script as [|[now b] r IH]; intros st; [split; reflexivity|].
    cbn [Ephemeral.pub_run map fst snd]. unfold publish.
    destruct (increment st now) as [t|] eqn:E.
    - rewrite (run_cons _ E). destruct (IH t) as [A B].
      destruct (pub_run pk t r) as [ms ok]. cbn [fst snd map] in *.
      rewrite msg_ts_new, A. split; [reflexivity|exact B].
    - rewrite (run_panic _ E). split; reflexivity.
  Qed.

  Lemma pub_run_msgs (pk : key) (script : list (N * N)) : forall st,
    Forall (fun w => accept (Decoded w) = Some w /\ author (wf w) = pk) (fst (pub_run pk st script)) /\
    map (fun w => body (wf w)) (fst (pub_run pk st script)) =
      firstn (length (fst (pub_run pk st script))) (map snd script).
  Proof.
    induction script as [|[now b] r IH]; intros st; [split; constructor|].
    cbn [Ephemeral.pub_run map snd]. unfold publish.
    destruct (increment st now) as [t|]; [|split; constructor].
    destruct (IH t) as [C D]. destruct (pub_run pk t r) as [ms ok]. cbn [fst map length firstn] in *.
    rewrite D. split; [|reflexivity].
    constructor; [split; [apply new_message_accepted|reflexivity]|exact C].
  Qed.

  Theorem timestamps_strictly_increase (pk : key) (t0 : N) (script : list (N * N)) :
    N.of_nat (length script) <= u64max ->
    let '(ms, ok) := pub_run pk (hnow t0) script in
    ok = true /\ length ms = length script /\
    StronglySorted hlt (hnow t0 :: map (msg_ts key sigT) ms) /\
    Forall (fun w => accept (Decoded w) = Some w /\ author (wf w) = pk) ms /\
    map (fun w => body (wf w)) ms = map snd script.
  Proof.
    intros G. destruct (pub_run_ts pk script (hnow t0)) as [A B].
    destruct (pub_run_msgs pk script (hnow t0)) as [C D].
    destruct (run_complete (map fst script) (hnow t0)) as [R1 R2]; [rewrite map_length; exact G|].
    pose proof (run_chain (map fst script) (hnow t0)) as R3.
    destruct (pub_run pk (hnow t0) script) as [ms ok]. cbn [fst snd] in *.
    assert (L : length ms = length script).
    { rewrite <- (map_length (msg_ts key sigT) ms), A, R2. apply map_length. }
    repeat split.
    - congruence.
    - exact L.
    - rewrite A. exact R3.
    - exact C.
    - rewrite D, L, <- (map_length snd script). apply firstn_all.
  Qed.

  (** Distinct timestamps make distinct messages, hence distinct byte strings. *)
  Lemma pub_run_distinct (pk : key) (st : hts) (script : list (N * N))
        (wire : Type) (wenc : wrapped -> wire) :
    Injective wenc -> NoDup (map wenc (fst (pub_run pk st script))).
  Proof.
    intros Hinj. apply Injective_map_NoDup; [exact Hinj|]. apply (NoDup_map_inv (msg_ts key sigT)).
    rewrite (proj1 (pub_run_ts pk script st)).
    pose proof (sorted_nodup _ (run_chain (map fst script) st)) as S.
    apply NoDup_cons_iff in S. exact (proj2 S).
  Qed.

  Theorem no_two_equal_messages (pk : key) (t0 : N) (script : list (N * N))
          (wire : Type) (wenc : wrapped -> wire) :
    Injective wenc ->
    N.of_nat (length script) <= u64max ->
    NoDup (map wenc (fst (pub_run pk (hnow t0) script))).
  Proof using verify_spec.
    (* neither the bound nor [verify_spec] is needed; the latter is named so that it stays a
       premise, as C16_no_two_equal_messages states it *)
    intros Hinj _. apply pub_run_distinct. exact Hinj.
  Qed.
End Ideal.

Arguments accept_cases {key skey sigT bytes sk_of sign verify} enc verify_spec w.

Lemma fields_eqb_eq (a b : fields Sym.key) : Sym.fields_eqb a b = true <-> a = b.
Proof.
  split; [|intros ->; unfold Sym.fields_eqb; rewrite !N.eqb_refl; reflexivity].
  unfold Sym.fields_eqb. intros H.
  apply andb_prop in H as [H B]. apply andb_prop in H as [H L].
  apply andb_prop in H as [H T]. apply andb_prop in H as [V P].
  apply N.eqb_eq in V, P, T, L, B. destruct a, b. cbn in *. congruence.
Qed.

Lemma Sym_verify_spec : forall p m s, Sym.verify p m s = true <-> s = Sym.sign (Sym.sk_of p) m.
Proof.
  intros p m s. unfold Sym.verify, Sym.sign, Sym.sk_of. destruct s as [k m'|].
  - rewrite andb_true_iff, N.eqb_eq, fields_eqb_eq. split; [intros [A B]; congruence|intros H; inversion H; auto].
  - split; discriminate.
Qed.

Lemma Sym_sign_inj : forall k k' m m', Sym.sign k m = Sym.sign k' m' -> k = k' /\ m = m'.
Proof. intros k k' m m' H. inversion H. auto. Qed.

Lemma Sym_enc_inj : forall f f', Sym.enc f = Sym.enc f' -> f = f'.
Proof. intros f f' H. exact H. Qed.

Example accept_nonvacuous :
  let f := {| ver := 1; author := 3; time := 1000; logical := 2; body := 77 |} in
  Sym.accept (Decoded {| wf := f; wsig := Sym.sign 3 (Sym.enc f) |}) <> None /\
  Sym.accept (Decoded {| wf := f; wsig := Sym.sign 4 (Sym.enc f) |}) = None /\
  Sym.accept (Decoded {| wf := {| ver := 1; author := 3; time := 1000; logical := 3; body := 77 |};
                         wsig := Sym.sign 3 (Sym.enc f) |}) = None.
Proof. cbn. repeat split; discriminate. Qed.

Example publisher_nonvacuous :
  map (msg_ts Sym.key Sym.sigT) (fst (Sym.pub_run 3 (hnow 1000) [(500, 1); (1000, 1); (1001, 1); (7, 2)]))
  = [(1000, 1); (1000, 2); (1001, 0); (1001, 1)].
Proof. reflexivity. Qed.
