(** Soundness of the C10 observation oracle (Oracle/C10.v): if [check] accepts an observation
    then the observed token sequence is accepted by the observer automaton (which admits at most
    one permit owner at any time) and the final rows are exactly the writes of the transactions
    observed to commit, applied in the observed commit order. *)
From Coq Require Import List NArith Bool.
From PV Require Import Model.Tx Oracle.C10.
Import ListNotations.

Lemma eqb_listN_eq a : forall b, eqb_listN a b = true -> a = b.
Proof.
  unfold eqb_listN. induction a as [|x a IH]; destruct b as [|y b]; cbn; intros H;
    try reflexivity; try discriminate.
  apply andb_true_iff in H. destruct H as [H1 H2]. apply andb_true_iff in H2. destruct H2 as [H2 H3].
  apply N.eqb_eq in H2. subst. f_equal. apply IH. rewrite H1, H3. reflexivity.
Qed.

Theorem check_sound progs hs ts rows probe :
  check progs hs ts rows probe = true ->
  exists o, orun (mkP progs) oinit hs ts = Some o
            /\ rows = apply_all (mkP progs) (o_commits o) /\ probe = true.
Proof.
  unfold check. destruct (orun (mkP progs) oinit hs ts) as [o|]; [|discriminate].
  intros H. apply andb_true_iff in H. destruct H as [H1 H2].
  exists o. repeat split; auto. apply eqb_listN_eq; exact H1.
Qed.

Example check_accepts :
  check [([1; 2]%N, FCommit); ([3]%N, FDrop)] [HS 0; HS 1; HS 0; HS 0; HS 0; HS 0; HS 0; HS 1; HS 1; HS 1; HR 1; HR 1]
        [TG; TW; TB; TI; TI; Tt; TK; TB; TI; TD; Ts; Tr] [1; 2]%N true = true.
Proof. vm_compute. reflexivity. Qed.
Example check_rejects_two_owners :
  check [([1]%N, FCommit); ([3]%N, FCommit)] [HS 0; HS 1] [TG; TG] [] true = false.
Proof. vm_compute. reflexivity. Qed.
Example check_rejects_leftover_row :
  check [([1]%N, FDrop)] [HS 0; HS 0; HS 0; HS 0; HR 0; HR 0] [TG; TB; TI; TD; Ts; Tr] [1]%N true = false.
Proof. vm_compute. reflexivity. Qed.
