(** C20 -- the message grammar of one side of a log sync session, for every input sequence:
    every interleaving of store ticks, received messages (honest or not) and stream closure,
    and every store content at every store call (each [Tick] carries its own replica, so a
    concurrent prune / delete / insert between any two store calls is covered).

    Also here, because every LogSync proof file rests on them: [move], the step function by cases,
    and the facts about [sent]. *)
From Coq Require Import List NArith.
From PV Require Import Model.Dedup Model.LogSync.
Import ListNotations.

(** Every step of the repaired code is one of these moves: one constructor per branch of [tick],
    [recv] and [closed].  A tick does nothing only where [tick_enabled] is false, and never fails; a
    message is ignored only where the code does not read ([can_recv]).  Where a message or a
    closed stream is fatal is left open: nothing proved by cases on a move depends on it. *)
Inductive move : st -> input -> st -> list output -> Prop :=
| MIdle s i :
    (forall r, i = Tick r -> tick_enabled true s = false) ->
    (forall m, i = Recv m -> can_recv s = false) -> move s i s []
| MFail s i e : (forall r, i <> Tick r) -> move s i (failed s) [Fail e]
| MStart r logs dr ds d :
    move (mkst (PStart logs) dr ds d) (Tick r) (mkst (PSendHave logs []) dr ds d) []
| MHeights r al todo acc dr ds d :
    move (mkst (PSendHave (al :: todo) acc) dr ds d) (Tick r)
         (mkst (PSendHave todo (match log_heights r (fst al) (snd al) with
                                | None => acc
                                | Some h => acc ++ [(fst al, h)]
                                end)) dr ds d) []
| MHave r acc dr ds d :
    move (mkst (PSendHave [] acc) dr ds d) (Tick r) (mkst (PReceiveHave acc) dr ds d) [Send (Have acc)]
| MSize r needs alr todo ops bytes dr ds d :
    move (mkst (PSendPreSync needs (alr :: todo) ops bytes) dr ds d) (Tick r)
         (mkst (PSendPreSync needs todo
                  (ops + fst (log_size r (fst (fst alr)) (snd (fst alr)) (snd alr)))
                  (bytes + snd (log_size r (fst (fst alr)) (snd (fst alr)) (snd alr)))) dr ds d) []
| MPreSync r needs ops bytes dr ds d :
    N.ltb 0 bytes = true ->
    move (mkst (PSendPreSync needs [] ops bytes) dr ds d) (Tick r)
         (mkst (PReceivePreSyncOrDone needs ops bytes) dr ds d) [Send (PreSync ops bytes)]
| MNothing r needs ops bytes dr ds d :
    N.ltb 0 bytes = false ->
    move (mkst (PSendPreSync needs [] ops bytes) dr ds d) (Tick r)
         (mkst (PReceivePreSyncOrDone needs ops bytes) dr true d) [Send Done]
| MArm r alr rest dr d :
    move (mkst (PSync (alr :: rest) None) dr false d) (Tick r) (mkst (PSync rest (Some alr)) dr false d) []
| MEnd r rest d :
    move (mkst (PSync rest None) true true d) (Tick r) (mkst PEnd true true d) []
| MRange r rest a lr more dr ds d :
    move (mkst (PSync rest (Some (a, lr :: more))) dr ds d) (Tick r)
         (mkst (PSync rest (Some (a, more))) dr ds (dd_insert_all d (log_entries r a (fst lr) (snd lr))))
         (op_msgs a (fst lr) (log_entries r a (fst lr) (snd lr)))
| MNext r alr rest a dr ds d :
    move (mkst (PSync (alr :: rest) (Some (a, []))) dr ds d) (Tick r)
         (mkst (PSync (alr :: rest) None) dr ds d) []
| MDone r a dr ds d :
    move (mkst (PSync [] (Some (a, []))) dr ds d) (Tick r) (mkst (PSync [] None) dr true d) [Send Done]
| MGotHave local h dr ds d :
    move (mkst (PReceiveHave local) dr ds d) (Recv (Have h))
         (mkst (PSendPreSync (compare local h) (flat_needs (compare local h)) 0 0) dr ds d) []
| MGotPreSync needs ops bytes io ib dr ds d :
    move (mkst (PReceivePreSyncOrDone needs ops bytes) dr ds d) (Recv (PreSync io ib))
         (mkst (PSync needs None) dr ds d) [Event (EvMetrics ops bytes io ib)]
| MGotNothing needs ops bytes dr ds d :
    move (mkst (PReceivePreSyncOrDone needs ops bytes) dr ds d) (Recv Done)
         (mkst (PSync needs None) true ds d) [Event (EvMetrics ops bytes 0 0)]
| MGotOp rest a l w ds d :
    move (mkst (PSync rest None) false ds d) (Recv (Operation a l w))
         (mkst (PSync rest None) false ds (fst (insert d (r_id w))))
         (if snd (insert d (r_id w)) then [Event (EvOp a l w)] else [])
| MGotDone rest ds d :
    move (mkst (PSync rest None) false ds d) (Recv Done) (mkst (PSync rest None) true ds d) [].

Lemma step_move s i : move s i (fst (step true s i)) (snd (step true s i)).
Proof.
  destruct s as [p dr ds d], i as [r|m|]; cbn [step].
  - unfold tick. cbn [ph done_recv done_sent dd].
    destruct p as [logs|todo acc|local|needs todo ops bytes|needs ops bytes|rest cur| |];
      try (apply MIdle; [reflexivity|discriminate]).
    + apply MStart.
    + destruct todo; constructor.
    + destruct todo; [destruct (N.ltb 0 bytes) eqn:B|]; constructor; exact B.
    + destruct cur as [[a [|lr more]]|].
      * destruct rest; constructor.
      * apply MRange.
      * (* the select!: the send arm is on iff there is an author left and Done is not yet sent *)
        destruct rest as [|alr rest], dr, ds; constructor; (reflexivity || discriminate).
  - unfold recv. cbn [ph done_recv done_sent dd].
    destruct p as [logs|todo acc|local|needs todo ops bytes|needs ops bytes|rest cur| |];
      try (apply MIdle; [discriminate|reflexivity]).
    + destruct m; constructor; discriminate.
    + destruct m; constructor; discriminate.
    + destruct cur; [apply MIdle; [discriminate|reflexivity]|].
      destruct dr; [apply MIdle; [discriminate|reflexivity]|]. destruct m; constructor; discriminate.
  - unfold closed. cbn [ph]. destruct p; constructor; discriminate.
Qed.

Definition is_op (m : msg) : Prop := exists a l w, m = Operation a l w.

Lemma gram_snoc ms m : gram (ms ++ [m]) = gstep (gram ms) m.
Proof. unfold gram. rewrite fold_left_app. reflexivity. Qed.

Lemma fold_gstep_bad ms : fold_left gstep ms GBad = GBad.
Proof. induction ms as [|m ms IH]; [reflexivity|]. simpl. exact IH. Qed.

Lemma fold_gstep_G3 ms : ms <> [] -> fold_left gstep ms G3 = GBad.
Proof. destruct ms as [|m ms]; [congruence|]. intros _. simpl. destruct m; apply fold_gstep_bad. Qed.

Lemma fold_gstep_ops ms : Forall is_op ms -> fold_left gstep ms G2 = G2.
Proof. induction 1 as [|m ms [a [l [w ->]]] _ IH]; [reflexivity|]. simpl. exact IH. Qed.

Definition complete_word (ms : list msg) : Prop :=
  (exists h, ms = [Have h; Done]) \/
  (exists h o b ops, ms = Have h :: PreSync o b :: ops ++ [Done] /\ Forall is_op ops).

Lemma gram_shape ms :
  match gram ms with
  | G0 => ms = []
  | G1 => exists h, ms = [Have h]
  | G2 => exists h o b ops, ms = Have h :: PreSync o b :: ops /\ Forall is_op ops
  | G3 => complete_word ms
  | GBad => True
  end.
Proof.
  induction ms as [|m ms IH] using rev_ind; [reflexivity|].
  rewrite gram_snoc. destruct (gram ms) eqn:G; cbn [gstep].
  - subst ms. destruct m; cbn; eauto.
  - destruct IH as [h ->]. destruct m; cbn; try exact I.
    + exists h, ops, bytes, []. split; [reflexivity|constructor].
    + left. eauto.
  - destruct IH as [h [o [b [ops [-> F]]]]]. destruct m; cbn; try exact I.
    + exists h, o, b, (ops ++ [Operation a l w]). split; [reflexivity|].
      apply Forall_app. split; [exact F|]. constructor; [|constructor]. repeat eexists.
    + right. exists h, o, b, ops. split; [reflexivity|exact F].
  - destruct m; exact I.
  - destruct m; exact I.
Qed.

Lemma gram_complete ms : gram ms = G3 -> complete_word ms.
Proof. intros G. pose proof (gram_shape ms) as S. rewrite G in S. exact S. Qed.

Lemma complete_gram ms : complete_word ms -> gram ms = G3.
Proof.
  intros [[h ->]|[h [o [b [ops [-> F]]]]]]; [reflexivity|].
  unfold gram. cbn [fold_left gstep]. rewrite fold_left_app, (fold_gstep_ops ops F). reflexivity.
Qed.

Lemma gram_nothing_after_done ms1 ms2 : gram (ms1 ++ Done :: ms2) <> GBad -> ms2 = [].
Proof.
  unfold gram. rewrite fold_left_app. cbn [fold_left].
  destruct ms2 as [|m ms2]; [reflexivity|]. intros H. exfalso. apply H.
  destruct (fold_left gstep ms1 G0); cbn [gstep];
    try apply fold_gstep_bad; apply fold_gstep_G3; discriminate.
Qed.

(** The recogniser state as a function of phase and [done_sent].  Nothing about [rest]: the end
    is reached with ranges never sent ([MEnd], any [rest]) when Done went out in place of PreSync
    because a prune had emptied them -- that the send arm stays off then is the repair. *)
Definition ginv (s : st) (g : gst) : Prop :=
  match ph s with
  | PStart _ | PSendHave _ _ => g = G0 /\ done_sent s = false
  | PReceiveHave _ | PSendPreSync _ _ _ _ => g = G1 /\ done_sent s = false
  | PReceivePreSyncOrDone _ _ _ | PSync _ None => g = if done_sent s then G3 else G2
  | PSync _ (Some _) => g = G2 /\ done_sent s = false
  | PEnd => g = G3
  | PFailed => g <> GBad
  end.

Lemma ginv_not_bad s g : ginv s g -> g <> GBad.
Proof.
  unfold ginv. intros H E. subst g.
  destruct (ph s) as [| | | | |? [?|]| |]; try (destruct H; discriminate);
    try (destruct (done_sent s); discriminate).
  apply H. reflexivity.
Qed.

Lemma sent_app o1 o2 : sent (o1 ++ o2) = sent o1 ++ sent o2.
Proof.
  induction o1 as [|o o1 IH]; [reflexivity|]. destruct o; cbn [app sent]; rewrite IH; reflexivity.
Qed.

Lemma sent_op_msgs a l ws : sent (op_msgs a l ws) = map (fun w => Operation a l w) ws.
Proof. induction ws as [|w ws IH]; [reflexivity|]. cbn. rewrite <- IH. reflexivity. Qed.

Lemma ops_are_ops a l ws : Forall is_op (map (fun w => Operation a l w) ws).
Proof. induction ws; constructor; [repeat eexists|assumption]. Qed.

Lemma move_ginv s i s' o g : move s i s' o -> ginv s g -> ginv s' (fold_left gstep (sent o) g).
Proof.
  intros M H. pose proof (ginv_not_bad s g H) as NB.
  destruct M; unfold ginv in *; cbn in *; try exact H.
  - (* MFail *) exact NB.
  - (* MHave *) destruct H as [-> ->]. split; reflexivity.
  - (* MPreSync *) destruct H as [-> ->]. reflexivity.
  - (* MNothing *) destruct H as [-> _]. reflexivity.
  - (* MArm *) split; [exact H|reflexivity].
  - (* MRange *) destruct H as [-> ->]. rewrite sent_op_msgs. split; [|reflexivity].
    apply fold_gstep_ops, ops_are_ops.
  - (* MNext *) destruct H as [-> ->]. reflexivity.
  - (* MDone *) destruct H as [-> _]. reflexivity.
  - (* MGotOp *) destruct (snd (insert d (r_id w))); exact H.
Qed.

Lemma run_ginv ins : forall s g,
  ginv s g -> ginv (fst (run true s ins)) (fold_left gstep (sent (snd (run true s ins))) g).
Proof.
  induction ins as [|i ins IH]; intros s g H; [exact H|].
  cbn [run fst snd]. rewrite sent_app, fold_left_app. apply IH.
  apply (move_ginv s i), H. apply step_move.
Qed.

Lemma run_init_ginv logs cap ins :
  ginv (fst (run true (init logs cap) ins)) (gram (sent (snd (run true (init logs cap) ins)))).
Proof. apply (run_ginv ins (init logs cap) G0). split; reflexivity. Qed.

(** For every input sequence the messages sent so far are a prefix of a word of
    [Have . (Done | PreSync . Operation* . Done)] ... *)
Theorem message_grammar (logs : list (N * list N)) (cap : nat) (ins : list input) :
  gram (sent (snd (run true (init logs cap) ins))) <> GBad.
Proof. exact (ginv_not_bad _ _ (run_init_ginv logs cap ins)). Qed.

(** ... and a complete word once the session reached its end. *)
Theorem message_grammar_complete (logs : list (N * list N)) (cap : nat) (ins : list input) :
  ph (fst (run true (init logs cap) ins)) = PEnd ->
  complete_word (sent (snd (run true (init logs cap) ins))).
Proof.
  intros E. apply gram_complete. pose proof (run_init_ginv logs cap ins) as H.
  unfold ginv in H. rewrite E in H. exact H.
Qed.

Theorem nothing_after_done (logs : list (N * list N)) (cap : nat) (ins : list input) ms1 ms2 :
  sent (snd (run true (init logs cap) ins)) = ms1 ++ Done :: ms2 -> ms2 = [].
Proof.
  intros E. apply (gram_nothing_after_done ms1). rewrite <- E. apply message_grammar.
Qed.

(** Non-vacuity: a run with a concurrent prune between the heights and the sizes query that
    reaches [PEnd] and sends [Have . Done]; and one without store changes sending operations. *)
Definition ex_r : replica := [((0, 0), [mkrow 0 100 500; mkrow 1 101 500])]%N.
Definition ex_logs : list (N * list N) := [(0, [0])]%N.
Definition ex_ins_pruned : list input :=
  [Tick ex_r; Tick ex_r; Tick ex_r; Recv (Have []); Tick []; Tick []; Recv Done; Tick []; Tick []; Tick []].
Definition ex_ins_static : list input :=
  [Tick ex_r; Tick ex_r; Tick ex_r; Recv (Have []); Tick ex_r; Tick ex_r; Recv Done; Tick ex_r; Tick ex_r;
   Tick ex_r; Tick ex_r].

Example message_grammar_example :
  ph (fst (run true (init ex_logs 8) ex_ins_pruned)) = PEnd /\
  sent (snd (run true (init ex_logs 8) ex_ins_pruned)) = [Have [(0, [(0, 1)])]; Done]%N /\
  ph (fst (run true (init ex_logs 8) ex_ins_static)) = PEnd /\
  length (sent (snd (run true (init ex_logs 8) ex_ins_static))) = 5.
Proof. vm_compute. repeat split. Qed.

(** The code as found (no precondition on the send arm) violates the grammar on exactly this
    input: the peer receives [Have . Done . Done]. *)
Lemma unrepaired_refuted :
  exists logs cap ins,
    sent (snd (run false (init logs cap) ins)) = [Have [(0, [(0, 1)])]; Done; Done]%N /\
    gram (sent (snd (run false (init logs cap) ins))) = GBad.
Proof. exists ex_logs, 8, ex_ins_pruned. vm_compute. split; reflexivity. Qed.
