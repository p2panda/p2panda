(** C31, second part: [apply_action] respects extensional equality of states; the states stored
    by [run] satisfy a fixpoint equation over the causal history; hence two causal processing
    orders of one operation set store the same state for every operation. *)
From Coq Require Import List NArith Bool Permutation.
From PV Require Import Lib.AListC31 Model.GroupCrdt Proofs.GroupCrdt.
Import ListNotations.

Lemma gset_cong k v s s' : geq s s' -> geq (gset k v s) (gset k v s').
Proof. intros E k'. rewrite !glookup_gset, (E k'). reflexivity. Qed.

Lemma gnc_gset k v s : gnc s -> mnc v -> gnc (gset k v s).
Proof.
  intros H Hv k' v'. rewrite glookup_gset. destruct (key_eqb k' k).
  - intros [= <-]. exact Hv.
  - apply H.
Qed.

Lemma glookup_clear k g s :
  glookup k (clear_group g s) = if N.eqb (fst k) g then None else glookup k s.
Proof.
  unfold clear_group, glookup.
  rewrite (lookup_filter_key key_eqb key_eqb_spec (fun k0 => negb (N.eqb (fst k0) g))).
  destruct (N.eqb (fst k) g); reflexivity.
Qed.

Lemma wf_clear g s : wf s -> wf (clear_group g s).
Proof. apply wf_filter. Qed.

Lemma clear_cong g s s' : geq s s' -> geq (clear_group g s) (clear_group g s').
Proof. intros E k. rewrite !glookup_clear, (E k). reflexivity. Qed.

Lemma gnc_clear g s : gnc s -> gnc (clear_group g s).
Proof.
  intros H k v. rewrite glookup_clear. destruct (N.eqb (fst k) g); [discriminate|apply H].
Qed.

Lemma actor_manages_cong s s' g a : geq s s' -> actor_manages s g a = actor_manages s' g a.
Proof. intros E. unfold actor_manages. rewrite (E (g, a)). reflexivity. Qed.

Definition oeq (a b : option gstate) : Prop :=
  match a, b with
  | Some x, Some y => geq x y
  | None, None => True
  | _, _ => False
  end.

Lemma oeq_refl a : oeq a a.
Proof. destruct a; cbn; [apply geq_refl|exact I]. Qed.

Definition verdict (f : option gstate) (s : gstate) : gstate * result :=
  match f with Some x => (x, ROk) | None => (s, RErr) end.

(** [apply_action] and the state.rs functions below it read the state only through [glookup] and
    change it only through [gset] and [clear_group].  So they take [Q]-related states to
    [Q]-related states, with the same verdict, for every relation [Q] that implies equal lookups
    and that [gset] (of a value whose access satisfies [A]) and [clear_group] preserve.  [A] is what
    the accesses in the state and in the operation are known to satisfy. *)
Section Preserved.
  Variable A : access -> Prop.
  Variable Q : gstate -> gstate -> Prop.
  Hypothesis Q_geq : forall s s', Q s s' -> geq s s'.
  Hypothesis Q_get : forall s s' k v, Q s s' -> glookup k s = Some v -> A (acc v).
  Hypothesis Q_set : forall s s' k v, Q s s' -> A (acc v) -> Q (gset k v s) (gset k v s').
  Hypothesis Q_clear : forall s s' g, Q s s' -> Q (clear_group g s) (clear_group g s').

  Definition oQ (a b : option gstate) : Prop :=
    match a, b with
    | Some x, Some y => Q x y
    | None, None => True
    | _, _ => False
    end.

  Lemma st_create_Q g init s s' :
    Forall (fun e => A (snd e)) init -> Q s s' -> Q (st_create g init s) (st_create g init s').
  Proof.
    intros Hi H. unfold st_create. apply (Q_clear _ _ g) in H. revert H.
    generalize (clear_group g s) (clear_group g s').
    induction Hi as [|e r He _ IH]; intros t t' H; cbn [fold_left]; [exact H|].
    apply IH. apply Q_set; [exact H|exact He].
  Qed.

  Lemma st_add_Q s s' g ad m a : Q s s' -> A a -> oQ (st_add s g ad m a) (st_add s' g ad m a).
  Proof.
    intros H Ha. pose proof (Q_geq _ _ H) as E. unfold st_add.
    rewrite <- (actor_manages_cong s s' g ad E), <- (E (g, m)).
    destruct (negb (actor_manages s g ad)); [exact I|].
    destruct (glookup (g, m) s) as [v|]; [destruct (is_member v); [exact I|]|];
      apply Q_set; assumption.
  Qed.

  Lemma st_remove_Q s s' g r m : Q s s' -> oQ (st_remove s g r m) (st_remove s' g r m).
  Proof.
    intros H. pose proof (Q_geq _ _ H) as E. unfold st_remove. rewrite <- (E (g, r)), <- (E (g, m)).
    destruct (glookup (g, r) s) as [vr|]; [|exact I].
    destruct (negb (is_member vr)); [exact I|].
    destruct (negb (is_manager vr) && negb (member_eqb r m)); [exact I|].
    destruct (glookup (g, m) s) as [v|] eqn:Ev; [|exact I].
    destruct (negb (is_member v)); [exact I|].
    apply Q_set; [exact H|]. exact (Q_get _ _ _ _ H Ev).
  Qed.

  Lemma st_modify_Q s s' g p m a : Q s s' -> A a -> oQ (st_modify s g p m a) (st_modify s' g p m a).
  Proof.
    intros H Ha. pose proof (Q_geq _ _ H) as E. unfold st_modify.
    rewrite <- (actor_manages_cong s s' g p E), <- (E (g, m)).
    destruct (negb (actor_manages s g p)); [exact I|].
    destruct (glookup (g, m) s) as [v|]; [|exact I].
    destruct (negb (is_member v)); [exact I|].
    destruct (acc_eqb (acc v) a); [exact H|apply Q_set; assumption].
  Qed.

  (** [promote] and [demote]: a no-op that still checks the actor, or [modify]. *)
  Lemma noop_or_modify_Q s s' g p m a (noop : mstate -> bool) :
    Q s s' -> A a ->
    oQ (match glookup (g, m) s with
        | Some v => if noop v then (if actor_manages s g p then Some s else None)
                    else st_modify s g p m a
        | None => None
        end)
       (match glookup (g, m) s' with
        | Some v => if noop v then (if actor_manages s' g p then Some s' else None)
                    else st_modify s' g p m a
        | None => None
        end).
  Proof.
    intros H Ha. pose proof (Q_geq _ _ H) as E.
    rewrite <- (E (g, m)), <- (actor_manages_cong s s' g p E).
    destruct (glookup (g, m) s) as [v|]; [|exact I].
    destruct (noop v); [destruct (actor_manages s g p); [exact H|exact I]|apply st_modify_Q; assumption].
  Qed.

  Lemma st_promote_Q s s' g p m a : Q s s' -> A a -> oQ (st_promote s g p m a) (st_promote s' g p m a).
  Proof. exact (noop_or_modify_Q s s' g p m a is_manager). Qed.

  Lemma st_demote_Q s s' g p m a : Q s s' -> A a -> oQ (st_demote s g p m a) (st_demote s' g p m a).
  Proof. exact (noop_or_modify_Q s s' g p m a (fun v => is_pull (acc v))). Qed.

  Definition op_all (o : op) : Prop :=
    match act o with
    | Create init => Forall (fun e => A (snd e)) init
    | Add _ a | Promote _ a | Demote _ a => A a
    | Remove _ => True
    end.

  Lemma verdict_Q f f' s s' :
    oQ f f' -> Q s s' ->
    Q (fst (verdict f s)) (fst (verdict f' s')) /\ snd (verdict f s) = snd (verdict f' s').
  Proof. intros Hf Hs. destruct f, f'; try destruct Hf; split; auto. Qed.

  Theorem apply_Q s s' o i :
    Q s s' -> op_all o ->
    Q (fst (apply_action s o i)) (fst (apply_action s' o i)) /\
    snd (apply_action s o i) = snd (apply_action s' o i).
  Proof.
    intros H Ho. unfold op_all in Ho. unfold apply_action. destruct i.
    - split; [|reflexivity]. cbn [fst]. destruct (act o); try exact H. apply Q_clear; exact H.
    - destruct (act o) as [init|m a|m|m a|m a].
      + split; [|reflexivity]. apply st_create_Q; assumption.
      + apply verdict_Q; [apply st_add_Q|]; assumption.
      + apply verdict_Q; [apply st_remove_Q|]; assumption.
      + apply verdict_Q; [apply st_promote_Q|]; assumption.
      + apply verdict_Q; [apply st_demote_Q|]; assumption.
  Qed.
End Preserved.

(** [op_all nc]. *)
Definition op_nc (o : op) : Prop :=
  match act o with
  | Create init => Forall (fun e => nc (snd e)) init
  | Add _ a | Promote _ a | Demote _ a => nc a
  | Remove _ => True
  end.

Lemma apply_cong s s' o i :
  geq s s' ->
  geq (fst (apply_action s o i)) (fst (apply_action s' o i)) /\
  snd (apply_action s o i) = snd (apply_action s' o i).
Proof.
  intros E. apply (apply_Q (fun _ => True) geq); auto using gset_cong, clear_cong.
  unfold op_all. destruct (act o); try exact I. apply Forall_forall. intros e _. exact I.
Qed.

Definition ok (s : gstate) : Prop := wf s /\ gnc s.

(** An invariant is the relation "equal, and both satisfy it". *)
Lemma apply_ok s o i : op_nc o -> ok s -> ok (fst (apply_action s o i)).
Proof.
  intros Ho H.
  refine (proj2 (proj1 (apply_Q nc (fun s s' => s = s' /\ ok s) _ _ _ _ s s o i (conj eq_refl H) Ho))).
  - intros s0 s' [<- _]. apply geq_refl.
  - intros s0 s' k v [_ [_ G]] Hk. exact (G k v Hk).
  - intros s0 s' k v [<- [W G]] Hv. split; [reflexivity|]. split; [apply wf_gset|apply gnc_gset]; assumption.
  - intros s0 s' g [<- [W G]]. split; [reflexivity|]. split; [apply wf_clear|apply gnc_clear]; assumption.
Qed.

Definition ids (l : list op) : list N := map oid l.

Lemma ids_snoc l x : ids (l ++ [x]) = ids l ++ [oid x].
Proof. unfold ids. rewrite map_app. reflexivity. Qed.

Definition causal (l : list op) : Prop :=
  forall pre o post, l = pre ++ o :: post -> incl (deps o) (ids pre).

Lemma causal_snoc l x : causal (l ++ [x]) -> causal l /\ incl (deps x) (ids l).
Proof.
  intros H. split.
  - intros pre o post E. apply (H pre o (post ++ [x])). rewrite E, <- app_assoc. reflexivity.
  - apply (H l x []). reflexivity.
Qed.

Lemma causal_deps_in l o : causal l -> In o l -> incl (deps o) (ids l).
Proof.
  intros C Hin. destruct (in_split _ _ Hin) as [pre [post E]].
  intros d Hd. specialize (C pre o post E d Hd). rewrite E. unfold ids in *. rewrite map_app, in_app_iff. left. exact C.
Qed.

Lemma nodup_snoc l x : NoDup (ids (l ++ [x])) -> NoDup (ids l) /\ ~ In (oid x) (ids l).
Proof.
  rewrite ids_snoc. intros H. apply NoDup_remove in H. rewrite app_nil_r in H. exact H.
Qed.

Lemma in_ids_neq l x o : ~ In (oid x) (ids l) -> In o l -> oid o <> oid x.
Proof. intros Hx Ho E. apply Hx. rewrite <- E. apply in_map. exact Ho. Qed.

Definition is_some {A} (o : option A) : bool := match o with Some _ => true | None => false end.
Definition unwrap (S : sts) (d : N) : gstate := match sget d S with Some s => s | None => [] end.

(** [unwrap]'s default is never looked at: the list is used only where every id has a state. *)
Lemma dep_states_char S ds :
  dep_states S ds =
  if forallb (fun d => is_some (sget d S)) ds then Some (map (unwrap S) ds) else None.
Proof.
  induction ds as [|d r IH]; cbn [dep_states forallb map]; [reflexivity|].
  rewrite IH. unfold unwrap. destruct (sget d S); cbn [is_some andb]; [|reflexivity].
  destruct (forallb (fun d0 => is_some (sget d0 S)) r); reflexivity.
Qed.

Lemma state_at_ext S S' ds :
  (forall d, In d ds -> sget d S = sget d S') -> state_at S ds = state_at S' ds.
Proof.
  intros H. unfold state_at. f_equal.
  induction ds as [|d r IH]; cbn [dep_states]; [reflexivity|].
  rewrite (H d) by (left; reflexivity). rewrite IH; [reflexivity|].
  intros d' Hd. apply H. right. exact Hd.
Qed.

(** The equation every stored state satisfies: what [step] records for [o] on a replica whose
    stored states are [S], if it accepts [o]. *)
Definition recorded (o : op) (S : sts) : option gstate :=
  if manager_group o then None else
  match state_at S (deps o) with
  | None => None
  | Some s => match apply_action s o false with
              | (s', ROk) => Some s'
              | _ => None
              end
  end.

Lemma recorded_ext o S S' : (forall d, In d (deps o) -> sget d S = sget d S') -> recorded o S = recorded o S'.
Proof. intros H. unfold recorded. rewrite (state_at_ext S S' (deps o) H). reflexivity. Qed.

Lemma sget_cons i j s S : sget i ((j, s) :: S) = if N.eqb i j then Some s else sget i S.
Proof. reflexivity. Qed.

Lemma step_eq y o :
  step y o = match sget (oid o) (r_sts y) with
             | Some _ => y
             | None => match recorded o (r_sts y) with
                       | Some s' => {| r_ops := r_ops y ++ [o]; r_sts := (oid o, s') :: r_sts y |}
                       | None => y
                       end
             end.
Proof.
  unfold step, recorded. destruct (sget (oid o) (r_sts y)); [reflexivity|].
  destruct (manager_group o); [reflexivity|].
  destruct (state_at (r_sts y) (deps o)) as [s|]; [|reflexivity].
  destruct (apply_action s o false) as [s' [| |]]; reflexivity.
Qed.

Lemma sget_step y o i :
  sget i (r_sts (step y o)) =
  if N.eqb i (oid o)
  then match sget i (r_sts y) with Some s => Some s | None => recorded o (r_sts y) end
  else sget i (r_sts y).
Proof.
  rewrite step_eq. destruct (N.eqb_spec i (oid o)) as [->|Hne].
  - destruct (sget (oid o) (r_sts y)) eqn:E; [exact E|].
    destruct (recorded o (r_sts y)); [|exact E]. cbn [r_sts]. rewrite sget_cons, N.eqb_refl. reflexivity.
  - destruct (sget (oid o) (r_sts y)); [reflexivity|].
    destruct (recorded o (r_sts y)); [|reflexivity]. cbn [r_sts]. rewrite sget_cons.
    destruct (N.eqb_spec i (oid o)); [contradiction|reflexivity].
Qed.

Lemma sget_step_other y o i : i <> oid o -> sget i (r_sts (step y o)) = sget i (r_sts y).
Proof. intros Hne. rewrite sget_step. destruct (N.eqb_spec i (oid o)); [contradiction|reflexivity]. Qed.

Lemma sget_step_new y o :
  sget (oid o) (r_sts y) = None -> sget (oid o) (r_sts (step y o)) = recorded o (r_sts y).
Proof. intros E. rewrite sget_step, N.eqb_refl, E. reflexivity. Qed.

Lemma run_snoc l x : run (l ++ [x]) = step (run l) x.
Proof. unfold run. rewrite fold_left_app. reflexivity. Qed.

Lemma run_fresh l i : ~ In i (ids l) -> sget i (r_sts (run l)) = None.
Proof.
  induction l as [|x l IH] using rev_ind; [reflexivity|].
  rewrite run_snoc, sget_step, ids_snoc. intros H.
  destruct (N.eqb_spec i (oid x)) as [->|_].
  - destruct H. apply in_or_app. right. left. reflexivity.
  - apply IH. intros Hi. apply H. apply in_or_app. left. exact Hi.
Qed.

Theorem run_fix l :
  NoDup (ids l) -> causal l ->
  forall o, In o l -> sget (oid o) (r_sts (run l)) = recorded o (r_sts (run l)).
Proof.
  induction l as [|x l IH] using rev_ind; intros ND C o Hin; [contradiction|].
  apply nodup_snoc in ND. destruct ND as [ND Hx].
  apply causal_snoc in C. destruct C as [C Dx].
  rewrite run_snoc.
  assert (Hget : forall o0, incl (deps o0) (ids l) ->
                 recorded o0 (r_sts (step (run l) x)) = recorded o0 (r_sts (run l))).
  { intros o0 Hd. apply recorded_ext. intros d Hdd. apply sget_step_other.
    intros ->. exact (Hx (Hd _ Hdd)). }
  apply in_app_or in Hin. destruct Hin as [Hin|[<-|[]]].
  - rewrite (sget_step_other _ _ _ (in_ids_neq l x o Hx Hin)), (IH ND C o Hin).
    symmetry. apply Hget. apply causal_deps_in; assumption.
  - rewrite (sget_step_new _ _ (run_fresh l _ Hx)). symmetry. apply Hget. exact Dx.
Qed.

Lemma r_ops_filter l :
  NoDup (ids l) ->
  r_ops (run l) = filter (fun o => is_some (sget (oid o) (r_sts (run l)))) l.
Proof.
  induction l as [|x l IH] using rev_ind; intros ND; [reflexivity|].
  apply nodup_snoc in ND. destruct ND as [ND Hx]. pose proof (run_fresh l _ Hx) as Ex.
  rewrite run_snoc, filter_app.
  rewrite (filter_ext_in _ (fun o => is_some (sget (oid o) (r_sts (run l)))) l).
  - rewrite <- (IH ND). cbn [filter]. rewrite (sget_step_new _ _ Ex), step_eq, Ex.
    destruct (recorded x (r_sts (run l))); [reflexivity|apply app_nil_end].
  - intros o Ho. rewrite (sget_step_other _ _ _ (in_ids_neq l x o Hx Ho)). reflexivity.
Qed.

Definition ok_sts (S : sts) : Prop := forall d s, sget d S = Some s -> ok s.

Lemma unwrap_ok S ds : ok_sts S -> Forall wf (map (unwrap S) ds) /\ Forall gnc (map (unwrap S) ds).
Proof.
  intros H. split; apply Forall_map; apply Forall_forall; intros d _; unfold unwrap;
    destruct (sget d S) as [s|] eqn:E; try (apply (H d s E)); [apply wf_nil|apply gnc_nil].
Qed.

Lemma state_at_ok S ds s : ok_sts S -> state_at S ds = Some s -> ok s.
Proof.
  intros H. unfold state_at. rewrite dep_states_char.
  destruct (forallb (fun d => is_some (sget d S)) ds); [|discriminate].
  intros [= <-]. destruct (unwrap_ok S ds H) as [W G].
  split; [apply wf_merge_list|apply gnc_merge_list; assumption].
Qed.

Lemma recorded_ok o S s' : op_nc o -> ok_sts S -> recorded o S = Some s' -> ok s'.
Proof.
  intros Ho H. unfold recorded. destruct (manager_group o); [discriminate|].
  destruct (state_at S (deps o)) as [s|] eqn:E; [|discriminate].
  pose proof (apply_ok s o false Ho (state_at_ok S (deps o) s H E)) as H'.
  destruct (apply_action s o false) as [s1 [| |]]; try discriminate. intros [= <-]. exact H'.
Qed.

Lemma run_ok l : Forall op_nc l -> ok_sts (r_sts (run l)).
Proof.
  induction l as [|x l IH] using rev_ind; intros Hn; [intros d s [=]|].
  apply Forall_app in Hn. destruct Hn as [Hn Hx]. apply Forall_inv in Hx. specialize (IH Hn).
  intros d s. rewrite run_snoc, sget_step. destruct (N.eqb d (oid x)); [|apply IH].
  destruct (sget d (r_sts (run l))) as [s0|] eqn:E.
  - intros [= <-]. exact (IH d s0 E).
  - apply recorded_ok; assumption.
Qed.

(** The same operation on two replicas.  Its dependencies are a HashSet in the Rust code, so the
    order in which [state_at] meets them is a parameter: the lists agree up to a permutation. *)
Definition op_sim (o o' : op) : Prop :=
  oid o = oid o' /\ author o = author o' /\ group o = group o' /\ act o = act o' /\
  Permutation (deps o) (deps o').

Definition same_ops (l1 l2 : list op) : Prop :=
  (forall o, In o l1 -> exists o', In o' l2 /\ op_sim o o') /\
  (forall o', In o' l2 -> exists o, In o l1 /\ op_sim o o').

Lemma op_sim_sym o o' : op_sim o o' -> op_sim o' o.
Proof. intros (A & B & C & D & E). repeat split; symmetry; assumption. Qed.

Lemma same_ops_halves l1 l2 :
  (forall o, In o l1 -> exists o', In o' l2 /\ op_sim o o') ->
  (forall o, In o l2 -> exists o', In o' l1 /\ op_sim o o') -> same_ops l1 l2.
Proof.
  intros H1 H2. split; [exact H1|]. intros o' Ho'. destruct (H2 o' Ho') as [o [Hi Hs]].
  exists o. split; [exact Hi|apply op_sim_sym; exact Hs].
Qed.

Lemma same_ops_sym l1 l2 : same_ops l1 l2 -> same_ops l2 l1.
Proof.
  intros [H1 H2]. apply same_ops_halves; [|exact H1]. intros o Ho.
  destruct (H2 o Ho) as [o' [Hi Hs]]. exists o'. split; [exact Hi|apply op_sim_sym; exact Hs].
Qed.

Lemma apply_action_sim s o o' : op_sim o o' -> apply_action s o false = apply_action s o' false.
Proof. intros (_ & B & C & D & _). unfold apply_action. rewrite B, C, D. reflexivity. Qed.

Lemma manager_group_sim o o' : op_sim o o' -> manager_group o = manager_group o'.
Proof. intros (_ & _ & _ & D & _). unfold manager_group. rewrite D. reflexivity. Qed.

Lemma oeq_is_some a b : oeq a b -> is_some a = is_some b.
Proof. destruct a, b; cbn; intros H; try reflexivity; contradiction. Qed.

(** First, the two sides are defined together ([Eb]); then [merge_states_perm_invariant], its
    middle list being the states of [S1] taken in the order of [ds']. *)
Lemma state_at_cong S1 S2 ds ds' :
  Permutation ds ds' ->
  (forall d, In d ds -> oeq (sget d S1) (sget d S2)) ->
  ok_sts S1 -> ok_sts S2 ->
  oeq (state_at S1 ds) (state_at S2 ds').
Proof.
  intros HP HE O1 O2. unfold state_at. rewrite !dep_states_char.
  assert (Eb : forallb (fun d => is_some (sget d S1)) ds = forallb (fun d => is_some (sget d S2)) ds').
  { apply eq_iff_eq_true. rewrite !forallb_forall. split; intros H d Hd.
    - apply (Permutation_in _ (Permutation_sym HP)) in Hd.
      rewrite <- (oeq_is_some _ _ (HE d Hd)). exact (H d Hd).
    - rewrite (oeq_is_some _ _ (HE d Hd)). exact (H d (Permutation_in _ HP Hd)). }
  rewrite <- Eb. destruct (forallb (fun d => is_some (sget d S1)) ds) eqn:Ef; cbn [option_map oeq]; [|exact I].
  destruct (unwrap_ok S1 ds O1) as [W1 G1]. destruct (unwrap_ok S2 ds' O2) as [W2 _].
  apply (merge_states_perm_invariant _ _ (map (unwrap S1) ds')); try assumption.
  - apply Permutation_map. exact HP.
  - rewrite forallb_forall in Ef.
    assert (Hall : forall d, In d ds' -> geq (unwrap S1 d) (unwrap S2 d)).
    { intros d Hd. apply (Permutation_in _ (Permutation_sym HP)) in Hd.
      specialize (HE d Hd). specialize (Ef d Hd). unfold unwrap.
      destruct (sget d S1), (sget d S2); try destruct HE; try discriminate Ef. exact HE. }
    clear -Hall. induction ds' as [|d r IH]; cbn [map]; constructor.
    + apply Hall. left; reflexivity.
    + apply IH. intros d' Hd'. apply Hall. right; exact Hd'.
Qed.

Lemma recorded_cong o o' S1 S2 :
  op_sim o o' ->
  (forall d, In d (deps o) -> oeq (sget d S1) (sget d S2)) ->
  ok_sts S1 -> ok_sts S2 ->
  oeq (recorded o S1) (recorded o' S2).
Proof.
  intros Hs HE O1 O2. unfold recorded. rewrite <- (manager_group_sim o o' Hs).
  destruct (manager_group o); [exact I|].
  pose proof (state_at_cong S1 S2 (deps o) (deps o') (proj2 (proj2 (proj2 (proj2 Hs)))) HE O1 O2) as HS.
  destruct (state_at S1 (deps o)) as [s1|], (state_at S2 (deps o')) as [s2|];
    try destruct HS; [|exact I].
  rewrite <- (apply_action_sim s2 o o' Hs).
  destruct (apply_cong s1 s2 o false HS) as [Eg Er].
  destruct (apply_action s1 o false) as [a1 r1], (apply_action s2 o false) as [a2 r2].
  cbn [fst snd] in Eg, Er. subst r2. destruct r1; [exact Eg|exact I|exact I].
Qed.

Record good (l : list op) : Prop :=
  { g_nodup : NoDup (ids l); g_causal : causal l; g_nc : Forall op_nc l }.

Lemma same_ops_ids l1 l2 i : same_ops l1 l2 -> In i (ids l1) -> In i (ids l2).
Proof.
  intros [H _] Hi. unfold ids in *. apply in_map_iff in Hi. destruct Hi as [o [E Ho]].
  destruct (H o Ho) as [o' [Ho' Hs]]. apply in_map_iff. exists o'. split; [|exact Ho'].
  rewrite <- E. symmetry. apply Hs.
Qed.

(** The state recorded for an operation depends only on the operation's causal past: if two
    histories hold the same operations (dependency lists possibly permuted) on a set [P] of ids
    that is closed under dependencies, they record the same states on [P]. *)
Theorem state_fn_of_past (P : N -> Prop) l1 l2 :
  good l1 -> good l2 ->
  (forall o, In o l1 -> P (oid o) ->
             (forall d, In d (deps o) -> P d) /\ exists o', In o' l2 /\ op_sim o o') ->
  forall o, In o l1 -> P (oid o) -> oeq (sget (oid o) (r_sts (run l1))) (sget (oid o) (r_sts (run l2))).
Proof.
  intros G1 G2 HP.
  pose proof (run_ok l1 (g_nc _ G1)) as O1. pose proof (run_ok l2 (g_nc _ G2)) as O2.
  (* by induction on the prefixes of [l1]: [causal] puts the dependencies of the last operation
     of a prefix inside the prefix *)
  assert (Main : forall pre post, l1 = pre ++ post -> forall o, In o pre -> P (oid o) ->
                 oeq (sget (oid o) (r_sts (run l1))) (sget (oid o) (r_sts (run l2)))).
  { induction pre as [|x pre IH] using rev_ind; intros post E o Hin Po; [contradiction|].
    rewrite <- app_assoc in E. cbn [app] in E.
    apply in_app_or in Hin. destruct Hin as [Hin|[<-|[]]]; [exact (IH _ E o Hin Po)|].
    assert (Hx1 : In x l1) by (rewrite E; apply in_or_app; right; left; reflexivity).
    destruct (HP x Hx1 Po) as [Hcl [x' [Hx2 Hsim]]].
    rewrite (run_fix l1 (g_nodup _ G1) (g_causal _ G1) x Hx1).
    rewrite (proj1 Hsim).
    rewrite (run_fix l2 (g_nodup _ G2) (g_causal _ G2) x' Hx2).
    apply recorded_cong; try assumption.
    intros d Hd. pose proof (g_causal _ G1 pre x post E d Hd) as Hdp.
    unfold ids in Hdp. apply in_map_iff in Hdp. destruct Hdp as [od [Eo Hod]].
    rewrite <- Eo. apply (IH _ E od Hod). rewrite Eo. exact (Hcl d Hd). }
  intros o Ho. apply (Main l1 []); [apply app_nil_end|exact Ho].
Qed.

(** The state recorded for an operation depends only on the operation's causal history, not on
    the order in which the replica processed the operations (nor on the order in which
    dependency sets are iterated). *)
Theorem state_fn_of_history l1 l2 :
  good l1 -> good l2 -> same_ops l1 l2 ->
  forall i, oeq (sget i (r_sts (run l1))) (sget i (r_sts (run l2))).
Proof.
  intros G1 G2 HS i. destruct (in_dec N.eq_dec i (ids l1)) as [Hi|Hi].
  - unfold ids in Hi. apply in_map_iff in Hi. destruct Hi as [o [<- Ho]].
    apply (state_fn_of_past (fun _ => True) l1 l2 G1 G2); [|exact Ho|exact I].
    intros o0 Ho0 _. split; [intros d _; exact I|exact (proj1 HS o0 Ho0)].
  - rewrite (run_fresh l1 i Hi), (run_fresh l2 i); [exact I|].
    intros Hi2. apply Hi. exact (same_ops_ids l2 l1 i (same_ops_sym _ _ HS) Hi2).
Qed.
