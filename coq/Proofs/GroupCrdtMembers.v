(** C31, third part: the members traversal ([members_inner]) does not depend on the iteration
    order of the state map when accesses carry no conditions. *)
From Coq Require Import List NArith Permutation.
From PV Require Import Lib.ListFacts Lib.AListC31 Model.GroupCrdt Proofs.GroupCrdt.
Import ListNotations.

Lemma mlookup_set m' m a l :
  mlookup m' (set member_eqb m a l) = if member_eqb m' m then Some a else mlookup m' l.
Proof. apply lookup_set. exact member_eqb_spec. Qed.

Definition amax (c a : access) : access := if acc_lt c a then a else c.

Definition upd (m : member) (cur : option access) (e : member * access) : option access :=
  if member_eqb m (fst e)
  then Some (match cur with Some c => amax c (snd e) | None => snd e end)
  else cur.

Lemma mlookup_upsert m l e : mlookup m (upsert_max l e) = upd m (mlookup m l) e.
Proof.
  unfold upsert_max, upd. destruct (mlookup (fst e) l) as [cur|] eqn:E.
  - unfold amax. destruct (acc_lt cur (snd e)) eqn:Hlt.
    + rewrite mlookup_set. destruct (member_eqb_spec m (fst e)) as [->|Hne]; [|reflexivity].
      rewrite E, Hlt. reflexivity.
    + destruct (member_eqb_spec m (fst e)) as [->|Hne]; [|reflexivity].
      rewrite E, Hlt. reflexivity.
  - rewrite mlookup_set. destruct (member_eqb_spec m (fst e)) as [->|Hne]; [|reflexivity].
    rewrite E. reflexivity.
Qed.

Lemma mlookup_fold m l : forall ms,
  mlookup m (fold_left upsert_max l ms) = fold_left (upd m) l (mlookup m ms).
Proof.
  induction l as [|e r IH]; intros ms; cbn [fold_left]; [reflexivity|].
  rewrite IH, mlookup_upsert. reflexivity.
Qed.

(** [rec] is a parameter so that two traversals can be compared entry by entry. *)
Definition contrib_of (rec : N -> option access -> list (member * access)) (root : option access)
           (e : member * access) : list (member * access) :=
  let next := clip (snd e) root in
  (fst e, next) :: (if fst (fst e) then rec (snd (fst e)) (Some next) else []).

(** The list of (member, access) pairs [members_inner] offers to the result map, in order. *)
Fixpoint contribs (fuel : nat) (cs : gstate) (g : N) (root : option access) : list (member * access) :=
  match fuel with
  | O => []
  | S f => flat_map (contrib_of (contribs f cs) root) (entries_of cs g)
  end.

Lemma minner_contribs fuel cs : forall g ms root,
  minner fuel cs g ms root = fold_left upsert_max (contribs fuel cs g root) ms.
Proof.
  induction fuel as [|f IH]; intros g ms root; cbn [minner contribs]; [reflexivity|].
  generalize (entries_of cs g) as es. intros es. revert ms.
  induction es as [|e r IHr]; intros ms; cbn [fold_left flat_map]; [reflexivity|].
  rewrite fold_left_app, IHr. f_equal.
  unfold contrib_of. cbv zeta. cbn [fold_left].
  destruct (fst (fst e)); [apply IH|reflexivity].
Qed.

Lemma amax_nc c a : nc c -> nc a -> nc (amax c a).
Proof. unfold amax. destruct (acc_lt c a); auto. Qed.

Lemma lvl_amax c a : nc c -> nc a -> lvl_n (lvl (amax c a)) = N.max (lvl_n (lvl c)) (lvl_n (lvl a)).
Proof.
  intros Hc Ha. unfold amax. rewrite acc_lt_nc by assumption.
  destruct (N.ltb_spec (lvl_n (lvl c)) (lvl_n (lvl a))) as [H|H]; symmetry;
    [apply N.max_r, N.lt_le_incl, H|apply N.max_l, H].
Qed.

Lemma amax_swap c a b : nc c -> nc a -> nc b -> amax (amax c a) b = amax (amax c b) a.
Proof.
  intros Hc Ha Hb. apply nc_eq; try (repeat apply amax_nc; assumption).
  rewrite !lvl_amax by (try apply amax_nc; assumption).
  rewrite <- !N.max_assoc, (N.max_comm (lvl_n (lvl a))). reflexivity.
Qed.

Lemma amax_comm a b : nc a -> nc b -> amax a b = amax b a.
Proof.
  intros Ha Hb. apply nc_eq; try (apply amax_nc; assumption).
  rewrite !lvl_amax by assumption. apply N.max_comm.
Qed.

Definition oanc (o : option access) : Prop := forall a, o = Some a -> nc a.

Lemma upd_oanc m c e : oanc c -> nc (snd e) -> oanc (upd m c e).
Proof.
  intros Hc He a. unfold upd. destruct (member_eqb m (fst e)); [|apply Hc].
  intros [= <-]. destruct c as [c0|]; [|exact He].
  apply amax_nc; [apply Hc; reflexivity|exact He].
Qed.

Lemma upd_swap m c e1 e2 :
  oanc c -> nc (snd e1) -> nc (snd e2) -> upd m (upd m c e1) e2 = upd m (upd m c e2) e1.
Proof.
  intros Hc H1 H2. unfold upd.
  destruct (member_eqb m (fst e1)), (member_eqb m (fst e2)); try reflexivity.
  f_equal. destruct c as [c0|].
  - apply amax_swap; [apply Hc; reflexivity|assumption|assumption].
  - apply amax_comm; assumption.
Qed.

Lemma fold_upd_perm m l l' :
  Permutation l l' -> Forall (fun e => nc (snd e)) l ->
  forall c, oanc c -> fold_left (upd m) l c = fold_left (upd m) l' c.
Proof.
  apply (fold_left_perm (upd m) oanc (fun e => nc (snd e))).
  - intros c e. apply upd_oanc.
  - intros c x y. apply upd_swap.
Qed.

Lemma entries_perm cs cs' g :
  wf cs -> wf cs' -> geq cs cs' -> Permutation (entries_of cs g) (entries_of cs' g).
Proof.
  intros W W' E. unfold entries_of. apply Permutation_map. apply perm_filter.
  apply (ext_perm key_eqb key_eqb_spec); assumption.
Qed.

Lemma entries_nc cs g : wf cs -> gnc cs -> Forall (fun e => nc (snd e)) (entries_of cs g).
Proof.
  intros W H. unfold entries_of. apply Forall_map. apply Forall_forall. intros [k v] Hin.
  apply filter_In in Hin. destruct Hin as [Hin _]. cbn [snd].
  apply (H k v). apply (in_lookup key_eqb key_eqb_spec); assumption.
Qed.

Lemma clip_nc a root : nc a -> oanc root -> nc (clip a root).
Proof.
  intros Ha Hr. unfold clip. destruct root as [r|]; [|exact Ha].
  destruct (acc_le a r); [exact Ha|apply Hr; reflexivity].
Qed.

Lemma contribs_nc fuel cs : wf cs -> gnc cs -> forall g root, oanc root ->
  Forall (fun e => nc (snd e)) (contribs fuel cs g root).
Proof.
  intros W H. induction fuel as [|f IH]; intros g root Hr; cbn [contribs]; [constructor|].
  apply Forall_forall. intros x Hx. apply in_flat_map in Hx. destruct Hx as [e [He Hx]].
  pose proof (entries_nc cs g W H) as Hen. rewrite Forall_forall in Hen. specialize (Hen e He).
  unfold contrib_of in Hx. destruct Hx as [<-|Hx].
  - cbn [snd]. apply clip_nc; assumption.
  - destruct (fst (fst e)); [|contradiction].
    assert (Hn : oanc (Some (clip (snd e) root))).
    { intros a [= <-]. apply clip_nc; assumption. }
    specialize (IH (snd (fst e)) _ Hn). rewrite Forall_forall in IH. apply IH. exact Hx.
Qed.

Lemma contribs_perm fuel cs cs' :
  wf cs -> wf cs' -> geq cs cs' ->
  forall g root, Permutation (contribs fuel cs g root) (contribs fuel cs' g root).
Proof.
  intros W W' E. induction fuel as [|f IH]; intros g root; cbn [contribs]; [constructor|].
  transitivity (flat_map (contrib_of (contribs f cs) root) (entries_of cs' g)).
  { apply Permutation_flat_map. apply entries_perm; assumption. }
  apply perm_flat_map_ext. intros e. unfold contrib_of. constructor. destruct (fst (fst e)); [apply IH|constructor].
Qed.

Lemma mlookup_filter_individuals m l :
  mlookup m (filter (fun e => negb (fst (fst e))) l) = if negb (fst m) then mlookup m l else None.
Proof.
  unfold mlookup. apply (lookup_filter_key member_eqb member_eqb_spec (fun k => negb (fst k))).
Qed.

Theorem traverse_deterministic cs cs' g :
  wf cs -> wf cs' -> gnc cs -> geq cs cs' ->
  forall m, mlookup m (traverse_cs cs g) = mlookup m (traverse_cs cs' g).
Proof.
  intros W W' H E m. unfold traverse_cs. rewrite !minner_contribs, !mlookup_fold.
  apply fold_upd_perm.
  - apply contribs_perm; assumption.
  - apply contribs_nc; try assumption. intros a Ha; discriminate.
  - intros a Ha; discriminate.
Qed.

Theorem members_query_deterministic cs cs' g :
  wf cs -> wf cs' -> gnc cs -> geq cs cs' ->
  forall m, mlookup m (members_cs cs g) = mlookup m (members_cs cs' g).
Proof.
  intros W W' H E m. unfold members_cs. rewrite !mlookup_filter_individuals.
  destruct (negb (fst m)); [|reflexivity]. apply traverse_deterministic; assumption.
Qed.

Example members_query_hyps_satisfiable :
  let a l := {| cond := None; lvl := l |} in
  let cs := [((100, (false, 0)), {| mc := 1; acc := a Manage; ac := 0 |});
             ((100, (true, 101)), {| mc := 1; acc := a Read; ac := 0 |});
             ((101, (false, 1)), {| mc := 1; acc := a Write; ac := 0 |})]%N in
  wf cs /\ wf (rev cs) /\ gnc cs /\ geq cs (rev cs) /\
  mlookup (false, 1%N) (members_cs cs 100%N) = Some (a Read).
Proof.
  intros a cs. assert (W : wf cs) by (apply wf_check; reflexivity).
  repeat split.
  - exact W.
  - apply wf_check. reflexivity.
  - apply gnc_forall. repeat constructor.
  - apply geq_rev. exact W.
Qed.
