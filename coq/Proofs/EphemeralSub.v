(** Proofs about the ephemeral subscription model (C17).

    Three facts carry the file.  One poll of the repaired code either finds nothing valid unread
    and answers as on an empty channel, or yields the first valid item ([poll_fixed_cases]).  Hence
    a scheduled task drains the channel and parks with its waker registered ([task_run_fixed]).
    And a burst of sends into the empty channel leaves the last [cap] messages ([push_all]).  A
    task parked between phases is woken by the first send of the next one, so phases and
    scenarios are equations between parked states ([parked_state]). *)
From Coq Require Import List NArith Bool Arith Lia.
From PV Require Import Lib.ListFacts Model.EphemeralSub.
Import ListNotations.

Definition no_valid (q : list item) : Prop := Forall (fun i => is_valid i = false) q.
Definition no_lagged (q : list item) : Prop := Forall (fun i => i <> Lagged) q.

Theorem valid_eventually_yielded (c : bool) (pre : list item) (v : N) (rest : list item) :
  no_valid pre ->
  poll_fixed c (pre ++ Valid v :: rest) = (Yield v, rest, false).
Proof.
  induction 1 as [|i pre Hi _ IH]; [reflexivity|].
  destruct i; [discriminate Hi| |]; exact IH.
Qed.

Example valid_eventually_yielded_nonvacuous :
  poll_fixed false ([Invalid; Lagged; Invalid] ++ Valid 7 :: [Invalid; Valid 8])
  = (Yield 7, [Invalid; Valid 8], false).
Proof. reflexivity. Qed.

Lemma poll_fixed_cases (c : bool) (q : list item) :
  (valids q = [] /\ poll_fixed c q = poll_fixed c []) \/
  (exists v q', poll_fixed c q = (Yield v, q', false) /\ valids q = v :: valids q' /\ length q' < length q).
Proof.
  induction q as [|i q IH]; [left; split; reflexivity|].
  destruct i as [v| |]; [right; exists v, q; repeat split; apply Nat.lt_succ_diag_r| |].
  (* [Invalid] and [Lagged] are skipped: the poll and [valids] go on with [q] *)
  all: destruct IH as [IH|(v & q' & E & V & L)]; [left; exact IH|right].
  all: exists v, q'; exact (conj E (conj V (Nat.lt_lt_succ_r _ _ L))).
Qed.

(** The waker contract: [Pending] is returned only with the waker registered and nothing
    unread. *)
Theorem pending_is_live (c : bool) (q q' : list item) (reg : bool) :
  poll_fixed c q = (Pending, q', reg) ->
  q' = [] /\ reg = true /\ c = false /\ valids q = [].
Proof.
  destruct (poll_fixed_cases c q) as [[V E]|(v & q'' & E & _)]; rewrite E; [|discriminate].
  cbn [poll_fixed]. destruct c; intros [= <- <-]. auto.
Qed.

(** One poll per valid item and a last one that finds nothing valid left: at most one poll more
    than there are items; [run] allows two. *)
Lemma task_run_fixed :
  forall fuel s,
    length (queue s) + 1 <= fuel -> woken s = true -> finished s = false ->
    task_run poll_fixed fuel s =
    {| queue := []; closed := closed s; registered := negb (closed s); woken := false;
       finished := closed s; out := out s ++ valids (queue s) |}.
Proof.
  induction fuel as [|f IH]; intros s Hf Hw Hn; [lia|].
  cbn [task_run]. rewrite Hw, Hn. cbn [negb orb].
  destruct (poll_fixed_cases (closed s) (queue s)) as [[V E]|(v & q' & E & V & L)]; rewrite E, V.
  - cbn [poll_fixed]. rewrite app_nil_r. destruct (closed s); reflexivity.
  - rewrite IH by (cbn [queue woken finished]; lia || reflexivity).
    cbn [queue closed out]. rewrite <- app_assoc. reflexivity.
Qed.

Lemma task_run_idle (poll : bool -> list item -> pollres) (fuel : nat) (s : task) :
  woken s = false -> task_run poll fuel s = s.
Proof. intros H. destruct fuel; [reflexivity|]. cbn [task_run]. rewrite H. reflexivity. Qed.

Lemma lastn_length {A} (n : nat) (l : list A) : length (lastn n l) = Nat.min n (length l).
Proof. unfold lastn. rewrite skipn_length. lia. Qed.

Lemma lastn_all {A} (n : nat) (l : list A) : length l <= n -> lastn n l = l.
Proof. intros H. unfold lastn. replace (length l - n) with 0 by lia. reflexivity. Qed.

Lemma lastn_snoc_full {A} (c : nat) (l : list A) (x : A) :
  1 <= c -> c <= length l -> tl (lastn c l) ++ [x] = lastn c (l ++ [x]).
Proof.
  intros Hc Hl. unfold lastn. rewrite tl_skipn, app_length. cbn [length].
  rewrite skipn_app.
  replace (length l + 1 - c) with (S (length l - c)) by lia.
  replace (S (length l - c) - length l) with 0 by lia.
  reflexivity.
Qed.

Lemma msgs_id (q : list item) : no_lagged q -> msgs q = q.
Proof.
  induction 1 as [|i q Hi _ IH]; [reflexivity|].
  unfold msgs in *. cbn [filter]. destruct i; [rewrite IH; reflexivity..|congruence].
Qed.

Lemma no_lagged_skipn (n : nat) (q : list item) : no_lagged q -> no_lagged (skipn n q).
Proof.
  intros H. unfold no_lagged in *. rewrite Forall_forall in *. intros x Hx.
  apply H. rewrite <- (firstn_skipn n q). apply in_or_app. right. exact Hx.
Qed.

Lemma push_all (cap : nat) (ms : list item) :
  1 <= cap -> no_lagged ms ->
  (length ms <= cap -> fold_left (push cap) ms [] = ms) /\
  (cap < length ms -> fold_left (push cap) ms [] = Lagged :: lastn cap ms).
Proof.
  intros Hc. induction ms as [|m ms IH] using rev_ind; intros Hn; [split; [reflexivity|intros H; inversion H]|].
  assert (Hn' : no_lagged ms) by exact (proj1 (proj1 (Forall_app _ _ _) Hn)).
  destruct (IH Hn') as [IH1 IH2]. rewrite fold_left_app, app_length. cbn [fold_left length].
  set (q := fold_left (push cap) ms []) in *.
  (* either way the channel retains the last [cap] of [ms]; the next send only looks at those *)
  assert (R : msgs q = lastn cap ms).
  { destruct (Nat.le_gt_cases (length ms) cap) as [H|H].
    - rewrite (IH1 H), (lastn_all cap ms H). exact (msgs_id ms Hn').
    - rewrite (IH2 H). exact (msgs_id _ (no_lagged_skipn _ ms Hn')). }
  unfold push. rewrite R, lastn_length.
  destruct (Nat.le_gt_cases cap (length ms)) as [H|H].
  - rewrite (Nat.min_l _ _ H), Nat.ltb_irrefl. split; [lia|intros _].
    rewrite lastn_snoc_full by assumption. reflexivity.
  - rewrite (Nat.min_r _ _ (Nat.lt_le_incl _ _ H)), (proj2 (Nat.ltb_lt _ _) H). split; [intros _|lia].
    rewrite (IH1 (Nat.lt_le_incl _ _ H)). reflexivity.
Qed.

Lemma sends_valids (cap : nat) (ms : list item) :
  1 <= cap -> no_lagged ms -> valids (fold_left (push cap) ms []) = valids (lastn cap ms).
Proof.
  intros Hc Hn. destruct (push_all cap ms Hc Hn) as [A B].
  destruct (Nat.le_gt_cases (length ms) cap) as [H|H].
  - rewrite (A H), (lastn_all cap ms H). reflexivity.
  - rewrite (B H). reflexivity.
Qed.

(** Only the first send of a burst can find the waker registered. *)
Lemma sends_cons (cap : nat) (ms : list item) : forall (m : item) (s : task),
  fold_left (send cap) (m :: ms) s =
  {| queue := fold_left (push cap) (m :: ms) (queue s); closed := closed s; registered := false;
     woken := woken s || registered s; finished := finished s; out := out s |}.
Proof.
  induction ms as [|m' ms IH]; intros m s; [reflexivity|].
  change (fold_left (send cap) (m :: m' :: ms) s) with (fold_left (send cap) (m' :: ms) (send cap s m)).
  rewrite IH. cbn [send queue closed registered woken finished out fold_left]. rewrite orb_false_r.
  reflexivity.
Qed.

Definition Parked (s : task) : Prop :=
  queue s = [] /\ woken s = false /\ closed s = false /\ finished s = false /\ registered s = true.

(** Between phases the task is in the one [Parked] state that has its output so far. *)
Definition parked_state (o : list N) : task :=
  {| queue := []; closed := false; registered := true; woken := false; finished := false; out := o |}.

Lemma parked_state_Parked (o : list N) : Parked (parked_state o).
Proof. repeat split. Qed.

Lemma phase_fixed (cap : nat) (o : list N) (ms : list item) :
  1 <= cap -> no_lagged ms ->
  phase poll_fixed cap (parked_state o) ms = parked_state (o ++ valids (lastn cap ms)).
Proof.
  intros Hc Hn. unfold phase, run. destruct ms as [|m ms].
  - cbn. rewrite app_nil_r. reflexivity.
  - rewrite sends_cons, task_run_fixed by (cbn [queue woken finished parked_state orb]; lia || reflexivity).
    cbn [queue closed out parked_state negb]. rewrite (sends_valids cap (m :: ms) Hc Hn). reflexivity.
Qed.

Lemma skipn_app_exact {A} (a b : list A) : skipn (length a) (a ++ b) = b.
Proof. induction a; [reflexivity|assumption]. Qed.

Lemma phases_fixed (cap : nat) :
  1 <= cap ->
  forall phs o,
    Forall no_lagged phs ->
    phases poll_fixed cap (parked_state o) phs = (parked_state (o ++ concat (expected cap phs)), expected cap phs).
Proof.
  intros Hc. induction phs as [|ms phs IH]; intros o Hn.
  - cbn. rewrite app_nil_r. reflexivity.
  - cbn [phases]. rewrite (phase_fixed cap o ms Hc (Forall_inv Hn)), (IH _ (Forall_inv_tail Hn)).
    cbn [out parked_state expected map concat]. rewrite skipn_app_exact, <- app_assoc. reflexivity.
Qed.

(** Whatever is sent, in whatever grouping, with any number of invalid messages and any
    overflow (lag), the consumer is handed exactly the valid messages the channel retained,
    phase by phase; it is parked with its waker registered in between (so the next send reaches
    it), and it finishes when the channel is closed. *)
Theorem never_stalls (cap : nat) (phs : list (list item)) (do_close : bool) :
  1 <= cap -> Forall no_lagged phs ->
  let '(s, ys) := scenario poll_fixed cap phs do_close in
  ys = expected cap phs /\
  out s = concat (expected cap phs) /\
  finished s = do_close /\
  (do_close = false -> Parked s).
Proof.
  intros Hc Hn. unfold scenario.
  change (run poll_fixed init) with (parked_state []). rewrite (phases_fixed cap Hc phs [] Hn).
  destruct do_close.
  - (* the close wakes the parked task, which finds the channel empty and closed *)
    change (run poll_fixed (close (parked_state ?o))) with
      {| queue := []; closed := true; registered := false; woken := false; finished := true; out := o |}.
    repeat split; discriminate.
  - exact (conj eq_refl (conj eq_refl (conj eq_refl (fun _ => parked_state_Parked _)))).
Qed.

Example never_stalls_nonvacuous :
  scenario poll_fixed 2 [[Invalid; Valid 1]; []; [Valid 2; Invalid; Invalid; Valid 3; Invalid]; [Invalid]] true
  = ({| queue := []; closed := true; registered := false; woken := false; finished := true; out := [1; 3]%N |},
     [[1]; []; [3]; []]%N).
Proof. reflexivity. Qed.

(** The code before the repair: one invalid message in front of a valid one, and the valid one
    is not yielded. *)
Theorem asis_refuted :
  exists cap phs,
    1 <= cap /\ Forall no_lagged phs /\
    snd (scenario poll_asis cap phs false) <> expected cap phs.
Proof.
  exists 4, [[Invalid; Valid 1%N]]. split; [lia|]. split.
  - repeat constructor; discriminate.
  - cbn. discriminate.
Qed.

(** [Pending] with no wake-up registered anywhere: an executor honouring the waker contract
    never polls such a task again. *)
Definition Stalled (s : task) : Prop := woken s = false /\ registered s = false.

Lemma asis_stalled_state :
  Stalled (fst (phases poll_asis 4 (run poll_asis init) [[Invalid; Valid 1%N]])).
Proof. cbn. split; reflexivity. Qed.

Lemma sends_stalled (cap : nat) (ms : list item) (s : task) :
  Stalled s -> Stalled (fold_left (send cap) ms s) /\ out (fold_left (send cap) ms s) = out s.
Proof.
  intros [A B]. destruct ms as [|m ms]; [exact (conj (conj A B) eq_refl)|].
  rewrite sends_cons. unfold Stalled. cbn [woken registered out]. rewrite A, B. repeat split.
Qed.

(** [asis_stalled_state] shows the code before the repair in such a state. *)
Theorem stalled_forever (poll : bool -> list item -> pollres) (cap : nat) :
  forall phs s, Stalled s ->
    snd (phases poll cap s phs) = map (fun _ => []) phs.
Proof.
  induction phs as [|ms phs IH]; intros s HS; [reflexivity|].
  destruct (sends_stalled cap ms s HS) as [[S1 S2] S3].
  cbn [phases map]. unfold phase, run.
  rewrite task_run_idle by exact S1. rewrite S3.
  specialize (IH (fold_left (send cap) ms s) (conj S1 S2)).
  destruct (phases poll cap (fold_left (send cap) ms s) phs) as [s2 ys]. cbn [snd] in *.
  rewrite IH. f_equal. apply skipn_all.
Qed.
