(** Proofs about the contended result lock of a [Task] (Model/TaskLock.v).

    Every step decreases [lmeasure], so a trace has at most [7 * k + 3] steps (both variants of
    the check).  The invariant [LInv] of the code's protocol (blocking [lock().await]) says:
    mutual exclusion, "a waiter that found no result registered before the signal fired"
    ([R4 e -> e = 0]), "a woken waiter finds the result".  With it, while a waiter has not
    returned some step is enabled, and every maximal trace ends with every waiter having returned
    the written result (in particular nobody panics).  The [try_lock] variant of the check (not
    the code) reaches a state in which a waiter waits forever. *)
From Coq Require Import List Arith Lia.
From PV Require Import Model.TaskLock Proofs.Tasks.
Import ListNotations.

Lemma lmeasure_set_r : forall k s i p lk, i < k ->
  lmeasure k (set_r s i p lk) + wr (l_r s i) = lmeasure k s + wr p.
Proof.
  intros k s i p lk H. unfold lmeasure. cbn [set_r l_r l_w].
  pose proof (sumf_upd rpc wr k (l_r s) i p H). lia.
Qed.

Lemma lmeasure_decreases : forall tl k v s l s1, lstep tl k v s l = Some s1 -> lmeasure k s1 < lmeasure k s.
Proof.
  intros tl k v s l s1 H. destruct l as [i|]; cbn [lstep] in H.
  - destruct (Nat.ltb i k) eqn:Hi; [|discriminate]. apply Nat.ltb_lt in Hi.
    assert (D : forall p lk, wr p < wr (l_r s i) -> lmeasure k (set_r s i p lk) < lmeasure k s).
    { intros p lk D. pose proof (lmeasure_set_r k s i p lk Hi). lia. }
    unfold lstep_r in H. destruct (l_r s i) eqn:Es; cbn [wr] in D.
    + inversion H. apply D. cbn [wr]. lia.
    + destruct (is_free (l_lock s)); [|destruct tl; [|discriminate]]; inversion H; apply D; cbn [wr]; lia.
    + destruct (l_res s); inversion H; apply D; cbn [wr]; lia.
    + destruct (l_res s); inversion H; apply D; cbn [wr]; lia.
    + destruct (Nat.ltb e (l_epoch s)); [|discriminate]. inversion H. apply D. cbn [wr]. lia.
    + destruct (is_free (l_lock s)); [|discriminate]. inversion H. apply D. cbn [wr]. lia.
    + destruct (l_res s); inversion H; apply D; cbn [wr]; lia.
    + discriminate.
    + discriminate.
  - unfold lstep_w in H. unfold lmeasure. destruct (l_w s) eqn:Ew.
    + destruct (is_free (l_lock s)); [|discriminate]. inversion H. cbn [l_r l_w ww]. lia.
    + inversion H. cbn [l_r l_w ww]. lia.
    + inversion H. cbn [l_r l_w ww]. lia.
    + discriminate.
Qed.

Lemma lexec_measure : forall tl k v s tr s', lexec tl k v s tr s' -> List.length tr + lmeasure k s' <= lmeasure k s.
Proof.
  intros tl k v s tr s' H. induction H as [s|s l s1 tr s2 Hs _ IH]; cbn [List.length]; [lia|].
  apply lmeasure_decreases in Hs. lia.
Qed.

Theorem ltraces_bounded : forall tl k v tr s, lexec tl k v linit tr s -> List.length tr <= 7 * k + 3.
Proof.
  intros tl k v tr s H. apply lexec_measure in H.
  assert (E : lmeasure k linit = 7 * k + 3).
  { unfold lmeasure, linit. cbn [l_r l_w wr ww]. rewrite sumf_const. lia. }
  lia.
Qed.

Definition holds (p : rpc) : bool := match p with R2 _ | R3 | R6 => true | _ => false end.

(** The clause that carries the liveness argument is [R4 e -> e = 0]: whoever found no result
    registered before the signal fired, so the one signal still to come will wake it. *)
Definition good_r (v : nat) (res : option nat) (epoch : nat) (p : rpc) : Prop :=
  match p with
  | R0 => True
  | R1 e => e <= epoch
  | R2 e => e <= epoch
  | R3 => res = Some v
  | R4 e => e = 0
  | R5 => res = Some v
  | R6 => res = Some v
  | RDone x => x = v
  | RPanic => False
  end.

(** The writer runs once, so result and signal count are functions of its program counter. *)
Definition res_of_w (v : nat) (w : wpc) : option nat := match w with W2 | W3 => Some v | _ => None end.
Definition epoch_of_w (w : wpc) : nat := match w with W3 => 1 | _ => 0 end.

Record LInv (k v : nat) (s : lstate) : Prop := {
  li_w : l_lock s = Some HWriter <-> l_w s = W1;
  li_res : l_res s = res_of_w v (l_w s);
  li_epoch : l_epoch s = epoch_of_w (l_w s);
  li_holder : forall i, l_lock s = Some (HReader i) -> i < k;
  li_hold : forall i, i < k -> (l_lock s = Some (HReader i) <-> holds (l_r s i) = true);
  li_good : forall i, i < k -> good_r v (l_res s) (l_epoch s) (l_r s i) }.

Lemma linv_init : forall k v, LInv k v linit.
Proof.
  intros k v. constructor; cbn [linit l_lock l_w l_res l_epoch l_r res_of_w epoch_of_w holds good_r]; auto.
  - split; discriminate.
  - discriminate.
  - intros i _. split; discriminate.
Qed.

(** The disjuncts: the step leaves the mutex alone, acquires the free mutex, or releases the
    mutex it holds. *)
Lemma linv_set_r : forall k v s i p lk, LInv k v s -> i < k ->
  good_r v (l_res s) (l_epoch s) p ->
  ( (lk = l_lock s /\ holds p = holds (l_r s i))
    \/ (l_lock s = None /\ lk = Some (HReader i) /\ holds p = true)
    \/ (holds (l_r s i) = true /\ lk = None /\ holds p = false) ) ->
  LInv k v (set_r s i p lk).
Proof.
  intros k v s i p lk I Hi Hg Hl. destruct I as [Iw Ires Iep Iholder Ihold Igood].
  constructor; cbn [set_r l_lock l_w l_res l_epoch l_r].
  - destruct Hl as [[-> _]|[(A & -> & _)|(A & -> & _)]]; [exact Iw| |].
    + split; intro X; [discriminate|]. apply Iw in X. congruence.
    + split; intro X; [discriminate|]. apply Iw in X. apply (Ihold i Hi) in A. congruence.
  - exact Ires.
  - exact Iep.
  - intros j Hj. destruct Hl as [[-> _]|[(A & -> & _)|(A & -> & _)]]; [apply Iholder; exact Hj| |discriminate].
    inversion Hj; subst. exact Hi.
  - intros j Hj. destruct (Nat.eq_dec j i) as [->|Hne].
    + rewrite upd_eq. destruct Hl as [[-> B]|[(A & -> & B)|(A & -> & B)]].
      * rewrite B. apply Ihold. exact Hi.
      * split; auto.
      * rewrite B. split; discriminate.
    + rewrite upd_neq by exact Hne. destruct Hl as [[-> B]|[(A & -> & B)|(A & -> & B)]].
      * apply Ihold. exact Hj.
      * split; intro X; [inversion X; subst; contradiction|]. apply (Ihold j Hj) in X. congruence.
      * apply (Ihold i Hi) in A. split; intro X; [discriminate|]. apply (Ihold j Hj) in X.
        rewrite A in X. inversion X; subst. contradiction.
  - intros j Hj. destruct (Nat.eq_dec j i) as [->|Hne].
    + rewrite upd_eq. exact Hg.
    + rewrite upd_neq by exact Hne. apply Igood. exact Hj.
Qed.

Lemma res_of_w_some : forall v w x, res_of_w v w = Some x -> x = v.
Proof. intros v w x H. destruct w; cbn [res_of_w] in H; congruence. Qed.

Lemma res_none_epoch0 : forall v w, res_of_w v w = None -> epoch_of_w w = 0.
Proof. intros v w H. destruct w; cbn [res_of_w epoch_of_w] in *; congruence. Qed.

Lemma epoch_pos_res : forall v w, 0 < epoch_of_w w -> res_of_w v w = Some v.
Proof. intros v w H. destruct w; cbn [res_of_w epoch_of_w] in *; try lia; reflexivity. Qed.

Theorem linv_step : forall k v s l s1, LInv k v s -> lstep false k v s l = Some s1 -> LInv k v s1.
Proof.
  intros k v s l s1 I H. destruct l as [i|]; cbn [lstep] in H.
  - destruct (Nat.ltb i k) eqn:Hi; [|discriminate]. apply Nat.ltb_lt in Hi.
    pose proof (li_good k v s I i Hi) as G. pose proof (li_res k v s I) as Rs. pose proof (li_epoch k v s I) as Ep.
    unfold lstep_r in H. destruct (l_r s i) eqn:Es; cbn [good_r] in G.
    + (* R0: create + enable the Notified *)
      inversion H; subst. apply linv_set_r; [exact I|exact Hi| |].
      * cbn [good_r]. lia.
      * left. rewrite Es. split; reflexivity.
    + (* R1: lock().await, only when free *)
      destruct (l_lock s) eqn:El; cbn [is_free] in H; [discriminate|]. inversion H; subst.
      apply linv_set_r; [exact I|exact Hi|exact G|]. right. left. repeat split; auto.
    + (* R2: look at the result *)
      destruct (l_res s) as [x|] eqn:Er; inversion H; subst.
      * apply linv_set_r; [exact I|exact Hi| |].
        -- cbn [good_r]. symmetry in Rs. apply res_of_w_some in Rs. congruence.
        -- left. rewrite Es. split; reflexivity.
      * apply linv_set_r; [exact I|exact Hi| |].
        -- cbn [good_r]. symmetry in Rs. apply res_none_epoch0 in Rs. lia.
        -- right. right. rewrite Es. repeat split; reflexivity.
    + (* R3: clone finished *)
      rewrite G in H. inversion H; subst. apply linv_set_r; [exact I|exact Hi| |].
      * cbn [good_r]. reflexivity.
      * right. right. rewrite Es. repeat split; reflexivity.
    + (* R4: woken iff the counter moved *)
      destruct (Nat.ltb e (l_epoch s)) eqn:Lt; [|discriminate]. apply Nat.ltb_lt in Lt. inversion H; subst.
      apply linv_set_r; [exact I|exact Hi| |].
      * cbn [good_r]. rewrite Rs. apply epoch_pos_res. lia.
      * left. rewrite Es. split; reflexivity.
    + (* R5: lock().await after the wake-up *)
      destruct (l_lock s) eqn:El; cbn [is_free] in H; [discriminate|]. inversion H; subst.
      apply linv_set_r; [exact I|exact Hi|exact G|]. right. left. repeat split; auto.
    + (* R6: clone *)
      rewrite G in H. inversion H; subst. apply linv_set_r; [exact I|exact Hi| |].
      * cbn [good_r]. reflexivity.
      * right. right. rewrite Es. repeat split; reflexivity.
    + discriminate.
    + discriminate.
  - destruct I as [Iw Ires Iep Iholder Ihold Igood]. unfold lstep_w in H. destruct (l_w s) eqn:Ew.
    + (* W0: take the free mutex *)
      destruct (l_lock s) eqn:El; cbn [is_free] in H; [discriminate|]. inversion H; subst. clear H.
      cbn [res_of_w epoch_of_w] in *.
      constructor; cbn [l_lock l_w l_res l_epoch l_r res_of_w epoch_of_w].
      * split; reflexivity.
      * exact Ires.
      * exact Iep.
      * intros i X. discriminate.
      * intros i Hi. split; intro X; [discriminate|]. apply (Ihold i Hi) in X. discriminate.
      * exact Igood.
    + (* W1: store the result, drop the guard *)
      assert (Lk : l_lock s = Some HWriter) by (apply Iw; reflexivity).
      inversion H; subst. clear H. cbn [res_of_w epoch_of_w] in *.
      constructor; cbn [l_lock l_w l_res l_epoch l_r res_of_w epoch_of_w].
      * split; discriminate.
      * reflexivity.
      * exact Iep.
      * intros i X. discriminate.
      * intros i Hi. split; intro X; [discriminate|]. apply (Ihold i Hi) in X. congruence.
      * intros i Hi. specialize (Igood i Hi). destruct (l_r s i); cbn [good_r] in *; try exact Igood; try reflexivity; discriminate.
    + (* W2: notify_waiters *)
      inversion H; subst. clear H. cbn [res_of_w epoch_of_w] in *.
      constructor; cbn [l_lock l_w l_res l_epoch l_r res_of_w epoch_of_w].
      * split; intro X; [|discriminate]. apply Iw in X. discriminate.
      * exact Ires.
      * rewrite Iep. reflexivity.
      * exact Iholder.
      * exact Ihold.
      * intros i Hi. specialize (Igood i Hi). destruct (l_r s i); cbn [good_r] in *; try exact Igood; lia.
    + discriminate.
Qed.

Lemma linv_exec : forall k v s tr s', lexec false k v s tr s' -> LInv k v s -> LInv k v s'.
Proof. intros k v s tr s' H. induction H as [s|s l s1 tr s2 Hs _ IH]; intros I; [exact I|]. apply IH. eapply linv_step; eauto. Qed.

Lemma linv_reachable : forall k v tr s, lexec false k v linit tr s -> LInv k v s.
Proof. intros k v tr s H. eapply linv_exec; [exact H|apply linv_init]. Qed.

(** Whoever holds the mutex can move; with the mutex free, a waiter that has not returned can
    move unless it waits for the signal, and then the writer can move. *)
Theorem ldeadlock_free_inv : forall k v s,
  LInv k v s -> all_returnedb k s = false -> exists l s', lstep false k v s l = Some s'.
Proof.
  intros k v s I Hnd. destruct I as [Iw Ires Iep Iholder Ihold Igood].
  assert (Rd : forall j, j < k -> (exists s', lstep_r false s j = Some s') -> exists l s', lstep false k v s l = Some s').
  { intros j Hj E. exists (LR j). cbn [lstep]. apply Nat.ltb_lt in Hj. rewrite Hj. exact E. }
  assert (Wr : (exists s', lstep_w v s = Some s') -> exists l s', lstep false k v s l = Some s').
  { intros E. exists LW. exact E. }
  destruct (l_lock s) as [[j|]|] eqn:El.
  - pose proof (Iholder j eq_refl) as Hj. pose proof (proj1 (Ihold j Hj) eq_refl) as Hh.
    apply (Rd j Hj). unfold lstep_r.
    destruct (l_r s j); cbn [holds] in Hh; try discriminate; destruct (l_res s); eexists; reflexivity.
  - apply Wr. unfold lstep_w. rewrite (proj1 Iw eq_refl). eexists; reflexivity.
  - destruct (forallb_seq_false _ _ Hnd) as (i & Hi & Hr).
    pose proof (Igood i Hi) as G.
    assert (Hh : holds (l_r s i) = false).
    { destruct (holds (l_r s i)) eqn:E; [|reflexivity]. apply (Ihold i Hi) in E. discriminate. }
    destruct (l_r s i) eqn:Es; cbn [r_returned holds good_r] in *; try discriminate.
    + apply (Rd i Hi). unfold lstep_r. rewrite Es. eexists; reflexivity.
    + apply (Rd i Hi). unfold lstep_r. rewrite Es, El. eexists; reflexivity.
    + (* waiting: either the signal has fired, or the writer is still to come *)
      subst e. destruct (l_w s) eqn:Ew.
      * apply Wr. unfold lstep_w. rewrite Ew, El. eexists; reflexivity.
      * exfalso. assert (X : @None holder = Some HWriter) by (apply Iw; reflexivity). discriminate.
      * apply Wr. unfold lstep_w. rewrite Ew. eexists; reflexivity.
      * apply (Rd i Hi). unfold lstep_r. rewrite Es, Iep. eexists; reflexivity.
    + apply (Rd i Hi). unfold lstep_r. rewrite Es, El. eexists; reflexivity.
    + contradiction.
Qed.

Theorem ldeadlock_free : forall k v tr s,
  lexec false k v linit tr s -> all_returnedb k s = false -> exists l s', lstep false k v s l = Some s'.
Proof. intros k v tr s H. apply ldeadlock_free_inv. eapply linv_reachable. exact H. Qed.

(** Every maximal trace of the blocking protocol ends with every waiter having returned the
    result the writer stored (finite by [ltraces_bounded]; no fairness assumption). *)
Theorem contended_readers_return : forall k v tr s,
  lexec false k v linit tr s -> (forall l, lstep false k v s l = None) ->
  forall i, i < k -> l_r s i = RDone v.
Proof.
  intros k v tr s H Hmax i Hi.
  destruct (all_returnedb k s) eqn:D.
  - unfold all_returnedb in D. rewrite forallb_forall in D. specialize (D i).
    rewrite in_seq in D. specialize (D ltac:(lia)).
    pose proof (li_good k v s (linv_reachable k v tr s H) i Hi) as G.
    destruct (l_r s i); cbn [r_returned good_r] in *; try discriminate. congruence.
  - destruct (ldeadlock_free k v tr s H D) as (l & s' & Hs). rewrite Hmax in Hs. discriminate.
Qed.

(** Safety part alone: in the blocking protocol nobody ever panics or returns another value. *)
Theorem contended_no_panic : forall k v tr s i,
  lexec false k v linit tr s -> i < k -> l_r s i <> RPanic /\ (forall x, l_r s i = RDone x -> x = v).
Proof.
  intros k v tr s i H Hi. pose proof (li_good k v s (linv_reachable k v tr s H) i Hi) as G.
  split; intros; destruct (l_r s i); cbn [good_r] in G; try discriminate; try contradiction; congruence.
Qed.

Lemma lrun_exec : forall tl k v tr s s', lrun tl k v s tr = Some s' -> lexec tl k v s tr s'.
Proof.
  intros tl k v. induction tr as [|l tr IH]; intros s s' H; unfold lrun in H; cbn [fold_left] in H.
  - inversion H. constructor.
  - destruct (lstep tl k v s l) as [s1|] eqn:E.
    + econstructor; [exact E|apply IH; exact H].
    + rewrite fold_step_none in H. discriminate.
Qed.

(** Two waiters of a finished task: waiter 0 holds the mutex (cloning) while waiter 1 runs its
    check with [try_lock]; waiter 1 then waits for a signal that fired before it registered. *)
Theorem trylock_strands_a_waiter : exists s,
  lexec true 2 7 linit trylock_schedule s /\ l_r s 0 = RDone 7 /\ l_r s 1 = R4 1 /\ l_epoch s = 1 /\
  all_returnedb 2 s = false /\ forall l, lstep true 2 7 s l = None.
Proof.
  eexists. split; [apply lrun_exec; vm_compute; reflexivity|]. repeat split.
  intros [[|[|i]]|]; reflexivity.
Qed.

(** The same schedule is harmless in the code's protocol: the second [LR 1] is simply not
    enabled while waiter 0 holds the mutex (waiter 1 queues on it). *)
Example blocking_same_schedule_not_enabled :
  lrun false 2 7 linit trylock_schedule = None /\
  exists s, lexec false 2 7 linit [LW; LW; LW; LR 0; LR 0; LR 0; LR 1; LR 0; LR 1; LR 1; LR 1] s /\
            l_r s 0 = RDone 7 /\ l_r s 1 = RDone 7.
Proof.
  split; [vm_compute; reflexivity|].
  eexists. split; [apply lrun_exec; vm_compute; reflexivity|]. split; reflexivity.
Qed.

(** Non-vacuity of [contended_readers_return]: a reachable state of the blocking protocol in
    which one waiter holds the mutex (cloning), one is queued on it and one waits for the
    signal. *)
Example example_contended_reachable : exists s,
  lexec false 3 7 linit [LR 2; LR 2; LR 2; LW; LW; LR 0; LR 0; LR 0; LR 1] s /\
  l_r s 0 = R3 /\ l_r s 1 = R1 0 /\ l_r s 2 = R4 0 /\ l_lock s = Some (HReader 0) /\ all_returnedb 3 s = false.
Proof. eexists. split; [apply lrun_exec; vm_compute; reflexivity|]. repeat split. Qed.
