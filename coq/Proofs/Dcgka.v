(** Proofs about the knowledge model of the data-scheme group encryption (Model/Dcgka.v).

    In EVERY execution (any events, any delivery order) a member holds a secret only if it
    generated it, was a recipient of its direct messages, or was added by a message whose welcome
    bundle contained it ([knowledge_is_justified]).  In every sequential history (each operation
    issued by a current member when everything before was delivered to everyone) all current
    members hold every secret generated so far and agree on the membership ([seq_exec_inv] is the
    invariant).  With an add concurrent to an update the new member misses the newest secret
    ([members_know_latest_refuted]).  No axioms. *)
From Coq Require Import List Arith Bool Lia.
From PV Require Import Model.Dcgka.
Import ListNotations.

Lemma In_ins x y l : In x (ins y l) <-> x = y \/ In x l.
Proof.
  induction l as [|h t IH]; cbn [ins].
  - cbn [In]. split; intros [E|E]; auto.
  - destruct (y <? h); [cbn [In]; split; intros [E|E]; auto|].
    destruct (Nat.eqb_spec y h) as [->|N].
    + split; [auto|intros [->|E]; [now left|exact E]].
    + cbn [In]. split.
      * intros [E|E]; [auto|]. apply IH in E. destruct E; auto.
      * intros [E|[E|E]]; [right; apply IH; auto|auto|right; apply IH; auto].
Qed.

Lemma In_rem x y l : In x (rem y l) <-> x <> y /\ In x l.
Proof.
  unfold rem. rewrite filter_In. destruct (Nat.eqb_spec x y) as [->|N]; cbn [negb]; intuition congruence.
Qed.

Lemma In_union x a b : In x (union a b) <-> In x a \/ In x b.
Proof.
  unfold union. revert a. induction b as [|h t IH]; intros a; cbn [fold_left In].
  - tauto.
  - rewrite IH, In_ins. split; intros [H|H]; auto; destruct H; auto.
Qed.

Lemma In_of_list x l : In x (of_list l) <-> In x l.
Proof. unfold of_list. rewrite In_union. cbn [In]. tauto. Qed.

Lemma mem_In x l : mem x l = true <-> In x l.
Proof.
  unfold mem. rewrite existsb_exists. split.
  - intros (y & Hy & E). apply Nat.eqb_eq in E. now subst.
  - intros H. exists x. split; [exact H|apply Nat.eqb_refl].
Qed.

Lemma mem_false x l : mem x l = false <-> ~ In x l.
Proof. rewrite <- mem_In. destruct (mem x l); intuition congruence. Qed.

Lemma upd_same {A} (f : member -> A) p v : upd f p v p = v.
Proof. unfold upd. now rewrite Nat.eqb_refl. Qed.

Lemma upd_other {A} (f : member -> A) p q v : q <> p -> upd f p v q = f q.
Proof. unfold upd. intros H. destruct (Nat.eqb_spec q p); [contradiction|reflexivity]. Qed.

Lemma nth_error_app_l {A} (l l' : list A) k x : nth_error l k = Some x -> nth_error (l ++ l') k = Some x.
Proof. intros H. rewrite nth_error_app1; [exact H|apply nth_error_Some; congruence]. Qed.

Lemma nth_error_snoc {A} (l : list A) x : nth_error (l ++ [x]) (length l) = Some x.
Proof. rewrite nth_error_app2, Nat.sub_diag; [reflexivity|apply le_n]. Qed.

Lemma issue_knows i s k o s1 m :
  issue i s k o = Some (s1, m) ->
  m_sender m = i /\ queued s1 = queued s /\
  knows s1 = if generates (m_op m) then ins k (knows s) else knows s.
Proof.
  unfold issue. destruct o as [init|x|x|];
    [destruct (welcomed s)|destruct (welcomed s && negb (x =? i))|destruct (welcomed s)|destruct (welcomed s)];
    intros H; try discriminate; injection H as <- <-; auto.
Qed.

Lemma recipients_within_view i s k o s1 m c :
  issue i s k o = Some (s1, m) -> (o = Update \/ exists x, o = Remove x) ->
  In c (m_rcpt m) -> In c (view s) /\ c <> i /\ (forall x, o = Remove x -> c <> x).
Proof.
  intros Hi Ho Hc. unfold issue in Hi. destruct Ho as [->|[x ->]]; destruct (welcomed s); try discriminate;
    inversion Hi; subst; clear Hi; cbn [m_rcpt] in Hc.
  - apply In_rem in Hc. destruct Hc as [A B]. repeat split; auto. intros x E. discriminate.
  - apply In_rem in Hc. destruct Hc as [A B]. apply In_rem in B. destruct B as [B C].
    repeat split; auto. intros y E. inversion E; subst. exact A.
Qed.

Lemma process1_knows j s k m x :
  In x (knows (process1 j s k m)) <->
  In x (knows s) \/ (x = k /\ generates (m_op m) = true /\ In j (m_rcpt m)) \/
  (m_op m = Add j /\ In x (m_bundle m)).
Proof.
  unfold process1. cbn [knows].
  (* the three generating operations, at once; for them the last disjunct is empty *)
  assert (Hg : forall o, generates o = true -> o <> Add j ->
               (In x (if mem j (m_rcpt m) then ins k (knows s) else knows s) <->
                In x (knows s) \/ (x = k /\ generates o = true /\ In j (m_rcpt m)) \/
                (o = Add j /\ In x (m_bundle m)))).
  { intros o G NA. destruct (mem j (m_rcpt m)) eqn:R.
    - apply mem_In in R. rewrite In_ins. split.
      + intros [->|H]; [right; left; auto|now left].
      + intros [H|[(-> & _)|[E _]]]; [now right|now left|contradiction].
    - apply mem_false in R. split; [now left|].
      intros [H|[(_ & _ & H)|[E _]]]; [exact H|contradiction..]. }
  destruct (m_op m) as [init|y|y|]; [apply Hg; [reflexivity|discriminate]| |apply Hg; [reflexivity|discriminate]..].
  destruct (Nat.eqb_spec y j) as [->|N].
  - rewrite In_union. split.
    + intros [H|H]; [now left|right; right; auto].
    + intros [H|[(_ & G & _)|[_ H]]]; [now left|discriminate|now right].
  - split; [now left|]. intros [H|[(_ & G & _)|[E _]]]; [exact H|discriminate|].
    injection E as E. contradiction.
Qed.

Lemma process1_welcomed j s k m :
  welcomed (process1 j s k m) = welcomed s || mem j (view (process1 j s k m)).
Proof. reflexivity. Qed.

Lemma process_all_cons j s k m l :
  fst (process_all j s ((k, m) :: l)) = fst (process_all j (process1 j s k m) l).
Proof. cbn [process_all]. now destruct (process_all j (process1 j s k m) l). Qed.

Lemma process_all_snoc j l : forall s k m,
  fst (process_all j s (l ++ [(k, m)])) = process1 j (fst (process_all j s l)) k m.
Proof.
  induction l as [|[k0 m0] l IH]; intros s k m; [reflexivity|].
  cbn [app]. rewrite !process_all_cons. apply IH.
Qed.

Lemma deliver1_welcome j s k m :
  welcomed s = false -> is_welcome j m = true ->
  fst (deliver1 j s k m) =
  process1 j (fst (process_all j {| welcomed := false; view := view s; knows := knows s; queued := [] |}
                               (queued s))) k m.
Proof.
  intros W I. unfold deliver1. rewrite W, I, <- process_all_snoc.
  now destruct (process_all j _ (queued s ++ [(k, m)])).
Qed.

Lemma deliver1_cases j s k m s1 o :
  deliver1 j s k m = (s1, o) -> o <> DErr ->
  (exists s', s1 = process1 j s' k m /\ (welcomed s = true -> s' = s) /\
              (welcomed s = false -> is_welcome j m = true)) \/
  (welcomed s = false /\ is_welcome j m = false /\ welcomed s1 = false).
Proof.
  intros H Ho. destruct (welcomed s) eqn:W.
  - left. exists s. unfold deliver1 in H. rewrite W in H.
    destruct (m_op m); injection H as <- <-; [contradiction| | |]; (split; [reflexivity|split; [reflexivity|discriminate]]).
  - destruct (is_welcome j m) eqn:I.
    + left. eexists. split; [|split; [discriminate|reflexivity]].
      rewrite <- (deliver1_welcome _ _ _ _ W I), H. reflexivity.
    + right. unfold deliver1 in H. rewrite W, I in H. injection H as <- _. auto.
Qed.

Lemma deliver_cases w j k :
  fst (deliver w j k) = w \/
  exists m s1 o,
    j < nmem w /\ ~ In k (dlv w j) /\ nth_error (msgs w) k = Some m /\
    deliver1 j (st w j) k m = (s1, o) /\ o <> DErr /\
    fst (deliver w j k) =
    {| nmem := nmem w; st := upd (st w) j s1; msgs := msgs w; dlv := upd (dlv w) j (ins k (dlv w j)) |}.
Proof.
  unfold deliver. destruct (j <? nmem w) eqn:Ej; [|now left].
  destruct (mem k (dlv w j)) eqn:Ek; [now left|]. cbn [andb negb].
  destruct (nth_error (msgs w) k) as [m|]; [|now left].
  destruct (deliver1 j (st w j) k m) as [s1 o] eqn:Ed.
  apply Nat.ltb_lt in Ej. apply mem_false in Ek.
  destruct o; try (now left); right; exists m, s1; eexists; repeat split; eauto; discriminate.
Qed.

Lemma do_issue_ok w i o s1 m :
  i < nmem w -> issue i (st w i) (length (msgs w)) o = Some (s1, m) ->
  fst (do_issue w i o) =
  {| nmem := nmem w; st := upd (st w) i s1; msgs := msgs w ++ [m];
     dlv := upd (dlv w) i (ins (length (msgs w)) (dlv w i)) |}.
Proof. intros Hi E. unfold do_issue. apply Nat.ltb_lt in Hi. now rewrite Hi, E. Qed.

Lemma do_issue_cases w i o :
  fst (do_issue w i o) = w \/
  exists s1 m, i < nmem w /\ issue i (st w i) (length (msgs w)) o = Some (s1, m).
Proof.
  unfold do_issue. destruct (Nat.ltb_spec i (nmem w)); [|now left].
  destruct (issue i (st w i) (length (msgs w)) o) as [[s1 m]|]; [right; eauto|now left].
Qed.

Lemma fold_qstep_inv (P : world -> Prop) :
  (forall w j k, P w -> P (fst (deliver w j k))) ->
  forall l acc, P (fst acc) -> P (fst (fold_left qstep l acc)).
Proof.
  intros HP. induction l as [|[j k] l IH]; intros [w0 log] H; cbn [fold_left]; [exact H|].
  apply IH. unfold qstep. specialize (HP w0 j k H). destruct (deliver w0 j k) as [w1 o]. exact HP.
Qed.

Lemma quiesce_inv (P : world -> Prop) :
  (forall w j k, P w -> P (fst (deliver w j k))) -> forall w, P w -> P (fst (quiesce w)).
Proof. intros HP w H. unfold quiesce. apply fold_qstep_inv; assumption. Qed.

Lemma step_inv (P : world -> Prop) :
  (forall w i o, P w -> P (fst (do_issue w i o))) ->
  (forall w j k, P w -> P (fst (deliver w j k))) ->
  forall w e, P w -> P (fst (step w e)).
Proof.
  intros HI HD w e H. destruct e as [i o|j k| |]; cbn [step].
  - specialize (HI w i o H). now destruct (do_issue w i o).
  - specialize (HD w j k H). now destruct (deliver w j k).
  - pose proof (quiesce_inv P HD w H). now destruct (quiesce w).
  - exact H.
Qed.

Lemma run_app evs1 evs2 : forall w, run w (evs1 ++ evs2) = run (run w evs1) evs2.
Proof. induction evs1 as [|e l IH]; intros w; cbn [run app]; [reflexivity|apply IH]. Qed.

Definition gen_by (ms : list message) (s : sid) (c : member) : Prop :=
  exists m, nth_error ms s = Some m /\ generates (m_op m) = true /\ (m_sender m = c \/ In c (m_rcpt m)).

Definition welcomed_with (ms : list message) (s : sid) (c : member) : Prop :=
  exists a m, nth_error ms a = Some m /\ m_op m = Add c /\ In s (m_bundle m).

Definition justified (ms : list message) (c : member) (s : sid) : Prop :=
  gen_by ms s c \/ welcomed_with ms s c.

Lemma justified_mono ms ms' c s : justified ms c s -> justified (ms ++ ms') c s.
Proof.
  intros [(m & H1 & H2)|(a & m & H1 & H2)]; [left; exists m|right; exists a, m];
    (split; [apply nth_error_app_l, H1|exact H2]).
Qed.

Definition genuine (ms : list message) (km : nat * message) : Prop := nth_error ms (fst km) = Some (snd km).

Definition all_justified (ms : list message) (c : member) (s : mstate) : Prop :=
  (forall x, In x (knows s) -> justified ms c x) /\ Forall (genuine ms) (queued s).

Definition world_justified (w : world) : Prop := forall c, all_justified (msgs w) c (st w c).

Lemma all_justified_mono ms ms' c s : all_justified ms c s -> all_justified (ms ++ ms') c s.
Proof.
  intros [H1 H2]. split.
  - intros x Hx. apply justified_mono. auto.
  - eapply Forall_impl; [|exact H2]. intros km. apply nth_error_app_l.
Qed.

Lemma process1_justified ms j s k m :
  all_justified ms j s -> nth_error ms k = Some m -> all_justified ms j (process1 j s k m).
Proof.
  intros [H1 H2] Hk. split; [|exact H2]. intros x Hx. apply process1_knows in Hx.
  destruct Hx as [Hx|[(-> & G & R)|(E & Hx)]].
  - auto.
  - left. exists m. auto.
  - right. exists k, m. auto.
Qed.

Lemma process_all_justified ms j l : forall s,
  all_justified ms j s -> Forall (genuine ms) l -> all_justified ms j (fst (process_all j s l)).
Proof.
  induction l as [|[k m] l IH]; intros s HS HF; [exact HS|].
  rewrite process_all_cons. inversion HF as [|? ? Hg HF']; subst.
  apply IH; [apply process1_justified|]; assumption.
Qed.

Lemma deliver1_justified ms j s k m :
  all_justified ms j s -> nth_error ms k = Some m -> all_justified ms j (fst (deliver1 j s k m)).
Proof.
  intros HS Hk.
  assert (HQ : Forall (genuine ms) (queued s ++ [(k, m)])).
  { apply Forall_app. split; [apply HS|]. constructor; [exact Hk|constructor]. }
  destruct (welcomed s) eqn:W; [|destruct (is_welcome j m) eqn:I].
  - unfold deliver1. rewrite W.
    destruct (m_op m); cbn [fst]; try exact HS; apply process1_justified; assumption.
  - rewrite (deliver1_welcome _ _ _ _ W I), <- process_all_snoc.
    apply process_all_justified; [split; [apply HS|constructor]|exact HQ].
  - unfold deliver1. rewrite W, I. split; [apply HS|exact HQ].
Qed.

Lemma deliver_justified w j k : world_justified w -> world_justified (fst (deliver w j k)).
Proof.
  intros HI. destruct (deliver_cases w j k) as [->|(m & s1 & o & _ & _ & Hk & Hd & _ & ->)]; [exact HI|].
  intros c. cbn [st msgs]. destruct (Nat.eq_dec c j) as [->|N].
  - rewrite upd_same. pose proof (deliver1_justified _ j _ k m (HI j) Hk) as H. now rewrite Hd in H.
  - rewrite upd_other by exact N. apply HI.
Qed.

Lemma issue_justified ms i s o s1 m :
  all_justified ms i s -> issue i s (length ms) o = Some (s1, m) -> all_justified (ms ++ [m]) i s1.
Proof.
  intros HS Hi. destruct (issue_knows _ _ _ _ _ _ Hi) as (Es & Eq & Ek).
  destruct (all_justified_mono ms [m] i s HS) as [M1 M2]. split; [|now rewrite Eq].
  intros x. rewrite Ek. destruct (generates (m_op m)) eqn:G; [|apply M1].
  rewrite In_ins. intros [->|Hx]; [|apply M1, Hx].
  left. exists m. split; [apply nth_error_snoc|auto].
Qed.

Lemma do_issue_justified w i o : world_justified w -> world_justified (fst (do_issue w i o)).
Proof.
  intros HI. destruct (do_issue_cases w i o) as [->|(s1 & m & Hi & Ei)]; [exact HI|].
  rewrite (do_issue_ok _ _ _ _ _ Hi Ei). intros c. cbn [st msgs]. destruct (Nat.eq_dec c i) as [->|N].
  - rewrite upd_same. eapply issue_justified; [apply HI|exact Ei].
  - rewrite upd_other by exact N. apply all_justified_mono, HI.
Qed.

Lemma run_justified evs : forall w, world_justified w -> world_justified (run w evs).
Proof.
  induction evs as [|e evs IH]; intros w HI; [exact HI|].
  apply IH, (step_inv world_justified do_issue_justified deliver_justified), HI.
Qed.

Lemma init_justified n : world_justified (init_world n).
Proof. intros c. split; cbn; [contradiction|constructor]. Qed.

Theorem knowledge_is_justified n evs c s :
  let w := run (init_world n) evs in
  In s (knows (st w c)) -> justified (msgs w) c s.
Proof. intros w H. exact (proj1 (run_justified evs _ (init_justified n) c) s H). Qed.

Definition extends (w w' : world) : Prop := (exists ms', msgs w' = msgs w ++ ms') /\ nmem w' = nmem w.

Lemma extends_refl w : extends w w.
Proof. split; [exists []; now rewrite app_nil_r|reflexivity]. Qed.

Lemma extends_trans w1 w2 w3 : extends w1 w2 -> extends w2 w3 -> extends w1 w3.
Proof.
  intros [[m1 E1] N1] [[m2 E2] N2]. split; [exists (m1 ++ m2); now rewrite E2, E1, app_assoc|congruence].
Qed.

Lemma deliver_frame w j k :
  msgs (fst (deliver w j k)) = msgs w /\ nmem (fst (deliver w j k)) = nmem w.
Proof. destruct (deliver_cases w j k) as [->|(m & s1 & o & _ & _ & _ & _ & _ & ->)]; now split. Qed.

Lemma run_extends evs : forall w, extends w (run w evs).
Proof.
  induction evs as [|e evs IH]; intros w; [apply extends_refl|].
  refine (extends_trans _ _ _ _ (IH _)). apply (step_inv (extends w)); [| |apply extends_refl].
  - intros w0 i o H. apply (extends_trans _ _ _ H).
    destruct (do_issue_cases w0 i o) as [->|(s1 & m & Hi & Ei)]; [apply extends_refl|].
    rewrite (do_issue_ok _ _ _ _ _ Hi Ei). split; [now exists [m]|reflexivity].
  - intros w0 j k H. apply (extends_trans _ _ _ H).
    destruct (deliver_frame w0 j k) as [E1 E2]. split; [exists []; now rewrite app_nil_r|exact E2].
Qed.

Theorem outsider_never_learns n evs c k m :
  let w := run (init_world n) evs in
  nth_error (msgs w) k = Some m -> m_sender m <> c -> ~ In c (m_rcpt m) ->
  (forall a ma, nth_error (msgs w) a = Some ma -> m_op ma = Add c -> ~ In k (m_bundle ma)) ->
  ~ In k (knows (st w c)).
Proof.
  intros w Hm Hs Hr Hadd Hin.
  destruct (knowledge_is_justified n evs c k Hin) as [(m' & H1 & _ & H2)|(a & ma & H1 & H2 & H3)].
  - fold w in H1. rewrite Hm in H1. injection H1 as <-. destruct H2; contradiction.
  - exact (Hadd a ma H1 H2 H3).
Qed.

(** The property's second half, removed members are cut off: [c] is not among the recipients in
    particular when [g] had already removed it from its view ([recipients_within_view]). *)
Theorem removed_never_learns_later n evs1 g o evs2 c s1 m :
  let w1 := run (init_world n) evs1 in
  let s := length (msgs w1) in
  g < n -> issue g (st w1 g) s o = Some (s1, m) ->
  c <> g -> ~ In c (m_rcpt m) ->
  let w := run w1 (Issue g o :: evs2) in
  (forall a ma, nth_error (msgs w) a = Some ma -> m_op ma = Add c -> ~ In s (m_bundle ma)) ->
  ~ In s (knows (st w c)).
Proof.
  intros w1 s Hg Hi Hc Hr w. unfold w, w1. rewrite <- run_app.
  apply outsider_never_learns with (m := m); [|apply issue_knows in Hi; destruct Hi as [-> _]; auto|exact Hr].
  (* message number s is m, and stays *)
  rewrite run_app. fold w1. cbn [run step].
  assert (Hn : g < nmem w1) by (unfold w1; now rewrite (proj2 (run_extends evs1 (init_world n)))).
  destruct (do_issue w1 g o) eqn:Ed. pose proof (do_issue_ok _ _ _ _ _ Hn Hi) as E. rewrite Ed in E.
  cbn [fst] in *. subst w0.
  match goal with |- nth_error (msgs (run ?W evs2)) _ = _ => destruct (run_extends evs2 W) as [[ms' ->] _] end.
  apply nth_error_app_l, nth_error_snoc.
Qed.

(** Ideal AEAD: by definition of the model. *)
Lemma decrypt_iff_knows w j s : can_decrypt w j s = true <-> In s (knows (st w j)).
Proof. unfold can_decrypt. apply mem_In. Qed.

Definition generated (ms : list message) (s : sid) : Prop :=
  exists m, nth_error ms s = Some m /\ generates (m_op m) = true.

Definition newest (ms : list message) (s : sid) : Prop :=
  exists m, nth_error ms s = Some m /\ generates (m_op m) = true /\
            forall s', generated ms s' -> s' <> s -> In s' (m_bundle m).

Definition quiescent (w : world) : Prop :=
  forall j k, j < nmem w -> k < length (msgs w) -> In k (dlv w j).

Definition deliveries_only (evs : list event) : bool :=
  forallb (fun e => match e with Issue _ _ => false | _ => true end) evs.

Definition quiescentb (w : world) : bool :=
  forallb (fun j => forallb (fun k => mem k (dlv w j)) (seq 0 (length (msgs w)))) (seq 0 (nmem w)).

Lemma quiescentb_sound w : quiescentb w = true -> quiescent w.
Proof.
  intros H j k Hj Hk. apply mem_In.
  assert (Hin : forall a n, a < n -> In a (seq 0 n)) by (intros a n L; apply in_seq; lia).
  unfold quiescentb in H. rewrite forallb_forall in H. specialize (H j (Hin j _ Hj)).
  rewrite forallb_forall in H. exact (H k (Hin k _ Hk)).
Qed.

Lemma generated_snoc ms m s0 :
  generated (ms ++ [m]) s0 <-> generated ms s0 \/ (s0 = length ms /\ generates (m_op m) = true).
Proof.
  unfold generated. split.
  - intros (m0 & H1 & H2). destruct (Nat.lt_ge_cases s0 (length ms)) as [L|L].
    + left. exists m0. rewrite nth_error_app1 in H1 by exact L. auto.
    + right. rewrite nth_error_app2 in H1 by exact L.
      destruct (s0 - length ms) as [|d] eqn:E; cbn in H1; [|destruct d; discriminate].
      injection H1 as <-. split; [lia|exact H2].
  - intros [(m0 & H1 & H2)|[-> H2]].
    + exists m0. split; [apply nth_error_app_l, H1|exact H2].
    + exists m. split; [apply nth_error_snoc|exact H2].
Qed.

Lemma generated_snoc_other ms m s0 :
  generated (ms ++ [m]) s0 -> generates (m_op m) = false -> generated ms s0.
Proof. intros H G. apply generated_snoc in H. destruct H as [H|[_ H]]; [exact H|congruence]. Qed.

Definition member_ok (ms : list message) (M : list member) (j : member) (s : mstate) : Prop :=
  (welcomed s = true -> forall x, In x (view s) <-> In x M) /\
  (In j M -> welcomed s = true /\ forall s0, generated ms s0 -> In s0 (knows s)).

(** The second clause (nothing is delivered that was not issued) makes the number of the next
    message new to every member. *)
Definition SeqInv (w : world) (M : list member) : Prop :=
  quiescent w /\
  (forall j k, j < nmem w -> In k (dlv w j) -> k < length (msgs w)) /\
  (forall j, In j M -> j < nmem w) /\
  (forall j, j < nmem w -> member_ok (msgs w) M j (st w j)).

Section Round.
  (** One operation issued in world [w] by [i] as message [m], number [K]; then deliveries.  All
      earlier messages have reached everybody, so the only delivery that still does anything
      hands [m] to a member other than [i], whose state is still the one it has in [w].  [Post]
      is what the round establishes of a member that has [m]: of [i] by issuing it, of the
      others by that delivery ([Hpost]). *)
  Variable w : world.
  Variable i : member.
  Variable m : message.
  Variable Post : member -> mstate -> Prop.
  Let K := length (msgs w).

  Hypothesis Hpost : forall j s1 o,
    j < nmem w -> j <> i -> deliver1 j (st w j) K m = (s1, o) -> o <> DErr -> Post j s1.

  Definition in_round1 (j : member) (d : list nat) (s : mstate) : Prop :=
    (forall k, In k d -> k <= K) /\ (forall k, k < K -> In k d) /\
    (In K d -> Post j s) /\ (~ In K d -> s = st w j /\ j <> i).

  Definition in_round (w' : world) : Prop :=
    msgs w' = msgs w ++ [m] /\ nmem w' = nmem w /\ forall j, j < nmem w -> in_round1 j (dlv w' j) (st w' j).

  Lemma in_round1_ins j d s :
    (forall k, In k d -> k <= K) -> (forall k, k < K -> In k d) -> Post j s -> in_round1 j (ins K d) s.
  Proof.
    intros Hle Hlt Hp. split; [|split; [|split]].
    - intros k Hk. apply In_ins in Hk. destruct Hk as [->|Hk]; [apply le_n|apply Hle, Hk].
    - intros k Hk. apply In_ins. right. apply Hlt, Hk.
    - intros _. exact Hp.
    - intros H. exfalso. apply H, In_ins. now left.
  Qed.

  Lemma in_round_deliver w' j k : in_round w' -> in_round (fst (deliver w' j k)).
  Proof.
    intros HJ. pose proof HJ as (Hm & Hn & H1).
    destruct (deliver_cases w' j k) as [->|(mk & s1 & o & Hj & Hk & Hmk & Hd & Ho & ->)]; [exact HJ|].
    rewrite Hn in Hj. pose proof (H1 j Hj) as Hjj.
    (* every number below K is delivered already: k is K *)
    assert (k = K).
    { assert (L : k < length (msgs w')) by (apply nth_error_Some; congruence).
      rewrite Hm, app_length, Nat.add_1_r in L. fold K in L.
      destruct (Nat.eq_dec k K) as [E|E]; [exact E|]. exfalso. apply Hk, Hjj. lia. }
    subst k. unfold K in Hmk. rewrite Hm, nth_error_snoc in Hmk. injection Hmk as <-.
    split; [exact Hm|]. split; [exact Hn|]. intros c Hc. cbn [dlv st].
    destruct (Nat.eq_dec c j) as [->|N].
    - rewrite !upd_same. destruct Hjj as (Hle & Hlt & _ & Hu). destruct (Hu Hk) as [E Hji]. rewrite E in Hd.
      exact (in_round1_ins j _ s1 Hle Hlt (Hpost j s1 o Hj Hji Hd Ho)).
    - rewrite !upd_other by exact N. apply H1, Hc.
  Qed.

  Lemma in_round_run evs : forall w', deliveries_only evs = true -> in_round w' -> in_round (run w' evs).
  Proof.
    induction evs as [|e evs IH]; intros w' Hev HJ; [exact HJ|].
    cbn [deliveries_only forallb] in Hev. apply andb_prop in Hev. destruct Hev as [He Hev].
    apply IH; [exact Hev|]. destruct e as [i0 o0|j k| |]; cbn [step]; [discriminate| | |exact HJ].
    - pose proof (in_round_deliver w' j k HJ). now destruct (deliver w' j k).
    - pose proof (quiesce_inv in_round in_round_deliver w' HJ). now destruct (quiesce w').
  Qed.

  Lemma in_round_start s_i :
    quiescent w -> (forall j k, j < nmem w -> In k (dlv w j) -> k < K) -> i < nmem w -> Post i s_i ->
    in_round {| nmem := nmem w; st := upd (st w) i s_i; msgs := msgs w ++ [m]; dlv := upd (dlv w) i (ins K (dlv w i)) |}.
  Proof.
    intros Hq Hold Hi Hp. split; [reflexivity|]. split; [reflexivity|]. intros j Hj. cbn [dlv st].
    assert (Hle : forall k, In k (dlv w j) -> k <= K) by (intros k Hk; apply Nat.lt_le_incl, (Hold j k Hj Hk)).
    assert (Hlt : forall k, k < K -> In k (dlv w j)) by (intros k Hk; apply Hq; assumption).
    destruct (Nat.eq_dec j i) as [->|N]; [rewrite !upd_same|rewrite !upd_other by exact N].
    - exact (in_round1_ins i _ s_i Hle Hlt Hp).
    - split; [exact Hle|]. split; [exact Hlt|]. split; [|now split].
      intros H. exfalso. exact (Nat.lt_irrefl _ (Hold j K Hj H)).
  Qed.
End Round.

Definition round_ok (w : world) (M' : list member) (i : member) (o : op) : Prop :=
  exists s_i m,
    issue i (st w i) (length (msgs w)) o = Some (s_i, m) /\
    member_ok (msgs w ++ [m]) M' i s_i /\
    forall j s1 ob, j < nmem w -> j <> i -> deliver1 j (st w j) (length (msgs w)) m = (s1, ob) -> ob <> DErr ->
                    member_ok (msgs w ++ [m]) M' j s1.

Definition valid_op (n : nat) (i : member) (o : op) : Prop :=
  match o with Create _ => False | Add x => x < n /\ x <> i | _ => True end.

Definition next_members (M : list member) (o : op) : list member :=
  match o with Add x => ins x M | Remove x => rem x M | _ => M end.

Lemma next_members_ext V M o :
  (forall y, In y V <-> In y M) -> forall y, In y (next_members V o) <-> In y (next_members M o).
Proof. intros H y. destruct o; cbn [next_members]; rewrite ?In_ins, ?In_rem, H; reflexivity. Qed.

(** A member that [m] welcomes processes it in whatever state [s] the replay of its queue has
    left ([deliver1_cases]); nothing is assumed of that [s], and nothing is needed: a welcome
    overwrites the view, and its bundle or its recipients bring the secrets. *)
Definition process1_ok (ms : list message) (M M' : list member) (i : member) (m : message) : Prop :=
  forall j s, j <> i ->
    is_welcome j m = true \/
      ((forall x, In x (view s) <-> In x M) /\ (In j M -> forall s0, generated ms s0 -> In s0 (knows s))) ->
    (forall x, In x (view (process1 j s (length ms) m)) <-> In x M') /\
    (In j M' -> forall s0, generated (ms ++ [m]) s0 -> In s0 (knows (process1 j s (length ms) m))).

(** The members of [M] are welcomed and process [m] in their own state; a member outside [M]
    either is welcomed by [m] or stays outside. *)
Lemma round_ok_intro w M M' i o s_i m :
  (forall j, j < nmem w -> member_ok (msgs w) M j (st w j)) ->
  issue i (st w i) (length (msgs w)) o = Some (s_i, m) ->
  member_ok (msgs w ++ [m]) M' i s_i ->
  (forall j, In j M' -> In j M \/ is_welcome j m = true) ->
  process1_ok (msgs w) M M' i m ->
  round_ok w M' i o.
Proof.
  intros Hok Hiss Hpi HM' P1. exists s_i, m. split; [exact Hiss|]. split; [exact Hpi|].
  intros j s1 ob Hj Hji Hdel Hob. destruct (Hok j Hj) as [Hvj Hkj].
  destruct (deliver1_cases _ _ _ _ _ _ Hdel Hob) as [(s' & -> & Hs' & Hw')|(W & I & W1)].
  - destruct (P1 j s' Hji) as [Pv Pk].
    { destruct (welcomed (st w j)) eqn:W; [right|left; auto]. rewrite (Hs' eq_refl).
      split; [exact (Hvj eq_refl)|intros Hin; apply Hkj, Hin]. }
    split; [intros _; exact Pv|]. intros Hin. split; [|exact (Pk Hin)].
    rewrite process1_welcomed. apply orb_true_iff. right. apply mem_In, Pv, Hin.
  - split; [congruence|]. intros Hin. exfalso. destruct (HM' j Hin) as [H|H]; [|congruence].
    destruct (Hkj H). congruence.
Qed.

Lemma ins_generated ms m kn s0 :
  (forall s', generated ms s' -> In s' kn) -> generated (ms ++ [m]) s0 -> In s0 (ins (length ms) kn).
Proof. intros Hk H. apply In_ins. apply generated_snoc in H. destruct H as [H|[-> _]]; auto. Qed.

Lemma process1_generated ms j s m :
  In j (m_rcpt m) -> (forall s', generated ms s' -> In s' (knows s)) ->
  forall s0, generated (ms ++ [m]) s0 -> In s0 (knows (process1 j s (length ms) m)).
Proof.
  intros R Hk s0 H. apply process1_knows. apply generated_snoc in H. destruct H as [H|[-> G]]; auto.
Qed.

Lemma op_post w M i o :
  SeqInv w M -> In i M -> valid_op (nmem w) i o -> round_ok w (next_members M o) i o.
Proof.
  intros (_ & _ & HM & Hok) Hi Hval.
  destruct (Hok i (HM i Hi)) as [Hvi Hki]. destruct (Hki Hi) as [Hwi Hall_i]. specialize (Hvi Hwi).
  destruct o as [init|x|x|]; cbn [valid_op] in Hval; [contradiction| | |].
  - (* Add x: nothing is generated; x gets the issuer's view and bundle *)
    destruct Hval as [_ Hxi].
    eapply (round_ok_intro w M _ i _ _ _ Hok);
      [unfold issue; rewrite Hwi, (proj2 (Nat.eqb_neq x i) Hxi); reflexivity| | |].
    + split; [intros _; exact (next_members_ext _ _ (Add x) Hvi)|].
      intros _. split; [reflexivity|]. intros s0 H. exact (Hall_i s0 (generated_snoc_other _ _ s0 H eq_refl)).
    + intros j Hj. apply In_ins in Hj. destruct Hj as [->|Hj]; [right; apply Nat.eqb_refl|now left].
    + intros j s Hji Hpre. unfold process1, is_welcome in *. cbn [m_op m_history m_bundle view knows] in *.
      destruct (Nat.eqb_spec x j) as [->|Nx].
      * split; [exact (next_members_ext _ _ (Add j) Hvi)|].
        intros _ s0 H. apply In_union. right. exact (Hall_i s0 (generated_snoc_other _ _ s0 H eq_refl)).
      * destruct Hpre as [Hpre|[Hv Hk]]; [discriminate|].
        split; [exact (next_members_ext _ _ (Add x) Hv)|].
        intros Hj s0 H. apply In_ins in Hj. destruct Hj as [->|Hj]; [contradiction|].
        exact (Hk Hj s0 (generated_snoc_other _ _ s0 H eq_refl)).
  - (* Remove x: the new secret goes to the view without i and x *)
    eapply (round_ok_intro w M _ i _ _ _ Hok); [unfold issue; rewrite Hwi; reflexivity| | |].
    + split; [intros _; exact (next_members_ext _ _ (Remove x) Hvi)|].
      intros _. split; [reflexivity|]. intros s0. now apply ins_generated.
    + intros j Hj. apply In_rem in Hj. now left.
    + intros j s Hji [Hpre|[Hv Hk]]; [discriminate|].
      split; [exact (next_members_ext _ _ (Remove x) Hv)|].
      intros Hj. apply In_rem in Hj. destruct Hj as [Hjx Hj].
      apply process1_generated; [|exact (Hk Hj)].
      apply In_rem. split; [exact Hjx|]. apply In_rem. split; [exact Hji|]. apply Hvi, Hj.
  - (* Update: the new secret goes to the view without i *)
    eapply (round_ok_intro w M _ i _ _ _ Hok); [unfold issue; rewrite Hwi; reflexivity| | |].
    + split; [intros _; exact Hvi|].
      intros _. split; [reflexivity|]. intros s0. now apply ins_generated.
    + intros j Hj. now left.
    + intros j s Hji [Hpre|[Hv Hk]]; [discriminate|].
      split; [exact Hv|]. intros Hj.
      apply process1_generated; [|exact (Hk Hj)]. apply In_rem. split; [exact Hji|]. apply Hvi, Hj.
Qed.

Lemma init_seq n : SeqInv (init_world n) [].
Proof.
  split; [|split; [|split]].
  - intros j k _ Hk. inversion Hk.
  - intros j k _ [].
  - intros j [].
  - intros j _. split; [discriminate|intros []].
Qed.

Lemma create_post n i init : round_ok (init_world n) (ins i (of_list init)) i (Create init).
Proof.
  set (M := ins i (of_list init)). destruct (init_seq n) as (_ & _ & _ & Hok).
  assert (Hnone : forall s', generated [] s' -> In s' []) by (intros s' (m0 & H & _); now destruct s').
  eapply (round_ok_intro (init_world n) [] M i _ _ _ Hok); [reflexivity| | |].
  - split; cbn [welcomed view knows]; [intros _ y; reflexivity|].
    intros _. split; [reflexivity|]. intros s0. now apply (ins_generated []).
  - intros j Hj. right. apply mem_In, Hj.
  - intros j s Hji _. split; [intros y; reflexivity|]. intros Hj.
    apply (process1_generated []); [|intros s' H; destruct (Hnone s' H)].
    cbn [m_rcpt]. apply In_rem. auto.
Qed.

Lemma round_inv w M' i o evs :
  quiescent w -> (forall j k, j < nmem w -> In k (dlv w j) -> k < length (msgs w)) ->
  i < nmem w -> (forall j, In j M' -> j < nmem w) -> round_ok w M' i o ->
  deliveries_only evs = true -> quiescent (run (fst (do_issue w i o)) evs) ->
  nmem (run (fst (do_issue w i o)) evs) = nmem w /\ SeqInv (run (fst (do_issue w i o)) evs) M'.
Proof.
  intros Hq Hold Hi HM' (s_i & m & Hiss & Hpi & Hpj) Hev. rewrite (do_issue_ok _ _ _ _ _ Hi Hiss). intros Hq'.
  destruct (in_round_run w i m _ Hpj evs _ Hev (in_round_start w i m _ s_i Hq Hold Hi Hpi)) as (Em & En & HJ).
  assert (HK : length (msgs w) < length (msgs w ++ [m])) by (rewrite app_length, Nat.add_1_r; apply Nat.lt_succ_diag_r).
  split; [exact En|]. split; [exact Hq'|]. rewrite En, Em. split; [|split].
  - intros j k Hj Hk. apply (HJ j Hj) in Hk. exact (Nat.le_lt_trans _ _ _ Hk HK).
  - exact HM'.
  - intros j Hj. apply (HJ j Hj). apply Hq'; [now rewrite En|now rewrite Em].
Qed.

(** Sequential histories: the group is created, then every operation is issued by a current
    member at a moment when everything issued before has been delivered to everyone; between two
    operations the pending message is delivered to the members in ANY order ([evs]: arbitrary
    [Deliver]/[Quiesce]/[Probe] events ending in a quiescent world). *)
Inductive seq_exec (n : nat) : world -> list member -> Prop :=
| se_create i init evs :
    i < n -> (forall x, In x init -> x < n) -> deliveries_only evs = true ->
    quiescent (run (fst (do_issue (init_world n) i (Create init))) evs) ->
    seq_exec n (run (fst (do_issue (init_world n) i (Create init))) evs) (ins i (of_list init))
| se_op w M i o evs :
    seq_exec n w M -> In i M -> valid_op n i o -> deliveries_only evs = true ->
    quiescent (run (fst (do_issue w i o)) evs) ->
    seq_exec n (run (fst (do_issue w i o)) evs) (next_members M o).

Theorem seq_exec_inv n w M : seq_exec n w M -> nmem w = n /\ SeqInv w M.
Proof.
  induction 1 as [i init evs Hi Hinit Hev Hq | w M i o evs _ [Hn IH] Hi Hval Hev Hq].
  - destruct (init_seq n) as (Hq0 & Hd0 & _).
    apply (round_inv (init_world n) _ i _ evs Hq0 Hd0 Hi); [|apply create_post|exact Hev|exact Hq].
    intros j Hj. apply In_ins in Hj. destruct Hj as [->|Hj]; [exact Hi|apply Hinit, In_of_list, Hj].
  - rewrite <- Hn in Hval. pose proof (op_post w M i o IH Hi Hval) as Hr.
    destruct IH as (Hq0 & Hd0 & HM0 & _).
    destruct (round_inv w (next_members M o) i o evs Hq0 Hd0 (HM0 i Hi)) as [A B]; try assumption.
    + intros j Hj. destruct o as [init|x|x|]; cbn [next_members] in Hj.
      * apply HM0, Hj.
      * apply In_ins in Hj. destruct Hj as [->|Hj]; [apply Hval|apply HM0, Hj].
      * apply In_rem in Hj. apply HM0, Hj.
      * apply HM0, Hj.
    + split; [congruence|exact B].
Qed.

Corollary seq_members_hold_and_decrypt n w M :
  seq_exec n w M ->
  forall j, In j M ->
    welcomed (st w j) = true /\ (forall x, In x (view (st w j)) <-> In x M) /\
    forall s, generated (msgs w) s -> In s (knows (st w j)) /\ can_decrypt w j s = true.
Proof.
  intros H j Hj. destruct (seq_exec_inv n w M H) as (_ & _ & _ & HM & Hok).
  destruct (Hok j (HM j Hj)) as [Hv Hk]. destruct (Hk Hj) as [W C].
  split; [exact W|]. split; [exact (Hv W)|].
  intros s G. split; [apply C, G|apply decrypt_iff_knows, C, G].
Qed.

Theorem seq_members_know_newest n w M :
  seq_exec n w M -> forall s j, newest (msgs w) s -> In j M -> In s (knows (st w j)).
Proof.
  intros H s j (m & H1 & H2 & _) Hj.
  destruct (seq_members_hold_and_decrypt n w M H j Hj) as (_ & _ & K).
  apply K. exists m. auto.
Qed.

(** Non-vacuity of the sequential theorem: a history with add, remove, update and a second add. *)
Example seq_exec_example :
  exists w M, seq_exec 4 w M /\ M = [0; 2; 3] /\ List.length (msgs w) = 5.
Proof.
  pose (w1 := run (fst (do_issue (init_world 4) 0 (Create [1]))) [Deliver 1 0; Quiesce]).
  pose (w2 := run (fst (do_issue w1 1 (Add 2))) [Deliver 2 1; Deliver 0 1; Quiesce]).
  pose (w3 := run (fst (do_issue w2 2 (Remove 1))) [Quiesce]).
  pose (w4 := run (fst (do_issue w3 0 Update)) [Deliver 3 3; Quiesce; Probe]).
  pose (w5 := run (fst (do_issue w4 2 (Add 3))) [Quiesce]).
  assert (E1 : seq_exec 4 w1 [0; 1]).
  { apply (se_create 4 0 [1] _); [lia| |reflexivity|apply quiescentb_sound; vm_compute; reflexivity].
    intros x [<-|[]]. lia. }
  assert (E2 : seq_exec 4 w2 [0; 1; 2]).
  { apply (se_op 4 w1 [0; 1] 1 (Add 2) _ E1);
      [cbn; auto|cbn; lia|reflexivity|apply quiescentb_sound; vm_compute; reflexivity]. }
  assert (E3 : seq_exec 4 w3 [0; 2]).
  { apply (se_op 4 w2 [0; 1; 2] 2 (Remove 1) _ E2);
      [cbn; auto|exact I|reflexivity|apply quiescentb_sound; vm_compute; reflexivity]. }
  assert (E4 : seq_exec 4 w4 [0; 2]).
  { apply (se_op 4 w3 [0; 2] 0 Update _ E3);
      [cbn; auto|exact I|reflexivity|apply quiescentb_sound; vm_compute; reflexivity]. }
  assert (E5 : seq_exec 4 w5 [0; 2; 3]).
  { apply (se_op 4 w4 [0; 2] 2 (Add 3) _ E4);
      [cbn; auto|cbn; lia|reflexivity|apply quiescentb_sound; vm_compute; reflexivity]. }
  exists w5, [0; 2; 3]. split; [exact E5|]. split; reflexivity.
Qed.

(** Members 0,1,2 form the group; 0 adds 3 while, concurrently, 1 updates the secret.  After
    everything is delivered to everyone, 3 is a member in everybody's view, holds itself to be
    one, but does not hold secret 2 — which was generated by a member holding every other
    secret, i.e. it is the newest one under [SecretBundle::generate]'s timestamp rule. *)
Definition concurrent_add_witness : list event :=
  [Issue 0 (Create [0; 1; 2]); Quiesce; Issue 0 (Add 3); Issue 1 Update; Quiesce].

Theorem members_know_latest_refuted :
  exists n evs,
    let w := run (init_world n) evs in
    quiescent w /\
    (forall j, j < n -> welcomed (st w j) = true /\ view (st w j) = seq 0 n) /\
    exists s j, j < n /\ newest (msgs w) s /\ ~ In s (knows (st w j)) /\ can_decrypt w j s = false.
Proof.
  exists 4, concurrent_add_witness. cbv zeta. split; [|split].
  - apply quiescentb_sound; vm_compute; reflexivity.
  - intros j Hj. do 4 (destruct j as [|j]; [vm_compute; auto|]). exfalso; lia.
  - exists 2, 3. split; [lia|]. split; [|split].
    + eexists. split; [vm_compute; reflexivity|]. split; [reflexivity|].
      intros s' (m' & H1 & H2) Hne.
      destruct s' as [|[|[|s']]]; vm_compute in H1.
      * cbn. auto.
      * inversion H1; subst m'. discriminate.
      * contradiction.
      * destruct s'; discriminate.
    + vm_compute. intros [H|[]]. discriminate.
    + vm_compute. reflexivity.
Qed.
