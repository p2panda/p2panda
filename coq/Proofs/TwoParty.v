(** Proofs about the symbolic 2SM model (Model/TwoParty.v): in every world reachable by any
    interleaving of sends of both parties, in-order receives and replays, the next pending
    message of either direction is accepted and yields exactly the plaintext it was sent with
    ([decrypts_in_send_order]), and handing a party a message it already processed is an error
    and leaves the world unchanged ([replay_rejected]).

    Trusted (by construction of the model, see its header): ideal PKE / ideal X3DH channel /
    fresh keys as names. *)
From Coq Require Import List NArith Bool Lia.
From PV Require Import Model.TwoParty.
Import ListNotations.
Local Open Scope N_scope.

Lemma party_eqb_refl p : party_eqb p p = true.
Proof. destruct p; reflexivity. Qed.

Lemma party_eqb_other p : party_eqb (other p) p = false.
Proof. destruct p; reflexivity. Qed.

Lemma party_eqb_other' p : party_eqb p (other p) = false.
Proof. destruct p; reflexivity. Qed.

Lemma other_other p : other (other p) = p.
Proof. destruct p; reflexivity. Qed.

Lemma party_cases p q : q = p \/ q = other p.
Proof. destruct p, q; auto. Qed.

Lemma upd_same {A} (f : party -> A) p v : upd f p v p = v.
Proof. unfold upd. now rewrite party_eqb_refl. Qed.

Lemma upd_other {A} (f : party -> A) p v : upd f p v (other p) = f (other p).
Proof. unfold upd. now rewrite party_eqb_other. Qed.

Lemma upd_other' {A} (f : party -> A) p v : upd f (other p) v p = f p.
Proof. unfold upd. now rewrite party_eqb_other'. Qed.

Lemma key_eqb_refl k : key_eqb k k = true.
Proof.
  destruct k as [p n w]. unfold key_eqb.
  rewrite party_eqb_refl, N.eqb_refl, Bool.eqb_reflx. reflexivity.
Qed.

Lemma key_eqb_idx_neq p n n' w : n <> n' -> key_eqb (K p n w) (K p n' w) = false.
Proof.
  intros H. unfold key_eqb. rewrite party_eqb_refl.
  destruct (N.eqb_spec n n') as [E|E]; [contradiction|reflexivity].
Qed.

Lemma lookup_app i l j k :
  lookup i (l ++ [(j, k)]) = match lookup i l with Some x => Some x | None => if N.eqb i j then Some k else None end.
Proof.
  induction l as [|[j0 k0] l IH]; cbn [lookup app].
  - reflexivity.
  - destruct (N.eqb i j0); [reflexivity|exact IH].
Qed.

Lemma lookup_filter (f : N -> bool) i l :
  lookup i (filter (fun e : N * key => f (fst e)) l) = if f i then lookup i l else None.
Proof.
  induction l as [|[j k] l IH]; cbn [lookup filter fst].
  - now destruct (f i).
  - destruct (f j) eqn:Fj; cbn [lookup].
    + destruct (N.eqb_spec i j) as [->|N]; [now rewrite Fj|exact IH].
    + destruct (N.eqb_spec i j) as [->|N]; [now rewrite Fj, IH, Fj|exact IH].
Qed.

Fixpoint numbered (x : party) (n : N) (q : list msg) (nend : N) : Prop :=
  match q with
  | [] => n = nend
  | m :: q' =>
      pl_next_index (payload_of m) = n /\ pl_recv_secret (payload_of m) = K x n true /\
      pl_sender_vk (payload_of m) = K x n false /\ numbered x (n + 1) q' nend
  end.

Definition own_idx (m : msg) : list N := match m_key_used m with OwnKey j => [j] | _ => [] end.
Definition own_idxs (q : list msg) : list N := flat_map own_idx q.

Fixpoint sorted_from (lo : N) (l : list N) : Prop :=
  match l with [] => True | j :: r => lo <= j /\ sorted_from (j + 1) r end.

(** A pending message for [y] is encrypted to a key [y] will hold when its turn comes: the
    bundle it published, the secret shipped with the message before, or one of its own keys that
    the sender has seen. *)
Inductive keyed_ok (ot : bool) (y : party) (rx : N) : msg -> Prop :=
| keyed_pre pl :
    pl_next_index pl = 1 -> keyed_ok ot y rx {| m_ct := CPre (bundle_of ot y) pl; m_key_used := PreKey |}
| keyed_received pl n :
    pl_next_index pl = n -> 2 <= n ->
    keyed_ok ot y rx {| m_ct := CHpke (K (other y) (n - 1) true) pl; m_key_used := ReceivedKey |}
| keyed_own j pl :
    j <= rx -> keyed_ok ot y rx {| m_ct := CHpke (K y j false) pl; m_key_used := OwnKey j |}.

(** An already processed message can never be opened again by [y], whose least own key is [lo]:
    the session is established (the [recv_key] test that the repair added to [decrypt]), the
    received secret has moved on, the own key is pruned. *)
Inductive dead (y : party) (lo ry : N) : msg -> Prop :=
| dead_pre b pl : 1 <= ry -> dead y lo ry {| m_ct := CPre b pl; m_key_used := PreKey |}
| dead_received n pl :
    n < ry -> dead y lo ry {| m_ct := CHpke (K (other y) n true) pl; m_key_used := ReceivedKey |}
| dead_own j k pl : j < lo -> dead y lo ry {| m_ct := CHpke k pl; m_key_used := OwnKey j |}.

Definition own_ok (y : party) (s : st) : Prop :=
  min_idx s <= next_idx s /\
  forall j, lookup j (own_keys s) =
            if N.leb (min_idx s) j && N.ltb j (next_idx s) then Some (K y j false) else None.

(** What the sender [x] believes about the receiver [y].  When it will name [y]'s own key [r],
    that key is newer than every own key named in the queue and not pruned: this is what keeps
    the queue's own indices sorted when the next message is appended. *)
Definition link (ot : bool) (x y : party) (sx sy : st) (rx : N) (pend : list msg) : Prop :=
  match next_used sx with
  | PreKey => their_vk sx = None /\ next_idx sx = 1
  | ReceivedKey => their_vk sx = Some (K x (next_idx sx - 1) true) /\ 2 <= next_idx sx
  | OwnKey r => their_vk sx = Some (K y r false) /\ r = rx /\
                Forall (fun j => j < r) (own_idxs pend) /\ min_idx sy <= r
  end /\ (their_bundle sx = None \/ their_bundle sx = Some (bundle_of ot y)).

(** The invariant of one direction, [other y -> y]: [sx] sender state, [sy], [gy] receiver state
    and key manager, [rx], [ry] how many messages sender / receiver processed, [pend], [dn] pending
    and processed messages of the receiver.
    [di_mgr0]: all that is needed of the key manager is that the first message finds the bundle's
    one-time secret in it, so it is pinned to the initial one until then and left free after.
    [di_min]: the receiver prunes only up to own keys the sender has seen, so the key [rx + 1] the
    sender names once it has processed one more message is still there. *)
Record DI (ot : bool) (y : party) (sx sy : st) (gy : mgr) (rx ry : N) (pend dn : list msg) : Prop := DI_intro {
  di_numbered : numbered (other y) (ry + 1) pend (next_idx sx);
  di_recv_key : recv_key sy = (if N.eqb ry 0 then None else Some (K (other y) ry true));
  di_own : own_ok y sy;
  di_keyed : Forall (keyed_ok ot y rx) pend;
  di_sorted : sorted_from (min_idx sy) (own_idxs pend);
  di_min : min_idx sy <= rx + 1;
  di_link : link ot (other y) y sx sy rx pend;
  di_mgr0 : ry = 0 -> gy = init_mgr ot y;
  di_dead : Forall (dead y (min_idx sy) ry) dn
}.

Definition Inv (ot : bool) (w : world) : Prop :=
  forall p, DI ot p (wst w (other p)) (wst w p) (wmgr w p) (rcvd w (other p)) (rcvd w p)
               (pending w p) (done w p).

Lemma numbered_le x n q nend : numbered x n q nend -> n <= nend.
Proof.
  revert n; induction q as [|m q IH]; intros n H; cbn [numbered] in H.
  - lia.
  - destruct H as (_ & _ & _ & H). apply IH in H. lia.
Qed.

Lemma numbered_snoc x n q nend m :
  numbered x n q nend ->
  pl_next_index (payload_of m) = nend -> pl_recv_secret (payload_of m) = K x nend true ->
  pl_sender_vk (payload_of m) = K x nend false ->
  numbered x n (q ++ [m]) (nend + 1).
Proof.
  revert n; induction q as [|m0 q IH]; intros n H H1 H2 H3; cbn [numbered app] in *.
  - subst n. auto.
  - destruct H as (A & B & C & D). repeat split; auto.
Qed.

Lemma own_idxs_app q1 q2 : own_idxs (q1 ++ q2) = own_idxs q1 ++ own_idxs q2.
Proof. unfold own_idxs. apply flat_map_app. Qed.

Lemma sorted_from_snoc lo l r :
  sorted_from lo l -> Forall (fun j => j < r) l -> lo <= r -> sorted_from lo (l ++ [r]).
Proof.
  revert lo; induction l as [|j l IH]; intros lo S F L; cbn [sorted_from app] in *.
  - auto.
  - destruct S as [S1 S2]. inversion F as [|? ? F1 F2]; subst. split; [exact S1|].
    apply IH; auto. lia.
Qed.

Lemma sorted_from_weaken lo lo' l : lo' <= lo -> sorted_from lo l -> sorted_from lo' l.
Proof. destruct l; cbn [sorted_from]; [auto|]. intros L [A B]. split; [lia|exact B]. Qed.

Lemma keyed_ok_mono ot y rx rx' m : rx <= rx' -> keyed_ok ot y rx m -> keyed_ok ot y rx' m.
Proof. intros L [pl H|pl n E H|j pl H]; constructor; [exact H|exact E|exact H|lia]. Qed.

Lemma keyed_own_bound ot y rx q :
  Forall (keyed_ok ot y rx) q -> Forall (fun j => j <= rx) (own_idxs q).
Proof.
  induction 1 as [|m q H _ IH]; [constructor|].
  destruct H as [pl H|pl n E H|j pl H]; [exact IH..|]. constructor; [exact H|exact IH].
Qed.

Lemma dead_mono y lo lo' r r' m : lo <= lo' -> r <= r' -> dead y lo r m -> dead y lo' r' m.
Proof. intros L1 L2 [b pl H|n pl H|j k pl H]; constructor; lia. Qed.

Lemma send_inv me s x s' m :
  send me s x = Ok (s', m) ->
  let pl := {| pl_plain := x; pl_recv_secret := K me (next_idx s) true;
               pl_sender_vk := K me (next_idx s) false; pl_next_index := next_idx s |} in
  exists c bdl,
    s' = {| next_idx := next_idx s + 1; min_idx := min_idx s;
            own_keys := own_keys s ++ [(next_idx s, K me (next_idx s) false)];
            recv_key := recv_key s; next_used := ReceivedKey; their_bundle := bdl;
            their_vk := Some (K me (next_idx s) true) |} /\
    m = {| m_ct := c; m_key_used := next_used s |} /\ payload_of m = pl /\
    (bdl = None \/ bdl = their_bundle s) /\
    match their_vk s with
    | Some k => c = CHpke k pl
    | None => exists b, their_bundle s = Some b /\ c = CPre b pl
    end.
Proof.
  intros H pl. unfold send in H. destruct (their_vk s) as [k|]; [|destruct (their_bundle s) as [b|]; [|discriminate]];
    injection H as <- <-; do 2 eexists; (split; [reflexivity|split; [reflexivity|split; [reflexivity|]]]).
  - split; [now right|reflexivity].
  - split; [now left|]. now exists b.
Qed.

Lemma send_carries_plain me s x s' m : send me s x = Ok (s', m) -> plain_of m = x.
Proof.
  intros H. destruct (send_inv _ _ _ _ _ H) as (c & bdl & _ & _ & E & _). unfold plain_of. now rewrite E.
Qed.

Definition pruned (s : st) (i : N) : st :=
  {| next_idx := next_idx s; min_idx := i + 1;
     own_keys := filter (fun e => negb (N.leb (min_idx s) (fst e) && N.leb (fst e) i)) (own_keys s);
     recv_key := recv_key s; next_used := next_used s;
     their_bundle := their_bundle s; their_vk := their_vk s |}.

Lemma decrypt_prekey ot me s pl :
  recv_key s = None ->
  exists g', decrypt me s (init_mgr ot me) {| m_ct := CPre (bundle_of ot me) pl; m_key_used := PreKey |} =
             Ok (s, g', pl).
Proof.
  intros R. unfold decrypt. cbn [m_key_used m_ct]. rewrite R.
  destruct ot; cbn; rewrite party_eqb_refl; now eexists.
Qed.

Lemma decrypt_received me s g k pl :
  recv_key s = Some k -> decrypt me s g {| m_ct := CHpke k pl; m_key_used := ReceivedKey |} = Ok (s, g, pl).
Proof. intros R. unfold decrypt. cbn [m_key_used m_ct]. now rewrite R, key_eqb_refl. Qed.

Lemma decrypt_own me s g i k pl :
  lookup i (own_keys s) = Some k ->
  decrypt me s g {| m_ct := CHpke k pl; m_key_used := OwnKey i |} = Ok (pruned s i, g, pl).
Proof. intros L. unfold decrypt. cbn [m_key_used m_ct]. now rewrite L, key_eqb_refl. Qed.

Lemma own_ok_send y s v s' m : own_ok y s -> send y s v = Ok (s', m) -> own_ok y s'.
Proof.
  intros (O2 & O3) Hs. destruct (send_inv _ _ _ _ _ Hs) as (c & bdl & -> & _).
  unfold own_ok. cbn [next_idx min_idx own_keys]. split; [lia|]. intros j. rewrite lookup_app, O3.
  destruct (N.ltb_spec j (next_idx s)) as [L|L].
  - rewrite (proj2 (N.ltb_lt j (next_idx s + 1))) by lia.
    destruct (N.leb (min_idx s) j); [reflexivity|]. now destruct (N.eqb_spec j (next_idx s)); [lia|].
  - rewrite andb_false_r. destruct (N.eqb_spec j (next_idx s)) as [->|NE].
    + rewrite (proj2 (N.leb_le _ _) O2), (proj2 (N.ltb_lt _ _)) by lia. reflexivity.
    + rewrite (proj2 (N.ltb_ge _ _)) by lia. now rewrite andb_false_r.
Qed.

Lemma own_ok_pruned y s i :
  own_ok y s -> min_idx s <= i -> i < next_idx s -> own_ok y (pruned s i).
Proof.
  intros (O2 & O3) L1 L2. unfold own_ok, pruned. cbn [next_idx min_idx own_keys].
  split; [lia|]. intros j.
  rewrite (lookup_filter (fun a => negb (N.leb (min_idx s) a && N.leb a i))), O3.
  destruct (N.ltb_spec j (next_idx s)); rewrite ?andb_false_r; [|now destruct (negb _)].
  destruct (N.leb_spec (i + 1) j).
  - rewrite (proj2 (N.leb_gt j i)), (proj2 (N.leb_le (min_idx s) j)) by lia. reflexivity.
  - rewrite (proj2 (N.leb_le j i)) by lia. now destruct (N.leb (min_idx s) j).
Qed.

Lemma send_dir ot y sx sy gy rx ry pend dn x s' m :
  DI ot y sx sy gy rx ry pend dn ->
  send (other y) sx x = Ok (s', m) ->
  DI ot y s' sy gy rx ry (pend ++ [m]) dn.
Proof.
  intros [Hn Hr Ho Hk Hs Hm [Hl Hb] Hg Hd] Hsend.
  pose proof (numbered_le _ _ _ _ Hn) as Hle.
  destruct (send_inv _ _ _ _ _ Hsend) as (c & bdl & -> & -> & Hpl & Hbdl & Hc).
  constructor; cbn [next_idx min_idx own_keys recv_key next_used their_bundle their_vk]; try assumption.
  - apply numbered_snoc; [exact Hn|rewrite Hpl; reflexivity..].
  - (* the new message is encrypted to the key the link names *)
    apply Forall_app. split; [exact Hk|]. constructor; [|constructor].
    destruct (next_used sx) as [| |r] eqn:Eu.
    + destruct Hl as (Hvk & Hnx). rewrite Hvk in Hc. destruct Hc as (b & Hb' & ->).
      assert (b = bundle_of ot y) as -> by (destruct Hb; congruence). now constructor.
    + destruct Hl as (Hvk & Hnx). rewrite Hvk in Hc. subst c. now constructor.
    + destruct Hl as (Hvk & -> & _). rewrite Hvk in Hc. subst c. constructor. apply N.le_refl.
  - rewrite own_idxs_app. unfold own_idxs at 2. cbn [flat_map]. unfold own_idx. cbn [m_key_used].
    destruct (next_used sx) as [| |r] eqn:Eu; cbn [app]; try (rewrite app_nil_r; exact Hs).
    destruct Hl as (_ & _ & Hf & Hmr). apply sorted_from_snoc; assumption.
  - split.
    + cbn [next_used their_vk next_idx]. rewrite N.add_sub. split; [reflexivity|lia].
    + cbn [their_bundle]. destruct Hbdl as [->| ->]; [now left|exact Hb].
Qed.

(** The sender also is the receiver of the opposite direction. *)
Lemma send_dir_back ot y sx sy gy rx ry pend dn v s' m :
  DI ot y sx sy gy rx ry pend dn ->
  send y sy v = Ok (s', m) ->
  DI ot y sx s' gy rx ry pend dn.
Proof.
  intros [Hn Hr Ho Hk Hs Hm [Hl Hb] Hg Hd] Hsend.
  destruct (send_inv _ _ _ _ _ Hsend) as (c & bdl & -> & _).
  constructor; cbn [min_idx recv_key]; try assumption.
  - exact (own_ok_send _ _ _ _ _ Ho Hsend).
  - split; assumption.
Qed.

(** What opening the head [m] of its queue makes of [y]'s state: [sy] before, [s1] after
    [decrypt].  Only [min_idx] and the own keys can change, and only when [m] names an own key
    [j]: then [j] is the least own index in the queue, so pruning up to [j] keeps the rest of the
    queue openable. *)
Record opened (y : party) (sy s1 : st) (rx ry : N) (m : msg) (q : list msg) : Prop := {
  op_next : next_idx s1 = next_idx sy;
  op_bundle : their_bundle s1 = their_bundle sy;
  op_own : own_ok y s1;
  op_min : min_idx sy <= min_idx s1;
  op_sorted : sorted_from (min_idx s1) (own_idxs q);
  op_rx : min_idx s1 <= rx + 1;
  op_below : forall r, Forall (fun j => j < r) (own_idxs (m :: q)) -> min_idx sy <= r -> min_idx s1 <= r;
  op_dead : dead y (min_idx s1) (ry + 1) m
}.

(** [rx + 1 <= next_idx sy]: [y] has sent whatever the other party has processed ([numbered_le]
    for the opposite direction). *)
Lemma decrypt_head ot y sx sy gy rx ry m q dn :
  DI ot y sx sy gy rx ry (m :: q) dn -> rx + 1 <= next_idx sy ->
  exists s1 g1, decrypt y sy gy m = Ok (s1, g1, payload_of m) /\ opened y sy s1 rx ry m q.
Proof.
  intros [[N1 _] Hr Ho Hk Hs Hm _ Hg _] Hrx. apply Forall_inv in Hk.
  destruct Hk as [pl Hone|pl n En H2|j pl Hj]; unfold payload_of, own_idxs in *;
    cbn [m_ct m_key_used flat_map own_idx app] in *.
  - assert (ry = 0) by lia. subst ry. rewrite (Hg eq_refl).
    destruct (decrypt_prekey ot y sy pl Hr) as (g' & ->).
    exists sy, g'. split; [reflexivity|]. constructor; auto using N.le_refl. constructor. lia.
  - replace (n - 1) with ry in * by lia.
    destruct (N.eqb_spec ry 0) as [Z|NZ]; [lia|]. rewrite (decrypt_received y sy gy _ pl Hr).
    exists sy, gy. split; [reflexivity|]. constructor; auto using N.le_refl. constructor. lia.
  - destruct Hs as [Hs1 Hs2].
    assert (Hlook : lookup j (own_keys sy) = Some (K y j false)).
    { destruct Ho as (_ & O3). rewrite O3.
      destruct (N.leb_spec (min_idx sy) j); [|lia]. destruct (N.ltb_spec j (next_idx sy)); [reflexivity|lia]. }
    rewrite (decrypt_own y sy gy j _ pl Hlook).
    exists (pruned sy j), gy. split; [reflexivity|].
    constructor; cbn [pruned next_idx their_bundle min_idx]; try reflexivity.
    + apply own_ok_pruned; [exact Ho|exact Hs1|lia].
    + lia.
    + exact Hs2.
    + lia.
    + intros r F _. apply Forall_inv in F. lia.
    + constructor. lia.
Qed.

Lemma receive_head ot y sx sy gy rx ry m q dn :
  DI ot y sx sy gy rx ry (m :: q) dn ->
  rx + 1 <= next_idx sy ->
  exists s' g',
    receive y sy gy m = Ok (s', g', plain_of m) /\
    DI ot y sx s' g' rx (ry + 1) q (dn ++ [m]) /\
    next_idx s' = next_idx sy /\ their_bundle s' = their_bundle sy /\
    next_used s' = OwnKey (ry + 1) /\ their_vk s' = Some (K (other y) (ry + 1) false).
Proof.
  intros HD Hrx.
  destruct (decrypt_head _ _ _ _ _ _ _ _ _ _ HD Hrx) as (s1 & g1 & Hdec & [E1 E2 Ho1 Hmin Hs1 Hm1 Hlk Hdead]).
  destruct HD as [(N1 & N2 & N3 & Hn) Hr Ho Hk Hs Hm [Hl Hb] Hg Hd].
  unfold receive. rewrite Hdec. do 2 eexists. split; [reflexivity|].
  cbn [next_idx their_bundle next_used their_vk]. rewrite N1, N3.
  split; [|repeat split; assumption].
  constructor; cbn [next_idx min_idx own_keys recv_key]; try assumption.
  - rewrite N2. now destruct (N.eqb_spec (ry + 1) 0); [lia|].
  - exact (Forall_inv_tail Hk).
  - split; [|exact Hb]. destruct (next_used sx) as [| |r]; try exact Hl.
    destruct Hl as (A & B & D & E). repeat (split; [assumption|]). split.
    + unfold own_idxs in D. cbn [flat_map] in D. apply Forall_app in D. apply D.
    + apply Hlk; assumption.
  - lia.
  - apply Forall_app. split; [|constructor; [exact Hdead|constructor]].
    eapply Forall_impl; [|exact Hd]. intros a. apply dead_mono; cbn [min_idx]; [exact Hmin|lia].
Qed.

(** The receiver also is the sender of the opposite direction. *)
Lemma receive_dir_back ot y sx sy gy rx ry pend dn s' :
  DI ot y sx sy gy rx ry pend dn ->
  next_idx s' = next_idx sx -> their_bundle s' = their_bundle sx ->
  next_used s' = OwnKey (rx + 1) -> their_vk s' = Some (K y (rx + 1) false) ->
  DI ot y s' sy gy (rx + 1) ry pend dn.
Proof.
  intros [Hn Hr Ho Hk Hs Hm [Hl Hb] Hg Hd] E1 E2 E3 E4.
  constructor; rewrite ?E1; auto.
  - eapply Forall_impl; [|exact Hk]. intros a. apply keyed_ok_mono. lia.
  - lia.
  - unfold link. rewrite E3, E4, E2. split; [|exact Hb].
    split; [reflexivity|]. split; [reflexivity|]. split; [|lia].
    pose proof (keyed_own_bound _ _ _ _ Hk) as F.
    eapply Forall_impl; [|exact F]. cbn beta. intros; lia.
Qed.

(** Both parties start in states that differ only in the bundle they hold. *)
Definition init_st (b : option bundle) : st :=
  {| next_idx := 1; min_idx := 1; own_keys := []; recv_key := None; next_used := PreKey;
     their_bundle := b; their_vk := None |}.

Lemma DI_init ot y bx b :
  bx = None \/ bx = Some (bundle_of ot y) ->
  DI ot y (init_st bx) (init_st b) (init_mgr ot y) 0 0 [] [].
Proof.
  intros Hb. constructor; cbn [init_st next_idx min_idx recv_key numbered N.add N.eqb own_idxs flat_map sorted_from];
    auto using N.le_refl.
  - unfold own_ok. cbn [init_st next_idx min_idx own_keys lookup].
    split; [apply N.le_refl|]. intros j.
    destruct (N.leb_spec 1 j); [|reflexivity]. destruct (N.ltb_spec j 1); [lia|reflexivity].
  - split; [|exact Hb]. cbn. auto.
Qed.

Lemma init_inv ot sym : Inv ot (init_world ot sym).
Proof. intros p. destruct p, sym; apply DI_init; auto. Qed.

Lemma Inv_recv ot w p m q :
  Inv ot w -> pending w p = m :: q ->
  exists s' g',
    receive p (wst w p) (wmgr w p) m = Ok (s', g', plain_of m) /\ Inv ot (fst (step w (Recv p))).
Proof.
  intros HI Ep. pose proof (HI p) as H. rewrite Ep in H.
  pose proof (HI (other p)) as H'. rewrite other_other in H'.
  (* the other party has received no more than [p] has sent *)
  pose proof (numbered_le _ _ _ _ (di_numbered _ _ _ _ _ _ _ _ _ H')) as Hrx.
  destruct (receive_head _ _ _ _ _ _ _ _ _ _ H Hrx) as (s' & g' & Er & HD & E1 & E2 & E3 & E4).
  exists s', g'. split; [exact Er|]. cbn [step]. rewrite Ep, Er.
  intros q0. cbn [fst wst wmgr pending done rcvd]. destruct (party_cases p q0) as [->| ->].
  - rewrite !upd_same, !upd_other. exact HD.
  - rewrite other_other, !upd_same, !upd_other. eapply receive_dir_back; eauto.
Qed.

Lemma replay_err ot w p m :
  Inv ot w -> In m (done w p) -> exists e, receive p (wst w p) (wmgr w p) m = Err e.
Proof.
  intros HI Hin. destruct (HI p) as [_ Hr (_ & O3) _ _ _ _ _ Hd].
  apply (proj1 (Forall_forall _ _) Hd) in Hin. unfold receive, decrypt.
  destruct Hin as [b pl H|n pl H|j k pl H]; cbn [m_key_used m_ct].
  - rewrite Hr. destruct (N.eqb_spec (rcvd w p) 0); [lia|]. eexists; reflexivity.
  - rewrite Hr. destruct (N.eqb_spec (rcvd w p) 0); [lia|].
    rewrite key_eqb_idx_neq by lia. eexists; reflexivity.
  - rewrite O3. destruct (N.leb_spec (min_idx (wst w p)) j); [lia|]. eexists; reflexivity.
Qed.

Lemma step_inv ot w e : Inv ot w -> in_order_event e = true -> Inv ot (fst (step w e)).
Proof.
  intros HI Hev. destruct e as [p x|p|p i|p k]; [| | |discriminate].
  - cbn [step]. destruct (send p (wst w p) x) as [[s' m]|er] eqn:Es; [|exact HI].
    intros q. cbn [fst wst wmgr pending done rcvd]. destruct (party_cases p q) as [->| ->].
    + rewrite upd_same, upd_other, upd_other'. eapply send_dir_back; [apply HI|exact Es].
    + rewrite other_other, upd_same, upd_other, upd_same.
      pose proof (HI (other p)) as H. rewrite other_other in H.
      eapply send_dir; [exact H|rewrite other_other; exact Es].
  - destruct (pending w p) as [|m q] eqn:Ep; [cbn [step]; rewrite Ep; exact HI|].
    now destruct (Inv_recv ot w p m q HI Ep) as (_ & _ & _ & HI').
  - cbn [step]. destruct (nth_error (done w p) i) as [m|] eqn:En; [|exact HI].
    destruct (replay_err ot w p m HI (nth_error_In _ _ En)) as [er ->]. exact HI.
Qed.

Lemma run_inv ot evs : forall w, Inv ot w -> forallb in_order_event evs = true -> Inv ot (fst (run w evs)).
Proof.
  induction evs as [|e evs IH]; intros w HI Hev; cbn [run].
  - exact HI.
  - cbn [forallb] in Hev. apply andb_prop in Hev. destruct Hev as [He Hev].
    pose proof (step_inv ot w e HI He) as H1.
    destruct (step w e) as [w1 o]. cbn [fst] in H1.
    specialize (IH w1 H1 Hev). destruct (run w1 evs) as [w2 os]. exact IH.
Qed.

Lemma reach_inv ot sym evs :
  forallb in_order_event evs = true -> Inv ot (fst (run (init_world ot sym) evs)).
Proof. apply run_inv, init_inv. Qed.

Theorem decrypts_in_send_order ot sym evs :
  forallb in_order_event evs = true ->
  let w := fst (run (init_world ot sym) evs) in
  forall p m q, pending w p = m :: q ->
    exists w', step w (Recv p) = (w', ORecv (plain_of m)) /\ pending w' p = q /\ rcvd w' p = rcvd w p + 1.
Proof.
  intros Hev w p m q Ep.
  destruct (Inv_recv ot w p m q (reach_inv ot sym evs Hev) Ep) as (s' & g' & Er & _).
  cbn [step]. rewrite Ep, Er. eexists. split; [reflexivity|].
  cbn [pending rcvd]. rewrite !upd_same. auto.
Qed.

Theorem replay_rejected ot sym evs :
  forallb in_order_event evs = true ->
  let w := fst (run (init_world ot sym) evs) in
  forall p i m, nth_error (done w p) i = Some m ->
    exists e, step w (Replay p i) = (w, ORecvErr e).
Proof.
  intros Hev w p i m En.
  destruct (replay_err ot w p m (reach_inv ot sym evs Hev) (nth_error_In _ _ En)) as [er Er].
  cbn [step]. rewrite En, Er. eauto.
Qed.

(** [done p ++ pending p] is what the other party sent, in send order: the bookkeeping of
    [step]. *)
Lemma step_sent w e p :
  let w' := fst (step w e) in
  (done w' p ++ pending w' p =
   done w p ++ pending w p ++
     match e with
     | Send x v => if party_eqb p (other x)
                   then match send x (wst w x) v with Ok (_, m) => [m] | Err _ => [] end else []
     | _ => []
     end).
Proof.
  destruct e as [x v|x|x i|x k]; cbn [step].
  - destruct (send x (wst w x) v) as [[s' m]|er]; cbn [fst pending done];
      destruct p, x; cbn [upd party_eqb other]; rewrite ?app_nil_r; reflexivity.
  - destruct (pending w x) as [|m q] eqn:Ep; cbn [fst]; [now rewrite app_nil_r|].
    destruct (receive x (wst w x) (wmgr w x) m) as [[[s' g'] v]|er]; cbn [fst pending done];
      [|now rewrite app_nil_r].
    destruct p, x; cbn [upd party_eqb]; rewrite ?Ep, ?app_nil_r, <- ?app_assoc; reflexivity.
  - destruct (nth_error (done w x) i) as [m|]; cbn [fst]; [|now rewrite app_nil_r].
    destruct (receive x (wst w x) (wmgr w x) m) as [[[s' g'] v]|er]; cbn [fst pending done];
      now rewrite app_nil_r.
  - destruct (nth_error (pending w x) (S k)) as [m|]; cbn [fst]; [|now rewrite app_nil_r].
    destruct (receive x (wst w x) (wmgr w x) m) as [[[s' g'] v]|er]; cbn [fst pending done];
      now rewrite app_nil_r.
Qed.

(** Non-vacuity: a concrete interleaving in which both directions have pending and processed
    messages (so both theorems speak about something). *)
Example hypotheses_satisfiable :
  let evs := [Send PA 0; Send PB 1; Send PA 2; Recv PB; Recv PA; Send PB 5; Replay PB 0] in
  forallb in_order_event evs = true /\
  let w := fst (run (init_world false true) evs) in
  List.length (pending w PB) = 1%nat /\ List.length (pending w PA) = 1%nat /\
  List.length (done w PB) = 1%nat /\ List.length (done w PA) = 1%nat.
Proof. vm_compute. repeat split. Qed.
