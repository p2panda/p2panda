(** Proofs about the state-vector diff model (Model/Heights.v), its use by [Cursor::compare]
    (Model/Cursor.v), and soundness of the C06 oracle [check_one] (Oracle/C06.v). *)
From Coq Require Import List Arith NArith Bool Lia.
From PV Require Import Model.Heights Model.Cursor Oracle.C06.
Import ListNotations.

(** Unique keys, as in a BTreeMap. *)
Definition wf_heights {V : Type} (m : list (N * list (N * V))) : Prop :=
  NoDup (keys m) /\ Forall (fun p => NoDup (keys (snd p))) m.

Lemma existsb_eqb_In (x : N) (l : list N) : existsb (N.eqb x) l = true <-> In x l.
Proof.
  rewrite existsb_exists. split.
  - intros [y [Hin Heq]]. apply N.eqb_eq in Heq. subst. exact Hin.
  - intros Hin. exists x. split; [exact Hin|apply N.eqb_refl].
Qed.

Lemma nodupb_spec (l : list N) : nodupb l = true <-> NoDup l.
Proof.
  induction l as [|x r IH]; cbn [nodupb].
  - split; [constructor|reflexivity].
  - rewrite andb_true_iff, negb_true_iff, <- not_true_iff_false, existsb_eqb_In, IH.
    symmetry. apply NoDup_cons_iff.
Qed.

Lemma wf_heightsb_spec {V : Type} (m : list (N * list (N * V))) :
  wf_heightsb m = true <-> wf_heights m.
Proof.
  unfold wf_heightsb, wf_heights. rewrite andb_true_iff, nodupb_spec, forallb_forall, Forall_forall.
  split; intros [H1 H2]; (split; [exact H1|]); intros p Hp; apply nodupb_spec, H2, Hp.
Qed.

Lemma alookup_In {V : Type} (k : N) (m : list (N * V)) v : alookup k m = Some v -> In (k, v) m.
Proof.
  induction m as [|[k' v'] r IH]; cbn [alookup]; [discriminate|].
  destruct (N.eqb k k') eqn:E.
  - apply N.eqb_eq in E. subst. intros H. injection H as ->. left. reflexivity.
  - intros H. right. apply IH, H.
Qed.

Lemma alookup_none_iff {V : Type} (k : N) (m : list (N * V)) : alookup k m = None <-> ~ In k (keys m).
Proof.
  induction m as [|[k' v'] r IH]; cbn [alookup keys map fst In]; [split; [intros _ []|reflexivity]|].
  destruct (N.eqb_spec k k') as [->|Hne].
  - split; [discriminate|]. intros H. destruct H. left. reflexivity.
  - rewrite IH. split.
    + intros H [E|Hin]; [congruence|exact (H Hin)].
    + intros H Hin. apply H. right. exact Hin.
Qed.

Lemma alookup_notin {V : Type} (k : N) (m : list (N * V)) : ~ In k (keys m) -> alookup k m = None.
Proof. apply alookup_none_iff. Qed.

Lemma alookup_some_in_keys {V : Type} (k : N) (m : list (N * V)) v :
  alookup k m = Some v -> In k (keys m).
Proof. intros H. apply alookup_In in H. apply (in_map fst) in H. exact H. Qed.

Lemma alookup_none_notin {V : Type} (k : N) (m : list (N * V)) : alookup k m = None -> ~ In k (keys m).
Proof. apply alookup_none_iff. Qed.

Lemma alookup_nodup_In {V : Type} (k : N) (m : list (N * V)) v :
  NoDup (keys m) -> In (k, v) m -> alookup k m = Some v.
Proof.
  induction m as [|[k' v'] r IH]; cbn [alookup keys map fst]; [intros _ []|].
  intros Hnd [Heq|Hin].
  - injection Heq as <- <-. rewrite N.eqb_refl. reflexivity.
  - apply NoDup_cons_iff in Hnd. destruct Hnd as [Hn Hr].
    destruct (N.eqb k k') eqn:E.
    + apply N.eqb_eq in E. subst. exfalso. apply Hn. apply (in_map fst) in Hin. exact Hin.
    + apply IH; assumption.
Qed.

Lemma alookup_ainsert {V : Type} (k k' : N) (v : V) (m : list (N * V)) :
  alookup k' (ainsert k v m) = if N.eqb k' k then Some v else alookup k' m.
Proof.
  induction m as [|[k0 v0] r IH]; cbn [ainsert alookup].
  - destruct (N.eqb k' k); reflexivity.
  - destruct (N.eqb k k0) eqn:E0.
    + apply N.eqb_eq in E0. subst k0. cbn [alookup]. destruct (N.eqb k' k); reflexivity.
    + destruct (N.ltb k k0).
      * cbn [alookup]. destruct (N.eqb k' k); reflexivity.
      * cbn [alookup]. rewrite IH. destruct (N.eqb k' k0) eqn:E1; [|reflexivity].
        destruct (N.eqb k' k) eqn:E2; [|reflexivity].
        apply N.eqb_eq in E1, E2. subst. rewrite N.eqb_refl in E0. discriminate.
Qed.

Lemma lookup2_set2 {V : Type} (m : list (N * list (N * V))) (a l a' l' : N) (v : V) :
  lookup2 (set2 m a l v) a' l' =
  if N.eqb a' a && N.eqb l' l then Some v else lookup2 m a' l'.
Proof.
  unfold lookup2, set2. rewrite alookup_ainsert.
  destruct (N.eqb a' a) eqn:Ea; cbn [andb]; [|reflexivity].
  apply N.eqb_eq in Ea. subst a'. rewrite alookup_ainsert.
  destruct (N.eqb l' l); [reflexivity|].
  destruct (alookup a m); reflexivity.
Qed.

Lemma lookup2_cons {V : Type} a0 (ll : list (N * V)) rest a l :
  lookup2 ((a0, ll) :: rest) a l = if N.eqb a a0 then alookup l ll else lookup2 rest a l.
Proof. unfold lookup2. cbn [alookup]. destruct (N.eqb a a0); reflexivity. Qed.

Lemma lookup2_notin {V : Type} (m : list (N * list (N * V))) a l :
  ~ In a (keys m) -> lookup2 m a l = None.
Proof. intros H. unfold lookup2. rewrite (alookup_notin _ _ H). reflexivity. Qed.

(** Both loops of [compare] walk a map and emit at most one entry per key, under the same key. *)

Definition amapf {V W : Type} (f : N -> V -> option W) (m : list (N * V)) : list (N * W) :=
  flat_map (fun p => match f (fst p) (snd p) with Some w => [(fst p, w)] | None => [] end) m.

Section Amapf.
  Context {V W : Type} (f : N -> V -> option W).

  Lemma amapf_cons k v r :
    amapf f ((k, v) :: r) = match f k v with Some w => (k, w) :: amapf f r | None => amapf f r end.
  Proof. unfold amapf. cbn [flat_map fst snd]. destruct (f k v); reflexivity. Qed.

  Lemma amapf_nil m : (forall k v, In (k, v) m -> f k v = None) -> amapf f m = [].
  Proof.
    induction m as [|[k v] r IH]; intros H; [reflexivity|].
    rewrite amapf_cons, (H k v (or_introl eq_refl)). apply IH. intros k' v' Hin. apply H. right. exact Hin.
  Qed.

  Lemma amapf_In m k w : In (k, w) (amapf f m) -> exists v, In (k, v) m /\ f k v = Some w.
  Proof.
    induction m as [|[k0 v0] r IH]; [intros []|]. rewrite amapf_cons.
    assert (Hr : In (k, w) (amapf f r) -> exists v, In (k, v) ((k0, v0) :: r) /\ f k v = Some w).
    { intros H. destruct (IH H) as (v & Hv & E). exists v. split; [right; exact Hv|exact E]. }
    destruct (f k0 v0) as [w0|] eqn:E0; [|exact Hr].
    intros [H|H]; [|exact (Hr H)]. injection H as -> ->. exists v0. split; [left; reflexivity|exact E0].
  Qed.

  Lemma amapf_keys m k : In k (keys (amapf f m)) -> In k (keys m).
  Proof.
    unfold keys. rewrite !in_map_iff. intros ([k' w] & <- & H).
    destruct (amapf_In m k' w H) as (v & Hv & _). exists (k', v). split; [reflexivity|exact Hv].
  Qed.

  Lemma amapf_nodup m : NoDup (keys m) -> NoDup (keys (amapf f m)).
  Proof.
    induction m as [|[k v] r IH]; [intros _; constructor|]. rewrite amapf_cons. cbn [keys map fst].
    intros Hnd. apply NoDup_cons_iff in Hnd. destruct Hnd as [Hn Hr].
    destruct (f k v); [|apply IH, Hr]. cbn [keys map fst].
    constructor; [|apply IH, Hr]. intros Hin. apply Hn, (amapf_keys r k Hin).
  Qed.

  Lemma alookup_amapf m k :
    NoDup (keys m) ->
    alookup k (amapf f m) = match alookup k m with Some v => f k v | None => None end.
  Proof.
    induction m as [|[k0 v0] r IH]; [reflexivity|]. rewrite amapf_cons. cbn [keys map fst alookup].
    intros Hnd. apply NoDup_cons_iff in Hnd. destruct Hnd as [Hn Hr]. specialize (IH Hr).
    destruct (N.eqb k k0) eqn:E.
    - apply N.eqb_eq in E. subst k0. destruct (f k v0); [cbn [alookup]; rewrite N.eqb_refl; reflexivity|].
      apply alookup_notin. intros Hin. apply Hn, (amapf_keys r k Hin).
    - destruct (f k0 v0); [cbn [alookup]; rewrite E|]; exact IH.
  Qed.
End Amapf.

(** The body of the inner loop of [compare], for one log. *)
Definition log_diff (rl : logs) (l h : N) : option range :=
  match alookup l rl with
  | None => Some (None, Some h)
  | Some r => if N.ltb r h then Some (Some r, Some h) else None
  end.

Lemma compare_logs_amapf ll rl : compare_logs ll rl = amapf (log_diff rl) ll.
Proof.
  induction ll as [|[l h] rest IH]; [reflexivity|]. rewrite amapf_cons. cbn [compare_logs]. unfold log_diff.
  destruct (alookup l rl) as [r|]; [destruct (N.ltb r h)|]; rewrite IH; reflexivity.
Qed.

Lemma logs_eqb_incl ll rl l h :
  logs_eqb ll rl = true -> alookup l ll = Some h -> alookup l rl = Some h.
Proof.
  unfold logs_eqb. rewrite andb_true_iff, forallb_forall. intros [_ Hall] Hl.
  apply alookup_In in Hl. specialize (Hall _ Hl). cbn [fst snd] in Hall.
  destruct (alookup l rl) as [v|]; [|discriminate].
  apply N.eqb_eq in Hall. subst. reflexivity.
Qed.

Lemma logs_eqb_refl ll : NoDup (keys ll) -> logs_eqb ll ll = true.
Proof.
  intros Hnd. unfold logs_eqb. rewrite Nat.eqb_refl. cbn [andb].
  apply forallb_forall. intros [l h] Hin. cbn [fst snd].
  rewrite (alookup_nodup_In _ _ _ Hnd Hin). apply N.eqb_refl.
Qed.

(** For an author the remote does not know, [compare] emits what the inner loop would against an
    empty remote map. *)
Lemma compare_logs_unknown ll :
  map (fun p => (fst p, (@None N, Some (snd p)))) ll = compare_logs ll [].
Proof.
  induction ll as [|[l h] rest IH]; [reflexivity|].
  cbn [map compare_logs alookup fst snd]. rewrite IH. reflexivity.
Qed.

(** The three ways the outer loop treats one author, as the entry it emits for it (if any). *)
Definition author_diff (orl : option logs) (ll : logs) : option (list (N * range)) :=
  match orl with
  | None => Some (map (fun p => (fst p, (None, Some (snd p)))) ll)
  | Some rl =>
      if logs_eqb ll rl then None
      else match compare_logs ll rl with [] => None | d => Some d end
  end.

Lemma compare_amapf L R : compare L R = amapf (fun a => author_diff (alookup a R)) L.
Proof.
  induction L as [|[a ll] rest IH]; [reflexivity|]. rewrite amapf_cons, <- IH. cbn [compare]. unfold author_diff.
  destruct (alookup a R) as [rl|]; [|reflexivity].
  destruct (logs_eqb ll rl); [reflexivity|]. destruct (compare_logs ll rl); reflexivity.
Qed.

(** For an author of [L]: an emitted entry has unique keys, holds exactly [spec_range], and is
    empty only if the author has no logs and the remote does not know it; the author is skipped
    only when [spec_range] asks for nothing. *)
Lemma author_diff_spec L R a ll :
  wf_heights L -> In (a, ll) L ->
  match author_diff (alookup a R) ll with
  | Some d => NoDup (keys d) /\ (forall l, alookup l d = spec_range L R a l) /\
              (d = [] -> ll = [] /\ alookup a R = None)
  | None => forall l, spec_range L R a l = None
  end.
Proof.
  intros [HL Hin] Hll.
  assert (Hnd : NoDup (keys ll)) by (rewrite Forall_forall in Hin; apply (Hin _ Hll)).
  (* [spec_range] for this author is [log_diff] against the remote's logs of the author *)
  set (rl' := match alookup a R with Some rl => rl | None => [] end).
  assert (Hs : forall l, spec_range L R a l =
                         match alookup l ll with Some h => log_diff rl' l h | None => None end).
  { intros l. unfold spec_range, lookup2, log_diff, rl'. rewrite (alookup_nodup_In _ _ _ HL Hll).
    destruct (alookup a R); reflexivity. }
  assert (Hc : NoDup (keys (compare_logs ll rl')) /\
               forall l, alookup l (compare_logs ll rl') = spec_range L R a l).
  { rewrite compare_logs_amapf. split; [apply amapf_nodup, Hnd|].
    intros l. rewrite alookup_amapf by exact Hnd. symmetry. apply Hs. }
  unfold author_diff, rl' in *. destruct (alookup a R) as [rl|].
  - destruct (logs_eqb ll rl) eqn:Eeq.
    + intros l. rewrite Hs. unfold log_diff. destruct (alookup l ll) as [h|] eqn:El; [|reflexivity].
      rewrite (logs_eqb_incl _ _ _ _ Eeq El), N.ltb_irrefl. reflexivity.
    + destruct (compare_logs ll rl) as [|e d].
      * intros l. symmetry. apply Hc.
      * split; [apply Hc|]. split; [apply Hc|discriminate].
  - rewrite compare_logs_unknown. split; [apply Hc|]. split; [apply Hc|].
    intros E. destruct ll as [|[l h] r]; [split; reflexivity|discriminate E].
Qed.

Lemma compare_wf L R : wf_heights L -> wf_heights (compare L R).
Proof.
  intros Hwf. rewrite compare_amapf. split; [apply amapf_nodup, Hwf|].
  apply Forall_forall. intros [a d] Hin. apply amapf_In in Hin. destruct Hin as (ll & Hll & E).
  pose proof (author_diff_spec L R a ll Hwf Hll) as Hd. rewrite E in Hd. apply Hd.
Qed.

Theorem compare_spec :
  forall (L R : heights) (a l : N),
    wf_heights L -> lookup2 (compare L R) a l = spec_range L R a l.
Proof.
  intros L R a l Hwf. unfold lookup2. rewrite compare_amapf, alookup_amapf by apply Hwf.
  destruct (alookup a L) as [ll|] eqn:EL.
  - pose proof (author_diff_spec L R a ll Hwf (alookup_In _ _ _ EL)) as Hd.
    destruct (author_diff (alookup a R) ll) as [d|]; [apply Hd|symmetry; apply Hd].
  - unfold spec_range, lookup2. rewrite EL. reflexivity.
Qed.

(** "A range for exactly those pairs where the remote is missing the log or is behind." *)
Theorem compare_range_iff :
  forall (L R : heights) (a l : N),
    wf_heights L ->
    ((exists rg, lookup2 (compare L R) a l = Some rg) <->
     (exists h, lookup2 L a l = Some h /\
                (lookup2 R a l = None \/ exists r, lookup2 R a l = Some r /\ (r < h)%N))).
Proof.
  intros L R a l Hwf. rewrite (compare_spec L R a l Hwf). unfold spec_range.
  destruct (lookup2 L a l) as [h|].
  - destruct (lookup2 R a l) as [r|].
    + destruct (N.ltb_spec r h) as [Hlt|Hge].
      * split; [|intros _; eexists; reflexivity].
        intros _. exists h. split; [reflexivity|]. right. exists r. split; [reflexivity|exact Hlt].
      * split; [intros [rg Hrg]; discriminate|].
        intros [h' [Hh [Hnone|[r' [Hr Hlt]]]]]; [discriminate|].
        injection Hh as <-. injection Hr as <-. lia.
    + split; [|intros _; eexists; reflexivity].
      intros _. exists h. split; [reflexivity|]. left. reflexivity.
  - split; [intros [rg Hrg]; discriminate|intros [h [Hh _]]; discriminate].
Qed.

Theorem compare_empty_inner :
  forall (L R : heights) (a : N),
    wf_heights L -> alookup a (compare L R) = Some [] ->
    alookup a L = Some [] /\ alookup a R = None.
Proof.
  intros L R a Hwf. rewrite compare_amapf, alookup_amapf by apply Hwf.
  destruct (alookup a L) as [ll|] eqn:EL; [|discriminate]. intros E.
  pose proof (author_diff_spec L R a ll Hwf (alookup_In _ _ _ EL)) as Hd.
  rewrite E in Hd. destruct Hd as (_ & _ & Hd). destruct (Hd eq_refl) as [-> ->]. split; reflexivity.
Qed.

Lemma apply_logs_lookup :
  forall (d : list (N * range)) (R : heights) (a0 a l : N),
    NoDup (keys d) ->
    lookup2 (apply_logs R a0 d) a l =
    if N.eqb a a0 then
      match alookup l d with
      | Some (_, Some u) => Some u
      | _ => lookup2 R a l
      end
    else lookup2 R a l.
Proof.
  unfold apply_logs.
  induction d as [|[l0 [f u]] rest IH]; intros R a0 a l Hnd.
  - cbn [fold_left alookup]. destruct (N.eqb a a0); reflexivity.
  - cbn [keys map fst] in Hnd. apply NoDup_cons_iff in Hnd. destruct Hnd as [Hn Hr].
    cbn [fold_left fst snd alookup]. rewrite (IH _ a0 a l Hr).
    destruct (N.eqb a a0) eqn:Ea.
    2: { destruct u; [rewrite lookup2_set2, Ea|]; reflexivity. }
    destruct (N.eqb l l0) eqn:El.
    2: { destruct u; [rewrite lookup2_set2, Ea, El|]; reflexivity. }
    apply N.eqb_eq in El. subst l0. rewrite (alookup_notin _ _ Hn).
    destruct u; [rewrite lookup2_set2, Ea, N.eqb_refl|]; reflexivity.
Qed.

Definition merged (R : heights) (D : ranges) (a l : N) : option N :=
  match lookup2 D a l with
  | Some (_, Some u) => Some u
  | _ => lookup2 R a l
  end.

Lemma apply_diff_lookup :
  forall (D : ranges) (R : heights) (a l : N),
    wf_heights D -> lookup2 (apply_diff R D) a l = merged R D a l.
Proof.
  unfold apply_diff, merged.
  induction D as [|[a0 d] rest IH]; intros R a l Hwf.
  - reflexivity.
  - destruct Hwf as [Hk Hi]. cbn [keys map fst] in Hk.
    apply NoDup_cons_iff in Hk. destruct Hk as [Hn Hr].
    apply Forall_cons_iff in Hi. destruct Hi as [Hd Hrest]. cbn [snd] in Hd.
    cbn [fold_left fst snd]. rewrite (IH (apply_logs R a0 d) a l (conj Hr Hrest)).
    rewrite lookup2_cons. rewrite (apply_logs_lookup d R a0 a l Hd).
    destruct (N.eqb a a0) eqn:Ea; [|reflexivity].
    apply N.eqb_eq in Ea. subst a0. rewrite (lookup2_notin rest a l Hn). reflexivity.
Qed.

Theorem merge_is_max :
  forall (L R : heights) (a l : N),
    wf_heights L ->
    lookup2 (apply_diff R (compare L R)) a l = omax (lookup2 L a l) (lookup2 R a l).
Proof.
  intros L R a l Hwf.
  rewrite (apply_diff_lookup _ R a l (compare_wf L R Hwf)). unfold merged.
  rewrite (compare_spec L R a l Hwf). unfold spec_range, omax.
  destruct (lookup2 L a l) as [h|]; [|reflexivity].
  destruct (lookup2 R a l) as [r|]; [|reflexivity].
  destruct (N.ltb_spec r h) as [Hlt|Hge]; f_equal; symmetry.
  - apply N.max_l, N.lt_le_incl, Hlt.
  - apply N.max_r, Hge.
Qed.

Theorem compare_self_empty : forall (L : heights), wf_heights L -> compare L L = [].
Proof.
  intros L [HL Hin]. rewrite compare_amapf. apply amapf_nil. intros a ll Hll. unfold author_diff.
  rewrite (alookup_nodup_In _ _ _ HL Hll), logs_eqb_refl; [reflexivity|].
  rewrite Forall_forall in Hin. apply (Hin _ Hll).
Qed.

(** Order on optional lower bounds of a range: [None] ("from the start") is below everything. *)
Definition from_le (x y : option N) : Prop :=
  match x, y with
  | None, _ => True
  | Some a, Some b => (a <= b)%N
  | Some _, None => False
  end.

Definition heights_le (R R' : heights) : Prop :=
  forall a l r, lookup2 R a l = Some r -> exists r', lookup2 R' a l = Some r' /\ (r <= r')%N.

(** The further ahead the remote, the less it needs. *)
Theorem compare_antimonotone :
  forall (L R R' : heights) (a l : N) (f' u' : option N),
    wf_heights L -> heights_le R R' ->
    lookup2 (compare L R') a l = Some (f', u') ->
    exists f, lookup2 (compare L R) a l = Some (f, u') /\ from_le f f'.
Proof.
  intros L R R' a l f' u' Hwf Hle. rewrite !(compare_spec L _ a l Hwf). unfold spec_range.
  destruct (lookup2 L a l) as [h|]; [|discriminate].
  destruct (lookup2 R a l) as [r|] eqn:ER.
  - destruct (Hle a l r ER) as [r' [ER' Hrr']]. rewrite ER'.
    destruct (N.ltb_spec r' h) as [Hlt'|Hge']; [|discriminate].
    intros H. injection H as <- <-.
    destruct (N.ltb_spec r h) as [Hlt|Hge]; [|lia].
    exists (Some r). split; [reflexivity|exact Hrr'].
  - intros H. exists None. split; [|exact I].
    destruct (lookup2 R' a l) as [r'|].
    + destruct (N.ltb r' h); [|discriminate]. injection H as _ <-. reflexivity.
    + injection H as _ <-. reflexivity.
Qed.

Theorem cursor_compare_spec :
  forall (c : cursor) (other : heights) (a l : N),
    wf_heights other -> lookup2 (cursor_compare c other) a l = spec_range other (cstate c) a l.
Proof. intros c other a l Hwf. unfold cursor_compare. apply compare_spec, Hwf. Qed.

Lemma lookup2_in_pairs {V : Type} (m : list (N * list (N * V))) a l v :
  lookup2 m a l = Some v -> In (a, l) (pairs m).
Proof.
  unfold lookup2, pairs. destruct (alookup a m) as [inner|] eqn:Ea; [|discriminate].
  intros Hl. apply in_flat_map. exists (a, inner). split; [apply alookup_In, Ea|].
  cbn [fst snd]. apply alookup_In in Hl. apply (in_map (fun q => (a, fst q))) in Hl. exact Hl.
Qed.

Lemma lookup2_not_in_pairs {V : Type} (m : list (N * list (N * V))) a l :
  ~ In (a, l) (pairs m) -> lookup2 m a l = None.
Proof.
  intros Hn. destruct (lookup2 m a l) as [v|] eqn:E; [|reflexivity].
  destruct (Hn (lookup2_in_pairs _ _ _ _ E)).
Qed.

Lemma oN_eqb_eq x y : oN_eqb x y = true -> x = y.
Proof.
  destruct x, y; cbn [oN_eqb]; try discriminate; try reflexivity.
  intros H. apply N.eqb_eq in H. subst. reflexivity.
Qed.

Lemma orange_eqb_eq x y : orange_eqb x y = true -> x = y.
Proof.
  destruct x as [[f1 u1]|], y as [[f2 u2]|]; cbn [orange_eqb]; try discriminate; try reflexivity.
  rewrite andb_true_iff. intros [H1 H2]. apply oN_eqb_eq in H1, H2. subst. reflexivity.
Qed.

(** [check_one] is the only part of the C06 oracle with a proof; [check] is two calls of it. *)
Theorem check_one_sound :
  forall (L R : heights) (D : ranges),
    check_one L R D = true ->
    forall a l,
      lookup2 D a l = spec_range L R a l /\
      lookup2 (apply_diff R D) a l = omax (lookup2 L a l) (lookup2 R a l).
Proof.
  intros L R D H a l. unfold check_one in H.
  apply andb_true_iff in H. destruct H as [H H2]. apply andb_true_iff in H. destruct H as [Hwf H1].
  apply wf_heightsb_spec in Hwf. rewrite forallb_forall in H1, H2.
  assert (Hks : In (a, l) (pairs L ++ pairs R ++ pairs D) \/
                lookup2 L a l = None /\ lookup2 R a l = None /\ lookup2 D a l = None).
  { destruct (lookup2 L a l) eqn:EL.
    { left. apply in_or_app. left. exact (lookup2_in_pairs _ _ _ _ EL). }
    destruct (lookup2 R a l) eqn:ER.
    { left. apply in_or_app. right. apply in_or_app. left. exact (lookup2_in_pairs _ _ _ _ ER). }
    destruct (lookup2 D a l) eqn:ED.
    { left. apply in_or_app. right. apply in_or_app. right. exact (lookup2_in_pairs _ _ _ _ ED). }
    right. repeat split. }
  destruct Hks as [Hin|(EL & ER & ED)].
  - split; [apply orange_eqb_eq, (H1 (a, l) Hin)|apply oN_eqb_eq, (H2 (a, l) Hin)].
  - (* a log that none of [L], [R], [D] mentions is absent on every side *)
    split.
    + unfold spec_range. rewrite EL. exact ED.
    + rewrite (apply_diff_lookup D R a l Hwf). unfold merged. rewrite ED, ER, EL. reflexivity.
Qed.

Definition exL : heights := [(0, [(0, 5); (1, 2)]); (1, [(0, 7)]); (2, []); (3, [(4, 1)])]%N.
Definition exR : heights := [(0, [(0, 3); (1, 2); (2, 9)]); (1, [(0, 9)]); (3, [(4, 1)])]%N.

Example ex_wf : wf_heights exL /\ wf_heights exR.
Proof. split; apply wf_heightsb_spec; vm_compute; reflexivity. Qed.

Example ex_compare :
  compare exL exR = [(0, [(0, (Some 3, Some 5))]); (2, [])]%N /\
  lookup2 (apply_diff exR (compare exL exR)) 0%N 0%N = Some 5%N /\
  lookup2 (apply_diff exR (compare exL exR)) 1%N 0%N = Some 9%N /\
  lookup2 (apply_diff exR (compare exL exR)) 0%N 2%N = Some 9%N.
Proof. vm_compute. repeat split. Qed.

Example ex_antimonotone : heights_le [(0, [(0, 1)])]%N exR.
Proof.
  intros a l r H. unfold lookup2 in H. cbn [alookup] in H.
  destruct (N.eqb a 0) eqn:Ea; [|discriminate]. cbn [alookup] in H.
  destruct (N.eqb l 0) eqn:El; [|discriminate]. injection H as <-.
  apply N.eqb_eq in Ea, El. subst. exists 3%N. split; [reflexivity|lia].
Qed.

Example ex_check : check exL exR (compare exL exR) (cursor_compare (cursor_new 0 exR) exL) = true.
Proof. vm_compute. reflexivity. Qed.
