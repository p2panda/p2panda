(** C19, part 1 -- what one side sends is a function of its own replica and the peer's Have only
    ([script]), whatever the interleaving of ticks and received messages. *)
From Coq Require Import List NArith.
From PV Require Import Model.Dedup Model.LogSync Proofs.LogSyncC20.
Import ListNotations.

Definition addp (x y : N * N) : N * N := (fst x + fst y, snd x + snd y)%N.

Lemma addp_0_r x : addp x (0, 0)%N = x.
Proof. destruct x as [a b]. unfold addp. cbn [fst snd]. rewrite !N.add_0_r. reflexivity. Qed.

Lemma addp_0_l x : addp (0, 0)%N x = x.
Proof. destruct x as [a b]. reflexivity. Qed.

Lemma addp_assoc x y z : addp (addp x y) z = addp x (addp y z).
Proof. unfold addp. cbn [fst snd]. rewrite !N.add_assoc. reflexivity. Qed.

Definition size_of (r : replica) (alr : N * N * range) : N * N :=
  log_size r (fst (fst alr)) (snd (fst alr)) (snd alr).

(* [total_size] is written in the model with an explicit lambda; the fold below is convertible to
   it, which [unfold total_size] and [rewrite IH] rely on. *)
Lemma total_size_acc r todo : forall acc,
  fold_left (fun ob alr => addp ob (size_of r alr)) todo acc = addp acc (total_size r todo).
Proof.
  unfold total_size. induction todo as [|alr todo IH]; intros acc.
  - symmetry. apply addp_0_r.
  - cbn [fold_left]. rewrite IH. symmetry. rewrite IH, <- addp_assoc. reflexivity.
Qed.

Lemma total_size_cons r alr todo :
  total_size r (alr :: todo) = addp (size_of r alr) (total_size r todo).
Proof. rewrite <- total_size_acc. reflexivity. Qed.

Definition tail_msgs (r : replica) (todo : list (N * N * range)) : list msg :=
  flat_map (range_ops r) todo ++ [Done].

Definition arm_todo (a : N) (lrs : list (N * range)) : list (N * N * range) :=
  map (fun lr => (a, fst lr, snd lr)) lrs.

(** What is still to be sent from a state, the store holding [r].  While the sizes are summed
    ([PSendPreSync]) the totals run over what is left to count ([todo]), the operations over
    everything needed. *)
Definition remaining (r : replica) (s : st) : list msg :=
  match ph s with
  | PSendPreSync needs todo ops bytes =>
      let ob := addp (ops, bytes) (total_size r todo) in
      if N.ltb 0 (snd ob) then PreSync (fst ob) (snd ob) :: tail_msgs r (flat_needs needs) else [Done]
  | PReceivePreSyncOrDone needs _ _ => if done_sent s then [] else tail_msgs r (flat_needs needs)
  | PSync rest None => if done_sent s then [] else tail_msgs r (flat_needs rest)
  | PSync rest (Some alr) => flat_map (range_ops r) (arm_todo (fst alr) (snd alr)) ++ tail_msgs r (flat_needs rest)
  | _ => []
  end.

(** [done_sent] is still false wherever the code has not yet decided about its Done. *)
Definition wfst (s : st) : Prop :=
  match ph s with
  | PStart _ | PSendHave _ _ | PReceiveHave _ | PSendPreSync _ _ _ _ => done_sent s = false
  | PSync _ (Some _) => done_sent s = false
  | _ => True
  end.

Definition tick_of (r : replica) (i : input) : Prop :=
  match i with Tick r' => r' = r | _ => True end.

Definition orelse {A} (x y : option A) : option A :=
  match x with Some a => Some a | None => y end.

Lemma flat_needs_cons alr rest :
  flat_needs (alr :: rest) = arm_todo (fst alr) (snd alr) ++ flat_needs rest.
Proof. reflexivity. Qed.

Lemma move_wfst s i s' o : move s i s' o -> wfst s -> wfst s'.
Proof. destruct 1; unfold wfst; cbn; trivial. Qed.

Lemma closed_wfst s : wfst s -> wfst (fst (closed s)).
Proof. apply (move_wfst s Closed _ _ (step_move s Closed)). Qed.

Definition post (p : phase) : bool :=
  match p with
  | PSendPreSync _ _ _ _ | PReceivePreSyncOrDone _ _ _ | PSync _ _ | PEnd => true
  | _ => false
  end.

Lemma move_post s i s' o : move s i s' o -> post (ph s) = true -> post (ph s') = true \/ ph s' = PFailed.
Proof. destruct 1; cbn; auto. Qed.

Lemma move_remaining r s i s' o :
  move s i s' o -> tick_of r i ->
  wfst s -> post (ph s) = true -> post (ph s') = true ->
  sent o ++ remaining r s' = remaining r s.
Proof.
  destruct 1; unfold wfst, remaining, tick_of; cbn [ph done_sent sent app fst snd post failed set_ph];
    intros Hi W Po Po'; subst; try discriminate; try reflexivity.
  - (* MSize *) rewrite total_size_cons, <- addp_assoc. reflexivity.
  - (* MPreSync *) rewrite addp_0_r. cbn [fst snd]. rewrite H. reflexivity.
  - (* MNothing *) rewrite addp_0_r. cbn [fst snd]. rewrite H. reflexivity.
  - (* MArm *) unfold tail_msgs. rewrite flat_needs_cons, flat_map_app, <- app_assoc. reflexivity.
  - (* MRange *) rewrite sent_op_msgs. cbn [arm_todo map flat_map]. rewrite <- app_assoc. reflexivity.
  - (* MGotOp *) destruct (snd (insert d (r_id w))); reflexivity.
Qed.

Definition static (r : replica) (ins : list input) : Prop :=
  Forall (fun i => match i with Tick r' => r' = r | _ => True end) ins.

Definition accepted (s : st) (i : input) : option heights :=
  match ph s, i with
  | PReceiveHave _, Recv (Have h) => Some h
  | _, _ => None
  end.

Fixpoint have_of_run (s : st) (ins : list input) : option heights :=
  match ins with
  | [] => None
  | i :: t => match accepted s i with
              | Some h => Some h
              | None => have_of_run (fst (step true s i)) t
              end
  end.

(** [ms]: the messages sent so far; [hv]: the Have accepted from the peer so far. *)
Definition post_inv (r : replica) (logs : list (N * list N)) (s : st) (ms : list msg) (hv : option heights) : Prop :=
  exists h, hv = Some h /\ ms ++ remaining r s = script r logs h.

Definition sinv (r : replica) (logs : list (N * list N)) (s : st) (ms : list msg) (hv : option heights) : Prop :=
  wfst s /\
  match ph s with
  | PStart l => l = logs /\ ms = [] /\ hv = None
  | PSendHave todo acc => acc ++ local_heights r todo = local_heights r logs /\ ms = [] /\ hv = None
  | PReceiveHave local => local = local_heights r logs /\ ms = [Have local] /\ hv = None
  | PFailed => True
  | _ => post_inv r logs s ms hv
  end.

Lemma sinv_post r logs s ms hv :
  post (ph s) = true -> (sinv r logs s ms hv <-> wfst s /\ post_inv r logs s ms hv).
Proof. unfold sinv. destruct (ph s); cbn; intros E; try discriminate; tauto. Qed.

Lemma sinv_failed r logs s ms hv : ph s = PFailed -> sinv r logs s ms hv.
Proof. intros E. unfold sinv, wfst. rewrite E. auto. Qed.

Lemma accepted_post s i : post (ph s) = true -> accepted s i = None.
Proof. unfold accepted. destruct (ph s); cbn; intros E; try discriminate; reflexivity. Qed.

Lemma local_heights_cons r al todo :
  local_heights r (al :: todo) =
  (match log_heights r (fst al) (snd al) with None => [] | Some h => [(fst al, h)] end) ++ local_heights r todo.
Proof. reflexivity. Qed.

Lemma move_sinv_post r logs s i s' o ms hv :
  move s i s' o -> tick_of r i ->
  post (ph s) = true ->
  sinv r logs s ms hv ->
  sinv r logs s' (ms ++ sent o) (orelse hv (accepted s i)).
Proof.
  intros M Hi Po I. apply (sinv_post r logs s ms hv Po) in I. destruct I as [W [h [-> E]]].
  destruct (move_post _ _ _ _ M Po) as [Po'|F]; [|apply sinv_failed; exact F].
  apply sinv_post; [exact Po'|]. split; [exact (move_wfst _ _ _ _ M W)|].
  exists h. split; [reflexivity|].
  rewrite <- app_assoc, (move_remaining r _ _ _ _ M Hi W Po Po'). exact E.
Qed.

Lemma move_sinv_pre r logs s i s' o ms hv :
  move s i s' o -> tick_of r i ->
  post (ph s) = false ->
  sinv r logs s ms hv ->
  sinv r logs s' (ms ++ sent o) (orelse hv (accepted s i)).
Proof.
  intros M Hi Po [W Inv]. split; [exact (move_wfst _ _ _ _ M W)|].
  destruct M; cbn [ph post] in Po; try discriminate Po; cbn [ph sent accepted tick_of] in *; subst.
  - (* MIdle *) rewrite app_nil_r. unfold accepted.
    destruct (ph s) eqn:P, hv; try exact Inv. destruct i as [|[]|]; try exact Inv.
    specialize (H0 _ eq_refl). unfold can_recv in H0. rewrite P in H0. discriminate.
  - (* MFail *) exact I.
  - (* MStart *) destruct Inv as [-> [-> ->]]. repeat split.
  - (* MHeights *) destruct Inv as [E [-> ->]]. repeat split.
    rewrite <- E, local_heights_cons.
    destruct (log_heights r (fst al) (snd al)); [rewrite <- app_assoc|]; reflexivity.
  - (* MHave *) destruct Inv as [E [-> ->]]. cbn in E. rewrite app_nil_r in E. repeat split. exact E.
  - (* MGotHave *) destruct Inv as [-> [-> ->]]. exists h. split; [reflexivity|].
    unfold remaining, script. cbn [ph]. rewrite addp_0_l. reflexivity.
Qed.

Lemma step_sinv r logs s i ms hv :
  tick_of r i ->
  sinv r logs s ms hv ->
  sinv r logs (fst (step true s i)) (ms ++ sent (snd (step true s i)))
       (orelse hv (accepted s i)).
Proof.
  intros Hi I. destruct (post (ph s)) eqn:Po;
    [apply move_sinv_post|apply move_sinv_pre]; try assumption; apply step_move.
Qed.

Lemma run_sinv r logs ins : forall s ms hv,
  static r ins -> sinv r logs s ms hv ->
  sinv r logs (fst (run true s ins)) (ms ++ sent (snd (run true s ins)))
       (orelse hv (have_of_run s ins)).
Proof.
  induction ins as [|i ins IH]; intros s ms hv St I.
  - cbn. rewrite app_nil_r. destruct hv; exact I.
  - inversion St as [|? ? Hi St']; subst. cbn [run fst snd have_of_run].
    rewrite sent_app, app_assoc.
    specialize (IH (fst (step true s i)) (ms ++ sent (snd (step true s i)))
                   (orelse hv (accepted s i)) St'
                   (step_sinv r logs s i ms hv Hi I)).
    destruct hv as [h|]; [exact IH|]. destruct (accepted s i); exact IH.
Qed.

Lemma run_init_sinv r logs cap ins :
  static r ins ->
  sinv r logs (fst (run true (init logs cap) ins)) (sent (snd (run true (init logs cap) ins)))
       (have_of_run (init logs cap) ins).
Proof.
  intros St. apply (run_sinv r logs ins (init logs cap) [] None St). repeat split.
Qed.

Theorem script_thm (r : replica) (logs : list (N * list N)) (cap : nat) (ins : list input) :
  static r ins ->
  ph (fst (run true (init logs cap) ins)) = PEnd ->
  exists h, have_of_run (init logs cap) ins = Some h /\
            sent (snd (run true (init logs cap) ins)) = script r logs h.
Proof.
  intros St E. destruct (run_init_sinv r logs cap ins St) as [_ I]. rewrite E in I.
  destruct I as [h [Hh Eq]]. exists h. split; [exact Hh|].
  unfold remaining in Eq. rewrite E, app_nil_r in Eq. exact Eq.
Qed.

Lemma sinv_prefix r logs s ms hv :
  sinv r logs s ms hv -> ph s <> PFailed ->
  exists suffix, ms ++ suffix = match hv with
                                | Some h => script r logs h
                                | None => [Have (local_heights r logs)]
                                end.
Proof.
  intros I NF. destruct (post (ph s)) eqn:Po.
  - apply sinv_post in I; [|exact Po]. destruct I as [_ [h [-> Eq]]]. eexists. exact Eq.
  - destruct I as [_ I]. destruct (ph s); try discriminate Po; try congruence.
    + destruct I as [_ [-> ->]]. eexists. reflexivity.
    + destruct I as [_ [-> ->]]. eexists. reflexivity.
    + destruct I as [-> [-> ->]]. exists []. reflexivity.
Qed.

Theorem script_prefix (r : replica) (logs : list (N * list N)) (cap : nat) (ins : list input) :
  static r ins ->
  ph (fst (run true (init logs cap) ins)) <> PFailed ->
  exists suffix,
    sent (snd (run true (init logs cap) ins)) ++ suffix =
    match have_of_run (init logs cap) ins with
    | Some h => script r logs h
    | None => [Have (local_heights r logs)]
    end.
Proof. intros St NF. exact (sinv_prefix _ _ _ _ _ (run_init_sinv r logs cap ins St) NF). Qed.

Corollary script_interleaving_independent r logs cap ins1 ins2 :
  static r ins1 -> static r ins2 ->
  ph (fst (run true (init logs cap) ins1)) = PEnd ->
  ph (fst (run true (init logs cap) ins2)) = PEnd ->
  have_of_run (init logs cap) ins1 = have_of_run (init logs cap) ins2 ->
  sent (snd (run true (init logs cap) ins1)) = sent (snd (run true (init logs cap) ins2)).
Proof.
  intros S1 S2 E1 E2 H.
  destruct (script_thm r logs cap ins1 S1 E1) as [h1 [H1 ->]].
  destruct (script_thm r logs cap ins2 S2 E2) as [h2 [H2 ->]].
  congruence.
Qed.

Example script_example :
  let ins := ex_ins_static in
  static ex_r ins /\ ph (fst (run true (init ex_logs 8) ins)) = PEnd /\
  sent (snd (run true (init ex_logs 8) ins)) = script ex_r ex_logs [] /\
  length (script ex_r ex_logs []) = 5.
Proof.
  cbn zeta. split; [repeat constructor|]. vm_compute. repeat split.
Qed.
