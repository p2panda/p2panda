(** Proofs about the live-mode forwarding model (Model/Live.v) — property C23.

    Trusted assumptions = the Section hypotheses below, which become explicit premises of the
    theorems about runs ("within the de-duplication window"): the operations occurring in the flow
    and in the sync-phase seeds come from a finite universe [U] that fits into every
    buffer ([length U <= capS], [length U <= capM]), so no buffer ever evicts during the flow;
    seeds are duplicate free and identical across the sessions of a topic (all sessions of a
    manager sync the same store).  Those theorems hold for EVERY label sequence (every
    interleaving of arrivals — with duplicates from several sessions —, manager steps, session
    pumps and local publications); what each claims in terms of the code is said in
    Properties/C23.v. *)
From Coq Require Import List Arith NArith Bool.
From PV Require Import Model.Dedup Proofs.Dedup Model.Live.
Import ListNotations.

Lemma snoc_split {A} : forall (l : list A) e l1 e' l2,
  l ++ [e] = l1 ++ e' :: l2 ->
  (l2 = [] /\ l1 = l /\ e' = e) \/ (exists l2', l2 = l2' ++ [e] /\ l = l1 ++ e' :: l2').
Proof.
  intros l e l1 e' l2 H. destruct l2 as [|x l2' _] using rev_ind.
  - left. apply app_inj_tail in H. destruct H as [-> ->]. auto.
  - right. exists l2'. rewrite app_comm_cons, app_assoc in H.
    apply app_inj_tail in H. destruct H as [-> ->]. auto.
Qed.

Lemma upd_same {A} (f : N -> A) k v : upd f k v k = v.
Proof. unfold upd. rewrite N.eqb_refl. reflexivity. Qed.

Lemma upd_other {A} (f : N -> A) k v x : x <> k -> upd f k v x = f x.
Proof. intro H. unfold upd. destruct (N.eqb x k) eqn:E; [apply N.eqb_eq in E; contradiction | reflexivity]. Qed.

Ltac upd_cases s s0 := unfold upd; destruct (N.eqb s s0) eqn:?E; [apply N.eqb_eq in E; subst s|apply N.eqb_neq in E].

Lemma iff_same_gain : forall A A' B B' G : Prop,
  (A' <-> A \/ G) -> (B' <-> B \/ G) -> (A <-> B) -> (A' <-> B').
Proof.
  intros A A' B B' G HA HB H.
  split; intro X; [apply HB; apply HA in X | apply HA; apply HB in X];
    (destruct X as [X|X]; [left; apply H; exact X | right; exact X]).
Qed.

Lemma or_guard_true : forall P Q R : Prop, R -> (P \/ Q <-> P \/ (R /\ Q)).
Proof. intros P Q R HR. split; (intros [H|H]; [left; exact H | right]); [split; assumption | apply H]. Qed.

Lemma or_guard_false : forall P Q R : Prop, ~ R -> (P <-> P \/ (R /\ Q)).
Proof. intros P Q R HR. split; [auto | intros [H|[H _]]; [exact H | contradiction]]. Qed.

Lemma in_push {A} (b : bool) (l : list A) x y : In y (if b then l ++ [x] else l) <-> In y l \/ (b = true /\ y = x).
Proof. destruct b; [rewrite in_snoc; apply or_guard_true; reflexivity | apply or_guard_false; discriminate]. Qed.

Lemma in_upd_push (q : N -> list N) k x s y : In y (upd q k (q k ++ [x]) s) <-> In y (q s) \/ (s = k /\ y = x).
Proof. upd_cases s k; [rewrite in_snoc; apply or_guard_true; reflexivity | apply or_guard_false; exact E]. Qed.

Lemma in_upd_pop (q : N -> list N) k x r s y :
  q k = x :: r -> (In y (q s) <-> In y (upd q k r s) \/ (s = k /\ y = x)).
Proof.
  intro Hq. upd_cases s k; [|apply or_guard_false; exact E].
  rewrite Hq, <- (or_guard_true _ _ _ eq_refl). cbn [In]. rewrite or_comm. split; (intros [H|H]; [left; exact H | right; symmetry; exact H]).
Qed.

Lemma same_topic_spec : forall c a b,
  same_topic c a b = true <-> exists t, topic_of c a = Some t /\ topic_of c b = Some t.
Proof.
  intros c a b. unfold same_topic, in_topic. split.
  - destruct (topic_of c a) as [t|]; [|discriminate]. destruct (topic_of c b) as [t'|]; [|discriminate].
    intro H. apply N.eqb_eq in H. subst. eauto.
  - intros (t & -> & ->). apply N.eqb_refl.
Qed.

Lemma same_topic_sym : forall c a b, same_topic c a b = true -> same_topic c b a = true.
Proof. intros c a b H. apply same_topic_spec in H. destruct H as (t & H1 & H2). apply same_topic_spec. eauto. Qed.

Lemma same_topic_trans : forall c a b d, same_topic c a b = true -> same_topic c b d = true -> same_topic c a d = true.
Proof.
  intros c a b d H1 H2. apply same_topic_spec in H1, H2. destruct H1 as (t & A1 & B1). destruct H2 as (t' & B2 & D2).
  rewrite B1 in B2. inversion B2; subst. apply same_topic_spec. eauto.
Qed.

Lemma same_topic_refl_l : forall c a b, same_topic c a b = true -> same_topic c a a = true.
Proof. intros c a b H. eapply same_topic_trans; [exact H | apply same_topic_sym; exact H]. Qed.

Lemma in_topic_same : forall c a b t, in_topic c a t = true -> same_topic c a b = true -> in_topic c b t = true.
Proof.
  intros c a b t H1 H2. apply same_topic_spec in H2. destruct H2 as (t' & A & B).
  unfold in_topic in *. rewrite A in H1. rewrite B. exact H1.
Qed.

Lemma in_topic_both : forall c a b t, in_topic c a t = true -> in_topic c b t = true -> same_topic c a b = true.
Proof.
  intros c a b t H1 H2. unfold in_topic in *. apply same_topic_spec.
  destruct (topic_of c a) as [ta|]; [|discriminate]. destruct (topic_of c b) as [tb|]; [|discriminate].
  apply N.eqb_eq in H1, H2. subst. eauto.
Qed.

Lemma topic_of_in : forall c s t, topic_of c s = Some t -> In s (map sid c).
Proof.
  induction c as [|x r IH]; intros s t H; cbn in *; [discriminate|].
  destruct (N.eqb (sid x) s) eqn:E; [left; apply N.eqb_eq; exact E | right; eapply IH; exact H].
Qed.

Lemma quiescent_spec : forall c st s, quiescent c st = true -> In s (map sid c) -> inq st s = [] /\ evq st s = [].
Proof.
  intros c st s H Hin. apply in_map_iff in Hin. destruct Hin as (x & <- & Hx).
  pose proof (proj1 (forallb_forall _ c) H x Hx) as Hx'. cbn beta in Hx'.
  destruct (inq st (sid x)); [|discriminate]. destruct (evq st (sid x)); [|discriminate]. auto.
Qed.

Section LiveProofs.
Variable c : config.
Variable seed : N -> list N.
Variables capS capM : nat.
Variable U : list N.
Hypothesis HcapS : length U <= capS.
Hypothesis HcapM : length U <= capM.
Hypothesis Hseed_U : forall s op, In op (seed s) -> In op U.
Hypothesis Hseed_nd : forall s, NoDup (seed s).
Hypothesis Hseed_same : forall a b, same_topic c a b = true -> incl (seed a) (seed b).

Definition label_ok (l : label) : Prop :=
  match l with Arrive _ op | Publish _ op => In op U | _ => True end.

Definition win (b : buf) : Prop := NoDup (items b) /\ incl (items b) U /\ length U <= cap b.

Lemma win_insert : forall b x, win b -> In x U ->
  win (fst (insert b x)) /\ forall y, In y (items (fst (insert b x))) <-> In y (items b) \/ y = x.
Proof.
  intros b x (Hnd & Hin & Hcap) Hx.
  assert (Hiff : forall y, In y (items (fst (insert b x))) <-> In y (items b) \/ y = x).
  { intro y. split; [apply insert_only|]. intros [H| ->]; [|apply insert_in].
    revert y H. apply insert_noevict. intro Hn.
    (* a new item and the old ones are [length (items b) + 1] different members of [U] *)
    assert (Hl : length (x :: items b) <= length U).
    { apply NoDup_incl_length; [constructor; assumption | intros z [<-|Hz]; auto]. }
    exact (Nat.le_trans _ _ _ Hl Hcap). }
  split; [|exact Hiff]. split; [apply insert_nodup; exact Hnd|]. split; [|rewrite insert_cap; exact Hcap].
  intros y Hy. apply Hiff in Hy. destruct Hy as [Hy| ->]; auto.
Qed.

Definition known (st : state) (s op : N) : Prop := In op (items (dd st s)).

(** What [step] does to the session buffers when session [s0] takes [op0]. *)
Definition learn (d : N -> buf) (s0 op0 : N) : N -> buf := upd d s0 (fst (insert (d s0) op0)).

Lemma learn_win : forall d s0 op0, (forall s, win (d s)) -> In op0 U -> forall s, win (learn d s0 op0 s).
Proof.
  intros d s0 op0 Hd Hop s. unfold learn. upd_cases s s0; [apply win_insert; auto | apply Hd].
Qed.

Lemma learn_spec : forall d s0 op0, win (d s0) -> In op0 U ->
  forall s op, In op (items (learn d s0 op0 s)) <-> In op (items (d s)) \/ (s = s0 /\ op = op0).
Proof.
  intros d s0 op0 Hw Hop s op. unfold learn. upd_cases s s0.
  - eapply iff_trans; [apply (win_insert _ _ Hw Hop) | apply or_guard_true; reflexivity].
  - apply or_guard_false. exact E.
Qed.

Record InvA (st : state) : Prop := {
  a_dd : forall s, win (dd st s);
  a_mdd : win (mdd st);
  a_inq : forall s op, In op (inq st s) -> In op U;
  a_evq : forall s op, In op (evq st s) -> In op U
}.

Lemma invA_init : InvA (init seed capS capM).
Proof.
  constructor; cbn.
  - intro s. split; [apply Hseed_nd | split; [intro op; apply Hseed_U | exact HcapS]].
  - split; [constructor | split; [intros op [] | exact HcapM]].
  - intros s op [].
  - intros s op [].
Qed.

Inductive step_view (st : state) : label -> state -> Prop :=
| sv_arrive : forall s op, In op U ->
    step_view st (Arrive s op)
      {| dd := learn (dd st) s op; inq := inq st;
         evq := if negb (memN op (items (dd st s))) then upd (evq st) s (evq st s ++ [op]) else evq st;
         mdd := mdd st; log := log st ++ [EArr s op] |}
| sv_mgr : forall s op r, evq st s = op :: r -> In op U ->
    step_view st (Mgr s)
      {| dd := dd st; inq := fun x => if fwd c s x then inq st x ++ [op] else inq st x;
         evq := upd (evq st) s r; mdd := fst (insert (mdd st) op);
         log := if negb (memN op (items (mdd st))) then log st ++ [ECons s op] else log st |}
| sv_pump : forall s op r, inq st s = op :: r -> In op U ->
    step_view st (Pump s)
      {| dd := learn (dd st) s op; inq := upd (inq st) s r; evq := evq st; mdd := mdd st;
         log := if negb (memN op (items (dd st s))) then log st ++ [ESent s op] else log st |}
| sv_publish : forall t op, In op U ->
    step_view st (Publish t op)
      {| dd := dd st; inq := fun x => if in_topic c x t then inq st x ++ [op] else inq st x;
         evq := evq st; mdd := mdd st; log := log st |}
| sv_idle : forall l, match l with Mgr s => evq st s = [] | Pump s => inq st s = [] | _ => False end ->
    step_view st l st.

Lemma step_viewP : forall st l, InvA st -> label_ok l -> step_view st l (step c st l).
Proof.
  intros st [s op|s|s|t op] HA Hl; cbn [step].
  - rewrite (surjective_pairing (insert (dd st s) op)), insert_fresh. apply sv_arrive. exact Hl.
  - destruct (evq st s) as [|op r] eqn:Hq; [apply sv_idle; exact Hq|].
    rewrite (surjective_pairing (insert (mdd st) op)), insert_fresh.
    apply sv_mgr; [exact Hq | apply (a_evq _ HA s); rewrite Hq; left; reflexivity].
  - destruct (inq st s) as [|op r] eqn:Hq; [apply sv_idle; exact Hq|].
    rewrite (surjective_pairing (insert (dd st s) op)), insert_fresh.
    apply sv_pump; [exact Hq | apply (a_inq _ HA s); rewrite Hq; left; reflexivity].
  - apply sv_publish. exact Hl.
Qed.

Ltac step_cases st l HA Hl :=
  destruct (step_viewP st l HA Hl) as [s0 op0 Hop|s0 op0 r Hq Hop|s0 op0 r Hq Hop|t op0 Hop|l _];
  destruct HA as [A1 A2 A3 A4].

Lemma invA_step : forall st l, InvA st -> label_ok l -> InvA (step c st l).
Proof.
  intros st l HA Hl. step_cases st l HA Hl; constructor; cbn [dd inq evq mdd]; auto using learn_win.
  (* left, in this order: Arrive [evq]; Mgr [mdd], [inq], [evq]; Pump [inq]; Publish [inq] *)
  - intros s op H. destruct (negb _); [apply in_upd_push in H; destruct H as [H|[_ ->]]|]; eauto.
  - apply win_insert; assumption.
  - intros s op H. apply in_push in H. destruct H as [H|[_ ->]]; eauto.
  - intros s op H. apply (A4 s). apply (in_upd_pop _ _ _ _ s op Hq). left. exact H.
  - intros s op H. apply (A3 s). apply (in_upd_pop _ _ _ _ s op Hq). left. exact H.
  - intros s op H. apply in_push in H. destruct H as [H|[_ ->]]; eauto.
Qed.

Definition novel (before : list entry) (e : entry) : Prop :=
  match e with
  | ESent s op => ~ In (ESent s op) before /\ ~ In (EArr s op) before /\ ~ In op (seed s)
  | ECons _ op => forall s', ~ In (ECons s' op) before
  | EArr _ _ => True
  end.

Definition good (l : list entry) : Prop := forall l1 e l2, l = l1 ++ e :: l2 -> novel l1 e.

Lemma good_nil : good [].
Proof. intros l1 e l2 H. destruct l1; discriminate H. Qed.

Lemma good_snoc : forall l e, good l -> novel l e -> good (l ++ [e]).
Proof.
  intros l e Hg He l1 e' l2 H. apply snoc_split in H. destruct H as [(-> & -> & ->) | (l2' & -> & ->)].
  - exact He.
  - eapply Hg. reflexivity.
Qed.

(** Read from the earlier entry's side: nothing after [e] repeats it. *)
Lemma good_later : forall l1 e l2 e', good (l1 ++ e :: l2) -> In e' l2 ->
  match e' with
  | ESent s op => e <> ESent s op /\ e <> EArr s op
  | ECons _ op => forall s', e <> ECons s' op
  | EArr _ _ => True
  end.
Proof.
  intros l1 e l2 e' Hg Hin. apply in_split in Hin. destruct Hin as (m1 & m2 & ->).
  specialize (Hg (l1 ++ e :: m1) e' m2). rewrite <- app_assoc in Hg. specialize (Hg eq_refl).
  destruct e' as [s op|s op|s op]; [exact I| |].
  - destruct Hg as (G1 & G2 & _). split; intros ->; [apply G1 | apply G2]; apply in_elt.
  - intros s' ->. apply (Hg s'). apply in_elt.
Qed.

Definition explained (l : list entry) (s op : N) : Prop :=
  In op (seed s) \/ In (EArr s op) l \/ In (ESent s op) l.

Definition consumed (l : list entry) (op : N) : Prop := exists s, In (ECons s op) l.

Lemma explained_snoc : forall l e s op,
  explained (l ++ [e]) s op <-> explained l s op \/ (EArr s op = e \/ ESent s op = e).
Proof.
  intros l e s op. unfold explained. split.
  - intros [H|[H|H]]; [auto | |]; apply in_snoc in H; destruct H as [H|H]; auto.
  - intros [[H|[H|H]]|[H|H]]; [auto | right; left | right; right | right; left | right; right];
      apply in_snoc; auto.
Qed.

Lemma explained_own : forall l e s0 op0 s op, EArr s0 op0 = e \/ ESent s0 op0 = e ->
  (explained (l ++ [e]) s op <-> explained l s op \/ (s = s0 /\ op = op0)).
Proof.
  intros l e s0 op0 s op He. eapply iff_trans; [apply explained_snoc|]. apply or_iff_compat_l. split.
  - intros [H|H]; destruct He as [He|He]; rewrite <- He in H; try discriminate H; injection H; auto.
  - intros [-> ->]. exact He.
Qed.

Lemma explained_cons : forall l s0 op0 s op, explained (l ++ [ECons s0 op0]) s op <-> explained l s op.
Proof.
  intros l s0 op0 s op. eapply iff_trans; [apply explained_snoc|]. split; [|auto].
  intros [H|[H|H]]; [exact H | discriminate H | discriminate H].
Qed.

Lemma consumed_snoc : forall l e op,
  consumed (l ++ [e]) op <-> consumed l op \/ exists s, e = ECons s op.
Proof.
  intros l e op. split.
  - intros [s H]. apply in_snoc in H. destruct H as [H|H]; [left | right]; exists s; auto.
  - intros [[s H]|[s ->]]; exists s; apply in_snoc; auto.
Qed.

Lemma consumed_snoc_other : forall l e op,
  (forall s, e <> ECons s op) -> (consumed (l ++ [e]) op <-> consumed l op).
Proof.
  intros l e op He. eapply iff_trans; [apply consumed_snoc|]. split; [|auto].
  intros [H|[s H]]; [exact H | destruct (He s H)].
Qed.

Lemma consumed_cons : forall l s0 op0 op, consumed (l ++ [ECons s0 op0]) op <-> consumed l op \/ op = op0.
Proof.
  intros l s0 op0 op. eapply iff_trans; [apply consumed_snoc|]. apply or_iff_compat_l. split.
  - intros [s H]. injection H; auto.
  - intros ->. exists s0. reflexivity.
Qed.

Record InvB (st : state) : Prop := {
  b_dd_log : forall s op, known st s op <-> explained (log st) s op;
  b_m_log : forall op, In op (items (mdd st)) <-> consumed (log st) op;
  b_good : good (log st)
}.

Lemma invB_init : InvB (init seed capS capM).
Proof.
  constructor; cbn.
  - intros s op. unfold known, explained. cbn. split; [auto | intros [H|[[]|[]]]; exact H].
  - intros op. split; [intros [] | intros [s []]].
  - apply good_nil.
Qed.

Lemma invB_step : forall st l, InvA st -> InvB st -> label_ok l -> InvB (step c st l).
Proof.
  intros st l HA [B1 B2 B3] Hl. unfold known in *. step_cases st l HA Hl.
  - constructor; unfold known; cbn [dd mdd log].
    + intros s op. exact (iff_same_gain _ _ _ _ _ (learn_spec _ _ _ (A1 s0) Hop s op) (explained_own _ _ _ _ _ _ (or_introl eq_refl)) (B1 s op)).
    + intro op. apply (iff_trans (B2 op)). symmetry. apply consumed_snoc_other. discriminate.
    + apply good_snoc; [exact B3 | exact I].
  - destruct (win_insert _ _ A2 Hop) as [_ Hm].
    destruct (memN_reflect op0 (items (mdd st))) as [Hdup|Hnew]; cbn [negb]; constructor; unfold known; cbn [dd mdd log].
    + exact B1.
    + intro op. apply (iff_trans (Hm op)). split.
      * intros [H| ->]; apply B2; assumption.
      * intro H. left. apply B2. exact H.
    + exact B3.
    + intros s op. apply (iff_trans (B1 s op)). symmetry. apply explained_cons.
    + intro op. exact (iff_same_gain _ _ _ _ _ (Hm op) (consumed_cons _ _ _ _) (B2 op)).
    + apply good_snoc; [exact B3|]. intros s' H. apply Hnew. apply B2. exists s'. exact H.
  - pose proof (learn_spec _ _ _ (A1 s0) Hop) as HK.
    destruct (memN_reflect op0 (items (dd st s0))) as [Hdup|Hnew]; cbn [negb]; constructor; unfold known; cbn [dd mdd log].
    + intros s op. apply (iff_trans (HK s op)). apply B1 in Hdup. split.
      * intros [H|[-> ->]]; [apply B1; exact H | exact Hdup].
      * intro H. left. apply B1. exact H.
    + exact B2.
    + exact B3.
    + intros s op. exact (iff_same_gain _ _ _ _ _ (HK s op) (explained_own _ _ _ _ _ _ (or_intror eq_refl)) (B1 s op)).
    + intro op. apply (iff_trans (B2 op)). symmetry. apply consumed_snoc_other. discriminate.
    + apply good_snoc; [exact B3|]. repeat split; intro H; apply Hnew; apply B1; unfold explained; auto.
  - constructor; assumption.
  - constructor; assumption.
Qed.

Definition held (st : state) (s op : N) : Prop := known st s op \/ In op (inq st s).

Definition in_transit (st : state) (s op : N) : Prop :=
  exists s2, In op (evq st s2) /\ same_topic c s s2 = true.

Record InvC (st : state) : Prop := {
  c_evq_known : forall s op, In op (evq st s) -> known st s op;
  c_cover : forall s op s', held st s op -> same_topic c s s' = true -> held st s' op \/ in_transit st s op
}.

Lemma invC_init : InvC (init seed capS capM).
Proof.
  constructor; cbn.
  - intros s op [].
  - intros s op s' [H|[]] Hs. left. left. unfold known in *. cbn in *. eapply Hseed_same; eassumption.
Qed.

Lemma fwd_intro : forall s0 s', same_topic c s0 s' = true -> s' <> s0 -> fwd c s0 s' = true.
Proof.
  intros s0 s' H Hn. unfold fwd. rewrite H. cbn. apply negb_true_iff. apply N.eqb_neq. exact Hn.
Qed.

Lemma fwd_same_topic : forall s0 x, fwd c s0 x = true -> same_topic c s0 x = true.
Proof. intros s0 x H. unfold fwd in H. apply andb_true_iff in H. destruct H as [H _]. exact H. Qed.

Lemma invC_step : forall st l, InvA st -> InvC st -> label_ok l -> InvC (step c st l).
Proof.
  intros st l HA [C1 C2] Hl. step_cases st l HA Hl.
  - (* Arrive: if new, [op0] is now known to [s0] and in its event queue *)
    pose proof (learn_spec (dd st) s0 op0 (A1 s0) Hop) as HK.
    destruct (memN_reflect op0 (items (dd st s0))) as [Hdup|Hnew]; cbn [negb];
      constructor; unfold held, in_transit, known; cbn [dd inq evq].
    + intros s op H. apply HK. left. apply C1. exact H.
    + intros s op s' Hh Hs.
      assert (Hold : held st s op).
      { destruct Hh as [H|H]; [|right; exact H]. apply HK in H. destruct H as [H|[-> ->]]; left; assumption. }
      destruct (C2 s op s' Hold Hs) as [[H|H]|H]; [left; left; apply HK; left; exact H | left; right; exact H | right; exact H].
    + intros s op H. apply in_upd_push in H. apply HK. destruct H as [H|H]; [left; apply C1; exact H | right; exact H].
    + intros s op s' Hh Hs.
      assert (Hold : held st s op \/ (s = s0 /\ op = op0)).
      { destruct Hh as [H|H]; [|left; right; exact H]. apply HK in H. destruct H as [H|H]; [left; left|right]; exact H. }
      destruct Hold as [Hold|[-> ->]].
      * destruct (C2 s op s' Hold Hs) as [[H|H]|(s2 & H & Hf)];
          [left; left; apply HK; left; exact H | left; right; exact H|].
        right. exists s2. split; [apply in_upd_push; left; exact H | exact Hf].
      * right. exists s0. split; [apply in_upd_push; right; split; reflexivity|].
        exact (same_topic_refl_l c s0 s' Hs).
  - (* Mgr: [op0] moves from the event queue of [s0] to the live channels of the others;
       with that every session of the topic holds it *)
    assert (Hall : forall s', same_topic c s0 s' = true ->
              known st s' op0 \/ In op0 (if fwd c s0 s' then inq st s' ++ [op0] else inq st s')).
    { intros s' Hs. destruct (N.eq_dec s' s0) as [->|Hne]; [left; apply C1; rewrite Hq; left; reflexivity|].
      right. apply in_push. right. split; [apply fwd_intro; assumption | reflexivity]. }
    constructor; unfold held, in_transit, known; cbn [dd inq evq].
    + intros s op H. apply C1. apply (in_upd_pop _ _ _ _ s op Hq). left. exact H.
    + intros s op s' Hh Hs.
      assert (Hold : held st s op \/ (same_topic c s0 s = true /\ op = op0)).
      { destruct Hh as [H|H]; [left; left; exact H|]. apply in_push in H.
        destruct H as [H|[Hf ->]]; [left; right; exact H | right; split; [apply fwd_same_topic; exact Hf | reflexivity]]. }
      destruct Hold as [Hold|[Hs0 ->]]; [|left; apply Hall; eapply same_topic_trans; eassumption].
      destruct (C2 s op s' Hold Hs) as [[H|H]|(s2 & H & Hf)];
        [left; left; exact H | left; right; apply in_push; left; exact H|].
      apply (in_upd_pop _ _ _ _ s2 op Hq) in H. destruct H as [H|[-> ->]]; [right; exists s2; auto|].
      left. apply Hall. apply same_topic_sym in Hf. eapply same_topic_trans; eassumption.
  - (* Pump: what [s0] held in its channel it now knows; nobody holds more or less *)
    pose proof (learn_spec (dd st) s0 op0 (A1 s0) Hop) as HK.
    assert (Hheld : forall s op,
              In op (items (learn (dd st) s0 op0 s)) \/ In op (upd (inq st) s0 r s) <-> held st s op).
    { intros s op. unfold held, known. rewrite HK, (in_upd_pop _ _ _ _ s op Hq).
      split; [intros [[H|H]|H] | intros [H|[H|H]]]; auto. }
    constructor; unfold held, in_transit, known; cbn [dd inq evq].
    + intros s op H. apply HK. left. apply C1. exact H.
    + intros s op s' Hh Hs. apply Hheld in Hh.
      destruct (C2 s op s' Hh Hs) as [H|H]; [left; apply Hheld; exact H | right; exact H].
  - (* Publish: every session of topic [t] gets [op0] into its channel; nothing else changes *)
    assert (Hold : forall s op s', held st s op -> same_topic c s s' = true ->
              (known st s' op \/ In op (if in_topic c s' t then inq st s' ++ [op0] else inq st s')) \/
              in_transit st s op).
    { intros s op s' Hh Hs. destruct (C2 s op s' Hh Hs) as [[H|H]|H]; [left; left; exact H | | right; exact H].
      left. right. apply in_push. left. exact H. }
    constructor; unfold held, in_transit, known; cbn [dd inq evq]; [exact C1|].
    intros s op s' [Hh|Hh] Hs; [apply (Hold s); [left; exact Hh | exact Hs]|].
    apply in_push in Hh. destruct Hh as [Hh|[Ht ->]]; [apply (Hold s); [right; exact Hh | exact Hs]|].
    left. right. apply in_push. right. split; [exact (in_topic_same c s s' t Ht Hs) | reflexivity].
  - constructor; assumption.
Qed.

(** [InvB] and [InvC] each lean on [InvA] only (to know that nothing is evicted), not on each other. *)
Definition LiveInv (st : state) : Prop := InvA st /\ InvB st /\ InvC st.

Lemma inv_run : forall tr st, LiveInv st -> Forall label_ok tr -> LiveInv (run c st tr).
Proof.
  induction tr as [|l tr IH]; intros st (HA & HB & HC) Hok; cbn [run fold_left]; [split; [|split]; assumption|].
  inversion Hok; subst. apply IH; [|assumption].
  split; [|split]; [apply invA_step | apply invB_step | apply invC_step]; assumption.
Qed.

Lemma inv_init : LiveInv (init seed capS capM).
Proof. split; [|split]; [apply invA_init | apply invB_init | apply invC_init]. Qed.

Definition reach (tr : list label) : state := run c (init seed capS capM) tr.

Lemma inv_reach : forall tr, Forall label_ok tr -> LiveInv (reach tr).
Proof. intros tr Hok. apply inv_run; [apply inv_init | exact Hok]. Qed.

Theorem forward_step : forall st s op r, evq st s = op :: r ->
  forall x, inq (step c st (Mgr s)) x = if fwd c s x then inq st x ++ [op] else inq st x.
Proof. intros st s op r E x. cbn [step]. rewrite E. destruct (insert (mdd st) op). reflexivity. Qed.

Theorem forward_not_to_origin : forall s, fwd c s s = false.
Proof. intro s. unfold fwd. rewrite N.eqb_refl. apply andb_false_r. Qed.

Theorem forwarded_to_all_others : forall tr s op s',
  Forall label_ok tr -> quiescent c (reach tr) = true ->
  In (EArr s op) (log (reach tr)) -> same_topic c s s' = true ->
  In (ESent s' op) (log (reach tr)) \/ In (EArr s' op) (log (reach tr)) \/ In op (seed s').
Proof.
  intros tr s op s' Hok Hq Harr Hs. destruct (inv_reach tr Hok) as (_ & HB & HC).
  assert (Hk : known (reach tr) s op) by (apply (b_dd_log _ HB); right; left; exact Harr).
  destruct (c_cover _ HC s op s' (or_introl Hk) Hs) as [[H|H]|(s2 & H & Hf)].
  - apply (b_dd_log _ HB) in H. destruct H as [H|[H|H]]; auto.
  - apply same_topic_spec in Hs. destruct Hs as (t & _ & Ht). apply topic_of_in in Ht.
    rewrite (proj1 (quiescent_spec c _ s' Hq Ht)) in H. destruct H.
  - apply same_topic_spec in Hf. destruct Hf as (t & _ & Ht). apply topic_of_in in Ht.
    rewrite (proj2 (quiescent_spec c _ s2 Hq Ht)) in H. destruct H.
Qed.

Lemma log_good : forall tr, Forall label_ok tr -> good (log (reach tr)).
Proof. intros tr Hok. apply b_good. apply (inv_reach tr Hok). Qed.

Theorem at_most_once_per_session : forall tr s op l1 l2,
  Forall label_ok tr -> log (reach tr) = l1 ++ ESent s op :: l2 ->
  ~ In (ESent s op) l1 /\ ~ In (ESent s op) l2 /\ ~ In op (seed s).
Proof.
  intros tr s op l1 l2 Hok E. pose proof (log_good tr Hok) as Hg.
  destruct (Hg _ _ _ E) as (G1 & _ & G3). rewrite E in Hg.
  repeat split; [exact G1 | | exact G3]. intro H. apply (proj1 (good_later _ _ _ _ Hg H)). reflexivity.
Qed.

Theorem never_back_to_origin : forall tr s op l1 l2,
  Forall label_ok tr -> log (reach tr) = l1 ++ EArr s op :: l2 -> ~ In (ESent s op) l2.
Proof.
  intros tr s op l1 l2 Hok E H. pose proof (log_good tr Hok) as Hg. rewrite E in Hg.
  apply (proj2 (good_later _ _ _ _ Hg H)). reflexivity.
Qed.

Theorem never_back_to_origin_peer : forall tr s op l1 l2 s',
  distinct_peers c -> Forall label_ok tr -> log (reach tr) = l1 ++ EArr s op :: l2 ->
  same_topic c s s' = true -> peer_of c s = peer_of c s' -> ~ In (ESent s' op) l2.
Proof.
  intros tr s op l1 l2 s' Hd Hok E Hs Hp. rewrite <- (Hd s s' Hs Hp). eapply never_back_to_origin; eassumption.
Qed.

Theorem consumer_at_most_once : forall tr s op l1 l2,
  Forall label_ok tr -> log (reach tr) = l1 ++ ECons s op :: l2 ->
  forall s', ~ In (ECons s' op) l1 /\ ~ In (ECons s' op) l2.
Proof.
  intros tr s op l1 l2 Hok E s'. pose proof (log_good tr Hok) as Hg.
  split; [apply (Hg _ _ _ E)|]. rewrite E in Hg.
  intro H. apply (good_later _ _ _ _ Hg H s). reflexivity.
Qed.

End LiveProofs.

Definition cfg_same_peer : config :=
  [ {| sid := 1; stopic := 0; speer := 7 |}; {| sid := 2; stopic := 0; speer := 7 |} ]%N.

Definition tr_same_peer : list label := [Arrive 1 5; Mgr 1; Pump 2]%N.

(** Every buffer takes its first item here: [insert]'s eviction test ([cap <? length + 1]) chooses
    between the tail of an empty list and the empty list, so the capacities play no part. *)
Theorem same_peer_refuted : forall capS capM,
  exists c tr s op l1 l2 s',
    log (run c (init (fun _ => []) capS capM) tr) = l1 ++ EArr s op :: l2 /\
    same_topic c s s' = true /\ peer_of c s = peer_of c s' /\ In (ESent s' op) l2.
Proof.
  intros capS capM.
  exists cfg_same_peer, tr_same_peer, 1%N, 5%N, [], [ECons 1 5; ESent 2 5]%N, 2%N.
  split; [|split; [reflexivity|]; split; [reflexivity|]; right; left; reflexivity].
  cbn. destruct (capS <? 1), (capM <? 1); reflexivity.
Qed.

(** Non-vacuity: a three-session flow with duplicates. *)
Definition cfg3 : config :=
  [ {| sid := 1; stopic := 0; speer := 11 |}; {| sid := 2; stopic := 0; speer := 12 |};
    {| sid := 3; stopic := 0; speer := 13 |}; {| sid := 4; stopic := 9; speer := 11 |} ]%N.

Example ex_flow :
  let tr := [Arrive 1 5; Arrive 2 5; Mgr 1; Mgr 2; Pump 3; Pump 2; Pump 1; Pump 3; Publish 0 6; Pump 1; Pump 2; Pump 3]%N in
  let st := run cfg3 (init (fun _ => [0%N]) 8 8) tr in
  quiescent cfg3 st = true /\
  log st = [EArr 1 5; EArr 2 5; ECons 1 5; ESent 3 5; ESent 1 6; ESent 2 6; ESent 3 6]%N /\
  distinct_peers cfg3.
Proof.
  repeat split.
  intros a b Hs Hp. apply same_topic_spec in Hs. destruct Hs as (t & Ha & Hb).
  pose proof (topic_of_in _ _ _ Ha) as Ia. pose proof (topic_of_in _ _ _ Hb) as Ib. cbn in Ia, Ib.
  (* the same session, or different peers, or (sessions 1 and 4) different topics *)
  destruct Ia as [<-|[<-|[<-|[<-|[]]]]]; destruct Ib as [<-|[<-|[<-|[<-|[]]]]];
    try reflexivity; try discriminate Hp; discriminate (eq_trans Ha (eq_sym Hb)).
Qed.
