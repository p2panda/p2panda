(** Soundness of the boolean oracle pieces of C36 w.r.t. the propositional statements. *)
From Coq Require Import List NArith Bool.
From PV Require Import Model.SecretBundle Oracle.C36.
Import ListNotations.
Local Open Scope N_scope.

Lemma lex_leb_sound a b : lex_leb a b = true -> lex_le a b.
Proof.
  unfold lex_leb, lex_le. intros H. apply orb_true_iff in H. destruct H as [H|H].
  - left. now apply N.ltb_lt.
  - apply andb_true_iff in H. destruct H as [H1 H2]. right.
    split; [now apply N.eqb_eq|now apply N.leb_le].
Qed.

Lemma lex_ltb_sound a b : lex_ltb a b = true -> lex_lt a b.
Proof.
  unfold lex_ltb, lex_lt. intros H. apply orb_true_iff in H. destruct H as [H|H].
  - left. now apply N.ltb_lt.
  - apply andb_true_iff in H. destruct H as [H1 H2]. right.
    split; [now apply N.eqb_eq|now apply N.ltb_lt].
Qed.

(** [is_max] accepts only what [C36_latest_is_lex_max] / [C36_latest_none_only_if_all_zero]
    describe. *)
Theorem is_max_sound lat content :
  is_max lat content = true ->
  match lat with
  | Some i => exists t, In (i, t) content /\ forall e, In e content -> lex_le e (i, t)
  | None => forall e, In e content -> sid e = 0 /\ sts e = 0
  end.
Proof.
  unfold is_max. destruct lat as [i|]; intros H.
  - apply existsb_exists in H. destruct H as ([j t] & HI & H).
    apply andb_true_iff in H. destruct H as [H1 H2].
    apply N.eqb_eq in H1. unfold sid in H1. cbn [fst] in H1. subst j.
    exists t. split; [exact HI|]. intros e He.
    rewrite forallb_forall in H2. apply lex_leb_sound. now apply H2.
  - rewrite forallb_forall in H. intros e He. specialize (H e He).
    apply andb_true_iff in H. destruct H as [H1 H2]. split; now apply N.eqb_eq.
Qed.

Theorem gen_ok_sound prev lat content :
  gen_ok prev lat content = true ->
  exists e, In e content /\ lat = Some (sid e) /\ forall p, In p prev -> lex_lt p e.
Proof.
  unfold gen_ok.
  destruct (filter (fun e => negb (mem_id (sid e) prev)) content) as [|e [|? ?]] eqn:E; try discriminate.
  intros H. apply andb_true_iff in H. destruct H as [H _].
  apply andb_true_iff in H. destruct H as [H1 H2].
  exists e. split.
  - assert (HI : In e (filter (fun e => negb (mem_id (sid e) prev)) content)) by (rewrite E; now left).
    apply filter_In in HI. tauto.
  - split.
    + destruct lat as [i|]; [|discriminate]. apply N.eqb_eq in H2. now subst.
    + rewrite forallb_forall in H1. intros p Hp. apply lex_ltb_sound. now apply H1.
Qed.
