(** Soundness of the C34 oracle in strict mode (the one [check] uses for a fixed configuration),
    inside the guards: what [check_all] accepts is, answer by answer, what the window
    specification prescribes, with the right key. *)
From Coq Require Import List NArith Bool.
From PV Require Import Model.Ratchet Proofs.Ratchet Oracle.C34.
Import ListNotations.
Local Open Scope N_scope.

Definition obs_cls (o : obs) : cls :=
  match o with OK _ => COk | OKU => COk | OE e => CErr e | OX => CPanic end.

Definition guard (rq : N * N * N) : bool :=
  let '(g, _, ooo) := rq in (g <? U32MAX) && (ooo <? I32LIM).

Lemma err_eqb_eq a b : err_eqb a b = true -> a = b.
Proof. destruct a, b; cbn; congruence. Qed.

Lemma spec_step_rejects b st r e :
  snd (spec_step b st r) = CErr e -> fst (spec_step b st r) = st.
Proof.
  destruct r as [[g fwd] ooo], st as [h used]. unfold spec_step.
  destruct (h + fwd <? g); [reflexivity|].
  destruct ((g <? h) && (ooo <? h - g)); [reflexivity|].
  destruct (g <? b); [reflexivity|]. destruct (memN g used); [reflexivity|discriminate].
Qed.

Lemma check_one_strict_sound b st rq o st' :
  guard rq = true -> check_one true b st rq o = (true, st') ->
  obs_cls o = snd (spec_step b st rq) /\ st' = fst (spec_step b st rq) /\
  forall i, o = OK i -> i = rq_g rq.
Proof.
  destruct rq as [[g fwd] ooo]. unfold guard, check_one. intros Hg. rewrite Hg.
  pose proof (spec_step_rejects b st (g, fwd, ooo)) as HR.
  destruct (spec_step b st (g, fwd, ooo)) as [st1 c]. cbn [fst snd] in *.
  destruct o as [i| |e|]; intros E; injection E as E1 <-; try discriminate.
  - apply andb_true_iff in E1. destruct E1 as [Ei Ec]. destruct c; try discriminate.
    split; [reflexivity|]. split; [reflexivity|].
    intros j Hj. injection Hj as <-. now apply N.eqb_eq.
  - destruct c as [|e'|]; try discriminate. apply err_eqb_eq in E1. subst e'.
    split; [reflexivity|]. split; [symmetry; now apply (HR e)|discriminate].
Qed.

Theorem check_strict_sound b : forall rqs os st,
  forallb guard rqs = true ->
  check_all true b st rqs os = true ->
  map obs_cls os = snd (spec_run b st rqs) /\
  Forall2 (fun rq o => forall i, o = OK i -> i = rq_g rq) rqs os.
Proof.
  induction rqs as [|rq rqs IH]; intros os st HG H; destruct os as [|o os]; try discriminate.
  - split; [reflexivity|constructor].
  - cbn [forallb] in HG. apply andb_true_iff in HG. destruct HG as [Hg HG].
    cbn [check_all] in H. destruct (check_one true b st rq o) as [ok st'] eqn:E.
    apply andb_true_iff in H. destruct H as [-> H].
    destruct (check_one_strict_sound _ _ _ _ _ Hg E) as (Hc & -> & Hk).
    destruct (IH _ _ HG H) as [IH1 IH2]. rewrite spec_run_cons. cbn [map].
    split; [now rewrite Hc, IH1|constructor; assumption].
Qed.
