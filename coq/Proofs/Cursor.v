(** Proofs about the cursor / Acked model (Model/Cursor.v) and soundness of the final-state part
    of the C07 [adv] oracle (Oracle/C07.v). *)
From Coq Require Import List NArith Bool Lia Permutation.
From PV Require Import Lib.ListFacts Model.Heights Model.Cursor Proofs.Heights Oracle.C06 Oracle.C07.
Import ListNotations.

(** Prop version of [Oracle.C07.ole]. *)
Definition ole_p (x y : option N) : Prop :=
  match x, y with
  | None, _ => True
  | Some a, Some b => (a <= b)%N
  | Some _, None => False
  end.

Lemma ole_p_refl x : ole_p x x.
Proof. destruct x; cbn [ole_p]; [lia|exact I]. Qed.

Lemma ole_p_trans x y z : ole_p x y -> ole_p y z -> ole_p x z.
Proof. destruct x, y, z; cbn [ole_p]; try tauto; lia. Qed.

Lemma ole_p_omax x h : ole_p x (omax x (Some h)).
Proof. destruct x; cbn [ole_p omax]; [lia|exact I]. Qed.

Lemma ole_spec x y : ole x y = true <-> ole_p x y.
Proof.
  destruct x, y; cbn [ole ole_p]; try tauto.
  - apply N.leb_le.
  - split; [discriminate|tauto].
Qed.

(** The step both specifications fold: [pmax_step] below (the function [pointwise_max] folds) and
    [ack_step_spec] (the one of a history of acks) unfold to this. *)
Definition omax_when (b : bool) (acc : option N) (v : N) : option N :=
  if b then omax acc (Some v) else acc.

Lemma omax_when_comm b1 v1 b2 v2 acc :
  omax_when b2 (omax_when b1 acc v1) v2 = omax_when b1 (omax_when b2 acc v2) v1.
Proof. destruct b1, b2; try reflexivity. destruct acc; cbn [omax_when omax]; f_equal; lia. Qed.

Lemma omax_when_mono b acc v : ole_p acc (omax_when b acc v).
Proof. destruct b; [apply ole_p_omax|apply ole_p_refl]. Qed.

Lemma advance_name c a l h : cname (advance c a l h) = cname c.
Proof.
  unfold advance. destruct (log_height c a l) as [cur|]; [|reflexivity].
  destruct (N.leb h cur); reflexivity.
Qed.

Lemma advance_lookup c a l h a' l' :
  lookup2 (cstate (advance c a l h)) a' l' =
  omax_when (N.eqb a' a && N.eqb l' l) (lookup2 (cstate c) a' l') h.
Proof.
  unfold advance, log_height, omax_when.
  destruct (N.eqb a' a && N.eqb l' l) eqn:Ek.
  - apply andb_true_iff in Ek. destruct Ek as [Ea El]. apply N.eqb_eq in Ea, El. subst a' l'.
    destruct (lookup2 (cstate c) a l) as [cur|] eqn:E.
    + destruct (N.leb_spec h cur) as [Hle|Hgt].
      * rewrite E. cbn [omax]. f_equal. lia.
      * cbn [cstate]. rewrite lookup2_set2, !N.eqb_refl. cbn [andb omax]. f_equal. lia.
    + cbn [cstate]. rewrite lookup2_set2, !N.eqb_refl. reflexivity.
  - destruct (lookup2 (cstate c) a l) as [cur|].
    + destruct (N.leb h cur); [reflexivity|]. cbn [cstate]. rewrite lookup2_set2, Ek. reflexivity.
    + cbn [cstate]. rewrite lookup2_set2, Ek. reflexivity.
Qed.

Definition pmax_step (a l : N) (acc : option N) (x : adv) : option N :=
  if N.eqb (fst (fst x)) a && N.eqb (snd (fst x)) l then omax acc (Some (snd x)) else acc.

Lemma pointwise_max_fold st xs a l :
  pointwise_max st xs a l = fold_left (pmax_step a l) xs (lookup2 st a l).
Proof. reflexivity. Qed.

Lemma advance_all_fold :
  forall xs c a l,
    lookup2 (cstate (advance_all c xs)) a l = fold_left (pmax_step a l) xs (lookup2 (cstate c) a l).
Proof.
  unfold advance_all.
  induction xs as [|[[a0 l0] h0] r IH]; intros c a l; [reflexivity|].
  cbn [fold_left fst snd]. rewrite IH. f_equal.
  rewrite advance_lookup. unfold pmax_step. cbn [fst snd].
  rewrite (N.eqb_sym a0 a), (N.eqb_sym l0 l). reflexivity.
Qed.

Theorem advance_is_max :
  forall (c : cursor) (xs : list adv) (a l : N),
    lookup2 (cstate (advance_all c xs)) a l = pointwise_max (cstate c) xs a l.
Proof. intros c xs a l. apply advance_all_fold. Qed.

Lemma pmax_step_comm a l acc x y :
  pmax_step a l (pmax_step a l acc x) y = pmax_step a l (pmax_step a l acc y) x.
Proof. apply omax_when_comm. Qed.

Lemma pmax_fold_perm a l xs ys :
  Permutation xs ys -> forall acc, fold_left (pmax_step a l) xs acc = fold_left (pmax_step a l) ys acc.
Proof. apply fold_left_perm_comm. intros acc x y. apply pmax_step_comm. Qed.

Theorem advance_perm :
  forall (c : cursor) (xs ys : list adv) (a l : N),
    Permutation xs ys ->
    lookup2 (cstate (advance_all c xs)) a l = lookup2 (cstate (advance_all c ys)) a l.
Proof. intros c xs ys a l Hp. rewrite !advance_all_fold. apply pmax_fold_perm, Hp. Qed.

Lemma pmax_step_mono a l acc x : ole_p acc (pmax_step a l acc x).
Proof. apply omax_when_mono. Qed.

Lemma pmax_fold_mono a l xs : forall acc, ole_p acc (fold_left (pmax_step a l) xs acc).
Proof. apply (fold_left_mono ole_p); [apply ole_p_refl|apply ole_p_trans|apply pmax_step_mono]. Qed.

Theorem advance_monotone :
  forall (c : cursor) (xs : list adv) (a l : N),
    ole_p (lookup2 (cstate c) a l) (lookup2 (cstate (advance_all c xs)) a l).
Proof. intros c xs a l. rewrite advance_all_fold. apply pmax_fold_mono. Qed.

Theorem advance_reaches :
  forall (c : cursor) (a l h : N), ole_p (Some h) (lookup2 (cstate (advance c a l h)) a l).
Proof.
  intros c a l h. rewrite advance_lookup, !N.eqb_refl. cbn [andb omax_when].
  destruct (lookup2 (cstate c) a l); cbn [omax ole_p]; lia.
Qed.

Definition stored (s : cstore) (name a l : N) : option N :=
  match alookup name s with
  | Some st => lookup2 st a l
  | None => None
  end.

Lemma acked_cursor_lookup s k a l : lookup2 (cstate (acked_cursor s k)) a l = stored s (aname k) a l.
Proof.
  unfold acked_cursor, get_cursor, stored. destruct (alookup (aname k) s); reflexivity.
Qed.

Lemma acked_cursor_name s k : cname (acked_cursor s k) = aname k.
Proof. unfold acked_cursor, get_cursor. destruct (alookup (aname k) s); reflexivity. Qed.

Lemma stored_set_cursor s c n a l :
  stored (set_cursor s c) n a l = if N.eqb n (cname c) then lookup2 (cstate c) a l else stored s n a l.
Proof.
  unfold stored, set_cursor. rewrite alookup_ainsert. destruct (N.eqb n (cname c)); reflexivity.
Qed.

Theorem ack_foreign_rejected :
  forall (s : cstore) (k : acked) (h : header),
    hlog h <> log_id_of_topic (atopic k) -> ack s k h = (s, AckInvalidTopic).
Proof.
  intros s k h Hne. unfold ack, topic_ok.
  destruct (N.eqb (log_id_of_topic (atopic k)) (hlog h)) eqn:E; [|reflexivity].
  apply N.eqb_eq in E. congruence.
Qed.

Theorem ack_own_accepted :
  forall (s : cstore) (k : acked) (h : header),
    hlog h = log_id_of_topic (atopic k) -> snd (ack s k h) = AckOk.
Proof.
  intros s k h He. unfold ack, topic_ok. rewrite He, N.eqb_refl. reflexivity.
Qed.

Lemma ack_stored s k h n a l :
  stored (fst (ack s k h)) n a l =
  if topic_ok k h && N.eqb n (aname k) && N.eqb a (hauthor h) && N.eqb l (hlog h)
  then omax (stored s n a l) (Some (hseq h))
  else stored s n a l.
Proof.
  unfold ack. destruct (topic_ok k h) eqn:Et; cbn [negb andb fst]; [|reflexivity].
  rewrite stored_set_cursor, advance_name, acked_cursor_name.
  destruct (N.eqb n (aname k)) eqn:En; cbn [andb]; [|reflexivity].
  apply N.eqb_eq in En. subst n.
  rewrite advance_lookup, acked_cursor_lookup. reflexivity.
Qed.

(** Acknowledging never moves any persisted cursor backwards — whichever instance acks,
    whatever it acks. *)
Theorem ack_monotone :
  forall (s : cstore) (k : acked) (h : header) (n a l : N),
    ole_p (stored s n a l) (stored (fst (ack s k h)) n a l).
Proof.
  intros s k h n a l. rewrite ack_stored. apply omax_when_mono.
Qed.

Theorem ack_all_monotone :
  forall (ops : list (acked * header)) (s : cstore) (n a l : N),
    ole_p (stored s n a l) (stored (ack_all s ops) n a l).
Proof.
  intros ops s n a l.
  apply (fold_left_mono (fun x y => ole_p (stored x n a l) (stored y n a l))).
  - intros x. apply ole_p_refl.
  - intros x y z. apply ole_p_trans.
  - intros x op. apply ack_monotone.
Qed.

Theorem ack_reaches :
  forall (s : cstore) (k : acked) (h : header),
    hlog h = log_id_of_topic (atopic k) ->
    ole_p (Some (hseq h)) (stored (fst (ack s k h)) (aname k) (hauthor h) (hlog h)).
Proof.
  intros s k h He. rewrite ack_stored. unfold topic_ok. rewrite He, !N.eqb_refl. cbn [andb].
  destruct (stored s (aname k) (hauthor h) (log_id_of_topic (atopic k))); cbn [omax ole_p]; lia.
Qed.

Theorem ack_accepts_and_reaches :
  forall (s : cstore) (k : acked) (h : header),
    hlog h = log_id_of_topic (atopic k) ->
    snd (ack s k h) = AckOk /\
    ole_p (Some (hseq h)) (stored (fst (ack s k h)) (aname k) (hauthor h) (hlog h)).
Proof. intros s k h He. split; [exact (ack_own_accepted s k h He)|exact (ack_reaches s k h He)]. Qed.

(** The step of the specification of a whole history: maximum over the accepted acks made under
    name [n]. *)
Definition ack_step_spec (n a l : N) (acc : option N) (op : acked * header) : option N :=
  if topic_ok (fst op) (snd op) && N.eqb n (aname (fst op)) && N.eqb a (hauthor (snd op)) && N.eqb l (hlog (snd op))
  then omax acc (Some (hseq (snd op)))
  else acc.

Theorem ack_all_is_max :
  forall (ops : list (acked * header)) (s : cstore) (n a l : N),
    stored (ack_all s ops) n a l = fold_left (ack_step_spec n a l) ops (stored s n a l).
Proof.
  unfold ack_all. induction ops as [|[k h] r IH]; intros s n a l; cbn [fold_left fst snd]; [reflexivity|].
  rewrite IH. f_equal. rewrite ack_stored. reflexivity.
Qed.

Lemma ack_spec_fold_perm n a l xs ys :
  Permutation xs ys ->
  forall acc, fold_left (ack_step_spec n a l) xs acc = fold_left (ack_step_spec n a l) ys acc.
Proof. apply fold_left_perm_comm. intros acc x y. apply omax_when_comm. Qed.

Lemma ack_spec_fold_filter (k : acked) n a l :
  forall (hl : list header) acc,
    fold_left (ack_step_spec n a l) (map (pair k) (filter (topic_ok k) hl)) acc =
    fold_left (ack_step_spec n a l) (map (pair k) hl) acc.
Proof.
  induction hl as [|h r IH]; intros acc; [reflexivity|]. cbn [filter].
  destruct (topic_ok k h) eqn:Eok; cbn [map fold_left]; [apply IH|].
  rewrite IH. unfold ack_step_spec at 3. cbn [fst snd]. rewrite Eok. reflexivity.
Qed.

(** Topic scoping: if every instance using cursor name [n] tracks topic [t], then entries of
    that cursor for logs of other topics never change. *)
Theorem ack_only_own_topic :
  forall (ops : list (acked * header)) (s : cstore) (n t a l : N),
    (forall op, In op ops -> aname (fst op) = n -> atopic (fst op) = t) ->
    l <> log_id_of_topic t ->
    stored (ack_all s ops) n a l = stored s n a l.
Proof.
  intros ops s n t a l Hall Hl. rewrite ack_all_is_max. apply fold_left_id.
  intros acc op Hin. unfold ack_step_spec, topic_ok.
  destruct (N.eqb (log_id_of_topic (atopic (fst op))) (hlog (snd op))) eqn:Et; cbn [andb]; [|reflexivity].
  destruct (N.eqb n (aname (fst op))) eqn:En; cbn [andb]; [|reflexivity].
  destruct (N.eqb l (hlog (snd op))) eqn:El; [|rewrite andb_false_r; reflexivity].
  apply N.eqb_eq in Et, En, El. exfalso. apply Hl.
  rewrite El, <- Et. f_equal. apply (Hall op Hin). symmetry. exact En.
Qed.

(** Outside the property's quantifier, recorded: two separately constructed [Acked] values for
    the same cursor name do not share a semaphore, so their read-advance-write sequences can
    interleave and the later write can carry the smaller height (lost update). *)
Example two_instances_can_regress :
  let k1 := {| aname := 7; atopic := 1 |}%N in
  let k2 := {| aname := 7; atopic := 1 |}%N in
  let h3 := {| hauthor := 0; hlog := 1; hseq := 3 |}%N in
  let h5 := {| hauthor := 0; hlog := 1; hseq := 5 |}%N in
  exists c1 c2,
    ack_read [] k1 h3 = Some c1 /\ ack_read [] k2 h5 = Some c2 /\
    stored (ack_write [] c2) 7%N 0%N 1%N = Some 5%N /\
    stored (ack_write (ack_write [] c2) c1) 7%N 0%N 1%N = Some 3%N.
Proof. cbv zeta. eexists. eexists. repeat split. Qed.

(** Sequentially composed (what one instance's semaphore enforces) the same two acks give 5. *)
Example same_acks_sequentially :
  let k := {| aname := 7; atopic := 1 |}%N in
  let h3 := {| hauthor := 0; hlog := 1; hseq := 3 |}%N in
  let h5 := {| hauthor := 0; hlog := 1; hseq := 5 |}%N in
  stored (ack_all [] [(k, h5); (k, h3)]) 7%N 0%N 1%N = Some 5%N /\
  ack_all [] [(k, h5); (k, h3)] = ack_write (fst (ack [] k h5)) (advance (acked_cursor (fst (ack [] k h5)) k) 0 1 3)%N.
Proof. vm_compute. split; reflexivity. Qed.

Lemma pmax_fold_nokey a l xs :
  ~ In (a, l) (map adv_key xs) -> forall acc, fold_left (pmax_step a l) xs acc = acc.
Proof.
  intros Hn. apply fold_left_id. intros acc x Hin. unfold pmax_step.
  destruct (N.eqb (fst (fst x)) a && N.eqb (snd (fst x)) l) eqn:Ek; [|reflexivity].
  apply andb_true_iff in Ek. destruct Ek as [Ea El]. apply N.eqb_eq in Ea, El.
  destruct Hn. apply (in_map adv_key) in Hin. unfold adv_key in Hin at 1. rewrite Ea, El in Hin. exact Hin.
Qed.

Lemma in_pairs_dec (ks : list (N * N)) (k : N * N) : In k ks \/ ~ In k ks.
Proof.
  assert (Hdec : forall x y : N * N, {x = y} + {x <> y}) by (decide equality; apply N.eq_dec).
  destruct (in_dec Hdec k ks); [left|right]; assumption.
Qed.

(** Only the final-state part of [check_adv]: its [check_seen] part and the oracles [check_ack]
    and [check_conc] are run against the implementation, not proved sound. *)
Theorem check_adv_sound :
  forall (init : heights) (xs : list adv) (seen : list (option N)) (final : heights),
    check_adv init xs seen final = true ->
    forall a l, lookup2 final a l = pointwise_max init xs a l.
Proof.
  intros init xs seen final H a l. unfold check_adv in H.
  apply andb_true_iff in H. destruct H as [_ Hall]. rewrite forallb_forall in Hall.
  destruct (in_pairs_dec (pairs init ++ map adv_key xs ++ pairs final) (a, l)) as [Hin|Hn].
  - apply oN_eqb_eq. exact (Hall (a, l) Hin).
  - (* a log that neither map nor any advance mentions is absent on both sides *)
    rewrite !in_app_iff in Hn. rewrite pointwise_max_fold, pmax_fold_nokey by tauto.
    rewrite (lookup2_not_in_pairs final), (lookup2_not_in_pairs init) by tauto. reflexivity.
Qed.

Definition ex_c : cursor := cursor_new 0 [(0, [(0, 4)]); (2, [(1, 1)])]%N.
Definition ex_xs : list adv := [(0, 0, 2); (1, 3, 7); (0, 0, 9); (1, 3, 5); (2, 1, 1)]%N.

Example ex_advance :
  cstate (advance_all ex_c ex_xs) = [(0, [(0, 9)]); (1, [(3, 7)]); (2, [(1, 1)])]%N /\
  Permutation ex_xs (rev ex_xs) /\
  cstate (advance_all ex_c (rev ex_xs)) = cstate (advance_all ex_c ex_xs).
Proof. split; [vm_compute; reflexivity|]. split; [apply Permutation_rev|vm_compute; reflexivity]. Qed.

Definition ex_insts : list acked := [{| aname := 10; atopic := 0 |}; {| aname := 11; atopic := 1 |}]%N.
Definition ex_ops : list (nat * header) :=
  [(0%nat, {| hauthor := 0; hlog := 0; hseq := 4 |});
   (0%nat, {| hauthor := 0; hlog := 1; hseq := 9 |});
   (1%nat, {| hauthor := 0; hlog := 1; hseq := 2 |});
   (0%nat, {| hauthor := 0; hlog := 0; hseq := 1 |})]%N.

Example ex_ack :
  map fst (run_acks ex_insts [] ex_ops) = [AckOk; AckInvalidTopic; AckOk; AckOk] /\
  check_ack ex_insts ex_ops (run_acks ex_insts [] ex_ops) = true /\
  check_adv (cstate ex_c) ex_xs (seen_of ex_c ex_xs) (cstate (advance_all ex_c ex_xs)) = true.
Proof. vm_compute. repeat split. Qed.

Example ex_foreign :
  let k := {| aname := 10; atopic := 0 |}%N in
  let h := {| hauthor := 0; hlog := 1; hseq := 9 |}%N in
  hlog h <> log_id_of_topic (atopic k).
Proof. cbv. discriminate. Qed.
