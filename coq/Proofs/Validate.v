(** Proofs about operation validation and ingest (Model/Validate.v) — property C01.

    Trusted assumptions (Section hypotheses of [Section C01]):
    - ideal signatures: [verify_sig pk m s = true <-> s = sign (sk_of pk) m] ([verify_spec]),
      a signature determines the key and the message it was made for ([sign_inj]), different
      public keys have different secret keys ([sk_of_inj]).  This is the symbolic idealisation of
      Ed25519 [verify_strict] (EUF-CMA + strong binding); the real primitive is not verified.
    - [hash_inj]: BLAKE3 is injective (collision freedom, idealised).
    - [order_perm]: the [HashSet] iteration order is a permutation.
    - [store], [has_op], [log_check], [insert]: arbitrary (the theorems hold for every store).
    [ideal_instance_*] at the end shows that the hypotheses are satisfiable (free-term instance). *)
From Coq Require Import List NArith Bool Permutation.
From PV Require Import Model.Header Model.Validate Proofs.Header.
Import ListNotations.

(** The representation invariant of a header value: the [previous] set of a causal extension is
    written as its strictly sorted list. It is the last conjunct of [valid_ext], without the range
    and length conditions. *)
Definition canonical_ext (e : ext) : Prop :=
  match e with ECausal _ _ pv => strictly_sorted pv = true | _ => True end.

Definition canonical (h : header) : Prop := canonical_ext (h_ext h).

Lemma canonical_prev : forall h,
  canonical h -> forall l t pv, h_ext h = ECausal l t pv -> strictly_sorted pv = true.
Proof. intros h C l t pv E. unfold canonical in C. rewrite E in C. exact C. Qed.

Theorem enc_header_inj_canonical : forall order, is_perm_fun order ->
  forall h1 h2, canonical h1 -> canonical h2 -> enc_header order h1 = enc_header order h2 -> h1 = h2.
Proof.
  intros order P h1 h2 C1 C2 E. apply enc_header_with_id_inj.
  rewrite <- (enc_header_sorted order h1 P (canonical_prev h1 C1)),
          <- (enc_header_sorted order h2 P (canonical_prev h2 C2)).
  exact E.
Qed.

Lemma opt_bytes_eq_iff : forall a b, opt_bytes_eq a b = true <-> a = b.
Proof.
  intros [x|] [y|]; cbn [opt_bytes_eq]; split; intro H; try discriminate; try reflexivity.
  - apply bytes_eqb_eq in H. congruence.
  - injection H as ->. apply bytes_eqb_refl.
Qed.

(** The validators are chains of checks [if c then Some e else ...]: the chain answers [None]
    iff every check passes, and never answers an error that none of its checks raises. *)
Lemma check_none : forall (c : bool) (e : op_error) (k : option op_error),
  (if c then Some e else k) = None <-> c = false /\ k = None.
Proof.
  intros [|] e k; split; [discriminate | intros [H _]; discriminate H | auto | intros [_ H]; exact H].
Qed.

Lemma check_neq : forall (c : bool) (e e' : op_error) (k : option op_error),
  e <> e' -> k <> Some e' -> (if c then Some e else k) <> Some e'.
Proof. intros [|] e e' k N K; [congruence | exact K]. Qed.

Lemma is_some_false : forall A (o : option A), is_some o = false <-> o = None.
Proof. intros A [a|]; cbn; split; intro H; congruence. Qed.

Lemma is_some_true : forall A (o : option A), is_some o = true <-> o <> None.
Proof. intros A [a|]; cbn; split; intro H; congruence. Qed.

(** "Present iff the counter is not zero", in the two boolean forms in which it occurs: the two
    checks of [validate_header], and the single comparison of [valid] and of the oracle. *)
Lemma presence_checks : forall (o : option bytes) (n : N),
  is_some o && N.eqb n 0 = false /\ negb (is_some o) && N.ltb 0 n = false <-> (o = None <-> n = 0%N).
Proof. intros [b|] [|p]; cbn; intuition congruence. Qed.

Lemma presence_iff : forall (o : option bytes) (n : N),
  Bool.eqb (is_some o) (negb (N.eqb n 0)) = true <-> (o = None <-> n = 0%N).
Proof. intros [b|] [|p]; cbn; intuition congruence. Qed.

Lemma unsigned_sig_eq : forall h h', unsigned h = unsigned h' -> h_sig h = h_sig h' -> h = h'.
Proof.
  intros [v pk sg ps ph sq bl e] [v' pk' sg' ps' ph' sq' bl' e'] Eu Es.
  cbn [h_sig] in Es. injection Eu as -> -> -> -> -> -> ->. subst sg'. reflexivity.
Qed.

Section C01.
  Variable verify_sig : bytes -> list token -> bytes -> bool.
  Variable hash_body : bytes -> bytes.
  Variable order : list bytes -> list bytes.
  Variable sign : bytes -> list token -> bytes.
  Variable sk_of : bytes -> bytes.
  Hypothesis verify_spec : forall pk m s, verify_sig pk m s = true <-> s = sign (sk_of pk) m.
  Hypothesis sign_inj : forall k m k' m', sign k m = sign k' m' -> k = k' /\ m = m'.
  Hypothesis sk_of_inj : forall a b, sk_of a = sk_of b -> a = b.
  (* No proof below uses [sk_of_inj] or the [k = k'] half of [sign_inj]: the author's key is part
     of the signed header, so [m = m'] already identifies the signer. *)
  Hypothesis hash_inj : forall a b, hash_body a = hash_body b -> a = b.
  Hypothesis order_perm : is_perm_fun order.

  Notation header_verify := (Model.Validate.header_verify verify_sig order).
  Notation validate_header := (Model.Validate.validate_header verify_sig order).
  Notation validate_operation := (Model.Validate.validate_operation verify_sig hash_body order).

  Definition authentic (h : header) : Prop :=
    h_sig h = Some (sign (sk_of (h_pk h)) (enc_header order (unsigned h))).

  Definition payload_consistent (h : header) : Prop := h_phash h = None <-> h_psize h = 0%N.
  Definition link_consistent (h : header) : Prop := h_backlink h = None <-> h_seq h = 0%N.

  Definition body_matches (op : operation) : Prop :=
    forall b, op_body op = Some b ->
      h_phash (op_header op) = Some (hash_body b) /\ h_psize (op_header op) = body_size b.

  Definition good_header (h : header) : Prop :=
    authentic h /\ h_version h = 1%N /\ payload_consistent h /\ link_consistent h.

  Definition good (op : operation) : Prop := good_header (op_header op) /\ body_matches op.

  Lemma header_verify_iff : forall h, header_verify h = true <-> authentic h.
  Proof.
    intro h. unfold Model.Validate.header_verify, authentic. destruct (h_sig h) as [s|].
    - rewrite verify_spec. split; intro H; [rewrite H; reflexivity | injection H as ->; reflexivity].
    - split; intro H; discriminate.
  Qed.

  Theorem validate_header_iff : forall h, validate_header h = None <-> good_header h.
  Proof.
    intro h. unfold Model.Validate.validate_header, good_header, payload_consistent, link_consistent.
    split.
    - intros [V [Ev [P [L1 [L2 _]%check_none]%check_none]%check_none]%check_none]%check_none.
      apply negb_false_iff, header_verify_iff in V. apply negb_false_iff, N.eqb_eq in Ev.
      apply orb_false_iff in P.
      split; [exact V|]. split; [exact Ev|]. split; apply presence_checks; [exact P | split; assumption].
    - intros (A & Ev & [P1 P2]%presence_checks & [L1 L2]%presence_checks).
      apply header_verify_iff in A. apply N.eqb_eq in Ev. rewrite A, Ev, P1, P2, L1, L2. reflexivity.
  Qed.

  Lemma validate_header_not_missing : forall h, validate_header h <> Some MissingPayloadHash.
  Proof.
    intro h. unfold Model.Validate.validate_header.
    do 5 (apply check_neq; [discriminate|]). discriminate.
  Qed.

  (** Once size and hash are known to be present together, the claimed hash is just the
      header's field: the [MissingPayloadHash] branch cannot be taken. *)
  Lemma claimed_hash : forall h, payload_consistent h ->
    (if N.eqb (h_psize h) 0 then inl None
     else match h_phash h with None => inr MissingPayloadHash | Some x => inl (Some x) end)
    = inl (h_phash h).
  Proof.
    intros h [P1 P2]. destruct (N.eqb_spec (h_psize h) 0) as [E|E].
    - rewrite (P2 E). reflexivity.
    - destruct (h_phash h); [reflexivity|]. destruct (E (P1 eq_refl)).
  Qed.

  Lemma validate_operation_bad_header : forall op e,
    validate_header (op_header op) = Some e -> validate_operation op = Some e.
  Proof. intros op e H. unfold Model.Validate.validate_operation. cbv zeta. rewrite H. reflexivity. Qed.

  Lemma validate_operation_good_header : forall op,
    good_header (op_header op) ->
    validate_operation op
    = match op_body op with
      | Some b =>
          if negb (opt_bytes_eq (h_phash (op_header op)) (Some (hash_body b)))
             || negb (N.eqb (h_psize (op_header op)) (body_size b))
          then Some PayloadMismatch else None
      | None => None
      end.
  Proof.
    intros op G. unfold Model.Validate.validate_operation. cbv zeta.
    rewrite (proj2 (validate_header_iff _) G). destruct G as (_ & _ & P & _).
    rewrite (claimed_hash _ P). reflexivity.
  Qed.

  Theorem validate_iff : forall op, validate_operation op = None <-> good op.
  Proof.
    intro op. unfold good. destruct (validate_header (op_header op)) as [e|] eqn:VH.
    - rewrite (validate_operation_bad_header _ _ VH). split; [discriminate|].
      intros [G _]. apply validate_header_iff in G. congruence.
    - apply validate_header_iff in VH. rewrite (validate_operation_good_header _ VH).
      unfold body_matches. destruct (op_body op) as [b|].
      + split.
        * intros [[Hh Hs]%orb_false_iff _]%check_none.
          apply negb_false_iff, opt_bytes_eq_iff in Hh. apply negb_false_iff, N.eqb_eq in Hs.
          split; [exact VH|]. intros b' E. injection E as <-. split; assumption.
        * intros [_ BM]. destruct (BM b eq_refl) as [Hh Hs].
          apply opt_bytes_eq_iff in Hh. apply N.eqb_eq in Hs. rewrite Hh, Hs. reflexivity.
      + split; [|reflexivity]. intros _. split; [exact VH | discriminate].
  Qed.

  Theorem validate_sound : forall op, validate_operation op = None -> good op.
  Proof. intro op. apply validate_iff. Qed.

  Theorem validate_complete : forall op, good op -> validate_operation op = None.
  Proof. intro op. apply validate_iff. Qed.

  Theorem missing_payload_hash_unreachable : forall op, validate_operation op <> Some MissingPayloadHash.
  Proof.
    intros op H. destruct (validate_header (op_header op)) as [e|] eqn:VH.
    - rewrite (validate_operation_bad_header _ _ VH) in H. injection H as ->.
      exact (validate_header_not_missing _ VH).
    - apply validate_header_iff in VH. rewrite (validate_operation_good_header _ VH) in H.
      destruct (op_body op); [|discriminate]. destruct (negb _ || negb _); discriminate.
  Qed.

  (** A signature cannot be moved to any other content (or any other author). *)
  Theorem same_signature_same_header : forall h h',
    canonical h -> canonical h' ->
    validate_header h = None -> validate_header h' = None ->
    h_sig h' = h_sig h -> h' = h.
  Proof.
    intros h h' C C' [A _]%validate_header_iff [A' _]%validate_header_iff Es.
    unfold authentic in A, A'. rewrite Es, A in A'. injection A' as E.
    apply sign_inj in E as [_ Em].
    apply (enc_header_inj_canonical order order_perm) in Em; [| exact C | exact C'].
    apply unsigned_sig_eq; [symmetry; exact Em | exact Es].
  Qed.

  (** What counts as tampering with an operation [op], giving [op']:
      - [Tamper_header]: the header differs (one field or many: version, author key, payload size or
        hash, sequence number, backlink, any extension field) while the signature is kept;
      - [Tamper_sig]: the signature is replaced by a different one (or removed), the rest kept;
      - [Tamper_body]: the attached body is replaced by a different attached body.
      Removing the body is *not* tampering, see [body_removal_accepted]. *)
  Inductive single_tamper (op op' : operation) : Prop :=
  | Tamper_header :
      h_sig (op_header op') = h_sig (op_header op) -> op_header op' <> op_header op ->
      single_tamper op op'
  | Tamper_sig :
      unsigned (op_header op') = unsigned (op_header op) ->
      h_sig (op_header op') <> h_sig (op_header op) ->
      single_tamper op op'
  | Tamper_body : forall b b',
      op_header op' = op_header op -> op_body op = Some b -> op_body op' = Some b' -> b <> b' ->
      single_tamper op op'.

  Lemma validate_operation_header : forall op, validate_operation op = None -> validate_header (op_header op) = None.
  Proof. intros op [G _]%validate_iff. apply validate_header_iff, G. Qed.

  (** The author's key is part of the unsigned header, so that header determines the signature. *)
  Lemma authentic_sig_determined : forall h h',
    authentic h -> authentic h' -> unsigned h' = unsigned h -> h_sig h' = h_sig h.
  Proof.
    intros h h' A A' Eu. unfold authentic in A, A'.
    change (h_pk h') with (h_pk (unsigned h')) in A'. rewrite Eu in A'. rewrite A, A'. reflexivity.
  Qed.

  Lemma body_determined : forall op op' b b',
    body_matches op -> body_matches op' -> op_header op' = op_header op ->
    op_body op = Some b -> op_body op' = Some b' -> b = b'.
  Proof.
    intros op op' b b' BM BM' Eh Eb Eb'.
    destruct (BM b Eb) as [Hh _]. destruct (BM' b' Eb') as [Hh' _].
    rewrite Eh, Hh in Hh'. injection Hh' as E. apply hash_inj, E.
  Qed.

  Theorem tamper_rejected : forall op op',
    canonical (op_header op) -> canonical (op_header op') ->
    validate_operation op = None -> single_tamper op op' -> validate_operation op' <> None.
  Proof using verify_spec sign_inj sk_of_inj hash_inj order_perm.
    intros op op' C C' V T V'.
    destruct T as [Es Hne | Eu Hne | b b' Eh Eb Eb' Hne]; apply Hne.
    - apply same_signature_same_header; try assumption; apply validate_operation_header; assumption.
    - apply validate_iff in V as [[A _] _]. apply validate_iff in V' as [[A' _] _].
      exact (authentic_sig_determined _ _ A A' Eu).
    - apply validate_iff in V as [_ BM]. apply validate_iff in V' as [_ BM'].
      exact (body_determined _ _ _ _ BM BM' Eh Eb Eb').
  Qed.

  (** Boundary, stated so that it is visible: deleting the payload of a valid operation is
      accepted by design ([validate_operation] only checks an *attached* body). *)
  Theorem body_removal_accepted : forall op,
    validate_operation op = None ->
    validate_operation (mkOp (op_hash op) (op_header op) None) = None.
  Proof.
    intros op [GH _]%validate_iff. apply validate_iff. split; [exact GH|]. intros b Eb. discriminate Eb.
  Qed.

  (** An attached *empty* body is never accepted (size 0 goes with "no payload hash", and the
      comparison [None <> Some (hash body)] then fails). *)
  Theorem empty_attached_body_rejected : forall op,
    op_body op = Some [] -> validate_operation op <> None.
  Proof.
    intros op Eb [(_ & _ & [_ P2] & _) BM]%validate_iff.
    destruct (BM [] Eb) as [Hh Hs]. rewrite (P2 Hs) in Hh. discriminate Hh.
  Qed.

  Variable store : Type.
  Variable has_op : store -> bytes -> bool.
  Variable log_check : store -> operation -> option op_error.
  Variable insert : store -> operation -> store.

  Notation ingest := (Model.Validate.ingest verify_sig hash_body order store has_op log_check insert).

  Lemma ingest_inv : forall s op s' r, ingest s op = (s', r) ->
    match r with
    | Inserted =>
        validate_operation op = None /\ has_op s (op_hash op) = false /\ log_check s op = None
        /\ s' = insert s op
    | Existed => validate_operation op = None /\ has_op s (op_hash op) = true /\ s' = s
    | Rejected e =>
        (validate_operation op = Some e
         \/ validate_operation op = None /\ has_op s (op_hash op) = false /\ log_check s op = Some e)
        /\ s' = s
    end.
  Proof.
    intros s op s' r. unfold Model.Validate.ingest.
    destruct (validate_operation op); [|destruct (has_op s (op_hash op)); [|destruct (log_check s op)]];
      intro H; injection H as <- <-; auto 6.
  Qed.

  Theorem ingest_reject_unchanged : forall s op s' e, ingest s op = (s', Rejected e) -> s' = s.
  Proof. intros s op s' e H. apply (ingest_inv _ _ _ _ H). Qed.

  Theorem ingest_existed_unchanged : forall s op s', ingest s op = (s', Existed) -> s' = s.
  Proof. intros s op s' H. apply (ingest_inv _ _ _ _ H). Qed.

  Theorem ingest_ok_valid : forall s op s' r,
    ingest s op = (s', r) -> (r = Inserted \/ r = Existed) -> validate_operation op = None.
  Proof. intros s op s' r H [-> | ->]; apply (ingest_inv _ _ _ _ H). Qed.

  Theorem ingest_inserted_only_if_valid : forall s op s',
    ingest s op = (s', Inserted) -> good op /\ has_op s (op_hash op) = false /\ log_check s op = None /\ s' = insert s op.
  Proof.
    intros s op s' H. destruct (ingest_inv _ _ _ _ H) as [V R]. split; [apply validate_sound, V | exact R].
  Qed.

  Theorem ingest_tamper_unchanged : forall s op op',
    canonical (op_header op) -> canonical (op_header op') ->
    validate_operation op = None -> single_tamper op op' ->
    exists e, ingest s op' = (s, Rejected e).
  Proof.
    intros s op op' C C' V T. pose proof (tamper_rejected op op' C C' V T) as R.
    unfold Model.Validate.ingest. destruct (validate_operation op') as [e|]; [|contradiction].
    exists e. reflexivity.
  Qed.
End C01.

Definition ideal_signatures (verify_sig : bytes -> list token -> bytes -> bool)
           (sign : bytes -> list token -> bytes) (sk_of : bytes -> bytes) : Prop :=
  (forall pk m s, verify_sig pk m s = true <-> s = sign (sk_of pk) m)
  /\ (forall k m k' m', sign k m = sign k' m' -> k = k' /\ m = m')
  /\ (forall a b, sk_of a = sk_of b -> a = b).

Definition injective_hash (hash_body : bytes -> bytes) : Prop :=
  forall a b, hash_body a = hash_body b -> a = b.

Lemma app_same_length_inj : forall (A : Type) (a a' b b' : list A),
  length a = length a' -> a ++ b = a' ++ b' -> a = a' /\ b = b'.
Proof.
  induction a as [|x a IH]; destruct a' as [|x' a']; cbn [length app]; intros b b' L E; try discriminate.
  - split; [reflexivity | exact E].
  - injection L as L. injection E as -> E. destruct (IH a' b b' L E) as [-> ->]. split; reflexivity.
Qed.

Lemma ser_token_inj_app : forall t t' r r',
  (ser_token t ++ r)%list = (ser_token t' ++ r')%list -> t = t' /\ r = r'.
Proof.
  intros [n|b|b|n] [n'|b'|b'|n'] r r' E; cbn [ser_token app] in E; try discriminate.
  - injection E as -> ->. split; reflexivity.
  - injection E as El Er. apply Nat2N.inj in El.
    destruct (app_same_length_inj _ b b' r r' El Er) as [-> ->]. split; reflexivity.
  - injection E as Eb ->. split; [|reflexivity]. destruct b, b'; try reflexivity; discriminate.
  - injection E as En ->. apply Nat2N.inj in En. subst. split; reflexivity.
Qed.

Lemma ser_tokens_inj : forall m m', ser_tokens m = ser_tokens m' -> m = m'.
Proof.
  induction m as [|t m IH]; destruct m' as [|t' m']; unfold ser_tokens; cbn [flat_map]; intro E.
  - reflexivity.
  - destruct t'; discriminate.
  - destruct t; discriminate.
  - apply ser_token_inj_app in E as [-> Em]. f_equal. apply IH, Em.
Qed.

Lemma ideal_sign_inj : forall k m k' m', ideal_sign k m = ideal_sign k' m' -> k = k' /\ m = m'.
Proof.
  intros k m k' m' E. unfold ideal_sign in E. injection E as El Er. apply Nat2N.inj in El.
  destruct (app_same_length_inj _ k k' _ _ El Er) as [Ek Em]. apply ser_tokens_inj in Em. split; assumption.
Qed.

Lemma ideal_verify_spec : forall pk m s, ideal_verify pk m s = true <-> s = ideal_sign pk m.
Proof. intros pk m s. unfold ideal_verify. apply bytes_eqb_eq. Qed.

Lemma ideal_hash_inj : forall a b, ideal_hash a = ideal_hash b -> a = b.
Proof. intros a b E. injection E as ->. reflexivity. Qed.

Theorem ideal_instance_signatures : ideal_signatures ideal_verify ideal_sign (fun x => x).
Proof. split; [exact ideal_verify_spec | split; [exact ideal_sign_inj | intros a b E; exact E]]. Qed.

Theorem ideal_instance_hash : injective_hash ideal_hash.
Proof. exact ideal_hash_inj. Qed.

(** Non-vacuity: a concrete operation (payload, backlink, Node causal extension with two previous
    hashes) that validates under the ideal instance, its tampered variants that do not. *)
Definition ex_body : bytes := [1; 2; 3]%N.
Definition ex_unsigned : header :=
  mkHeader 1 (repeat 7%N 32) None 3 (Some (ideal_hash ex_body)) 2 (Some (repeat 8%N 32))
           (ECausal (repeat 3%N 32) 5 [repeat 1%N 32; repeat 2%N 32]).
Definition ex_header : header :=
  with_sig ex_unsigned (Some (ideal_sign (repeat 7%N 32) (enc_header0 ex_unsigned))).
Definition ex_op : operation := mkOp [0%N] ex_header (Some ex_body).

Example ex_op_valid :
  validate_operation ideal_verify ideal_hash (fun l => l) ex_op = None.
Proof. vm_compute. reflexivity. Qed.

Example ex_op_tampered_seq :
  validate_operation ideal_verify ideal_hash (fun l => l)
    (mkOp [0%N] (mkHeader 1 (repeat 7%N 32) (h_sig ex_header) 3 (Some (ideal_hash ex_body)) 3
                          (Some (repeat 8%N 32)) (h_ext ex_header)) (Some ex_body))
  = Some SignatureMismatch.
Proof. vm_compute. reflexivity. Qed.

Example ex_op_tampered_body :
  validate_operation ideal_verify ideal_hash (fun l => l) (mkOp [0%N] ex_header (Some [1; 2; 4]%N))
  = Some PayloadMismatch.
Proof. vm_compute. reflexivity. Qed.

Example ex_ingest_tamper :
  exists e, ingest ideal_verify ideal_hash (fun l => l) lstore lhas (fun _ _ => None) linsert []
              (mkOp [0%N] ex_header (Some [1; 2; 4]%N)) = ([], Rejected e).
Proof.
  apply (ingest_tamper_unchanged ideal_verify ideal_hash (fun l => l) ideal_sign (fun x => x)
           ideal_verify_spec ideal_sign_inj (fun a b E => E) ideal_hash_inj
           (fun l => Permutation_refl l) lstore lhas (fun _ _ => None) linsert [] ex_op).
  - vm_compute. reflexivity.
  - vm_compute. reflexivity.
  - exact ex_op_valid.
  - apply (Tamper_body _ _ ex_body [1; 2; 4]%N); [reflexivity | reflexivity | reflexivity | discriminate].
Qed.
