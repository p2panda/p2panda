(** Proofs about the topic sync session model (Model/TopicSync.v) — property C22.

    No section variables / hypotheses: everything is closed.  The centre is [run_shape]: for EVERY
    input sequence (messages, stream errors, closure at any point), sink fault position (sticky or
    not), select schedule, live flag and buffer capacity the run returns and its event list has one
    of four shapes.  What the oracle accepts, the grammar in the property's words, the agreement of
    result and terminal event and the absence of SessionStarted are all read off the shapes. *)
From Coq Require Import List NArith Bool Lia.
From PV Require Import Model.Dedup Model.TopicSync.
Import ListNotations.

Lemma st_send_evs : forall s w, evs (snd (st_send s w)) = evs s.
Proof. intros s w. unfold st_send. destruct (send (snk s) w). reflexivity. Qed.

Lemma st_send_dd : forall s w, dd (snd (st_send s w)) = dd s.
Proof. intros s w. unfold st_send. destruct (send (snk s) w). reflexivity. Qed.

Lemma send_group_evs : forall g s, evs (snd (send_group g s)) = evs s.
Proof.
  induction g as [|id r IH]; intro s; cbn [send_group]; [reflexivity|].
  pose proof (st_send_evs s (WSync (MOp id))) as E.
  destruct (st_send s (WSync (MOp id))) as [[|] s1]; [rewrite IH|]; exact E.
Qed.

Lemma next_stream_shorter : forall ins lq i ins1 lq1,
  next_stream ins lq = (Some i, ins1, lq1) -> length ins1 < length ins.
Proof.
  induction ins as [|x r IH]; intros lq i ins1 lq1 H; cbn [next_stream] in H.
  - discriminate H.
  - destruct x as [it|l].
    + inversion H; subst. cbn. lia.
    + apply IH in H. cbn. lia.
Qed.

(** Waiting for a message of the sync protocol, as [sync_phase] and [sync_loop] do it. *)
Lemma receive_cases : forall (P : sres * st * list input * list linput -> Prop) ins lq s
    (k : smsg -> list input -> list linput -> sres * st * list input * list linput),
  (forall e ins1 lq1, P (SErrK e, s, ins1, lq1)) ->
  (forall m ins1 lq1, length ins1 < length ins -> P (k m ins1 lq1)) ->
  P (match next_stream ins lq with
     | (None, ins1, lq1) => (SErrK SyncClosure, s, ins1, lq1)
     | (Some i, ins1, lq1) =>
         match classify i with inr e => (SErrK e, s, ins1, lq1) | inl m => k m ins1 lq1 end
     end).
Proof.
  intros P ins lq s k Herr Hk.
  destruct (next_stream ins lq) as [[[i|] ins1] lq1] eqn:En; [|apply Herr].
  destruct (classify i); [apply Hk; eapply next_stream_shorter; exact En | apply Herr].
Qed.

Definition extends_by_ops (a b : list event) : Prop := exists o, b = a ++ map EOp o.

Lemma extends_refl : forall a, extends_by_ops a a.
Proof. intro a. exists []. cbn. rewrite app_nil_r. reflexivity. Qed.

Lemma extends_snoc : forall a b id, extends_by_ops a b -> extends_by_ops a (b ++ [EOp id]).
Proof. intros a b id [o ->]. exists (o ++ [id]). rewrite map_app, app_assoc. reflexivity. Qed.

(** What keeps the fuel sufficient: [sent_done] is set as soon as nothing is (left) to send — on
    entry when the local side has no group, in the loop when the last group is out — so an
    iteration that neither reads nor sends finds both sides done and exits. *)
Definition done_if_empty (groups : list (list N)) (sent_done : bool) : Prop :=
  groups = [] -> sent_done = true.

(** The loop never runs out of fuel: each iteration consumes an input or a group, or exits. *)
Lemma sync_loop_spec : forall fuel rd sd groups ins lq sched s before,
  done_if_empty groups sd ->
  length ins + length groups < fuel ->
  extends_by_ops before (evs s) ->
  let '(r, s', _, _) := sync_loop fuel rd sd groups ins lq sched s in
  r <> SDiverge /\ extends_by_ops before (evs s').
Proof.
  induction fuel as [|f IH]; intros rd sd groups ins lq sched s before Hinv Hf He; [lia|].
  cbn [sync_loop]. set (stream_first := negb rd && _).
  assert (Eb : stream_first = false -> groups = [] -> rd = true).
  { subst stream_first. intros H ->. destruct rd; [reflexivity|]. cbn in H. rewrite orb_true_r in H. discriminate H. }
  destruct stream_first.
  - apply (receive_cases (fun x => let '(r, s', _, _) := x in r <> SDiverge /\ extends_by_ops before (evs s')));
      [intros; split; [discriminate | exact He]|].
    intros [| | |id|] ins1 lq1 En; try (split; [discriminate | exact He]).
    + apply IH; [exact Hinv | lia | exact He].
    + destruct (insert (dd s) id) as [b1 [|]]; (apply IH; [exact Hinv | lia |]);
        [apply extends_snoc|]; exact He.
  - destruct groups as [|g rest].
    + (* nothing left to send, and the stream branch was not taken: the remote is done too *)
      rewrite (Hinv eq_refl), (Eb eq_refl eq_refl). split; [discriminate | exact He].
    + rewrite <- (send_group_evs g s) in He.
      destruct (send_group g s) as [[|] s1]; cbn [snd] in He; [|split; [discriminate | exact He]].
      destruct rest as [|g2 rest2]; [|apply IH; [intro; discriminate | cbn [length] in *; lia | exact He]].
      rewrite <- (st_send_evs s1 (WSync MDone)) in He.
      destruct (st_send s1 (WSync MDone)) as [[|] s2]; cbn [snd] in He; [|split; [discriminate | exact He]].
      apply IH; [intro; reflexivity | cbn [length] in *; lia | exact He].
Qed.

Definition sync_events (before after : list event) (r : sres) : Prop :=
  r <> SDiverge /\
  ((after = before /\ r <> SOk) \/ exists o, after = before ++ ESyncStarted :: map EOp o).

Lemma sync_events_error : forall before after e, after = before -> sync_events before after (SErrK e).
Proof. intros before after e H. split; [discriminate|]. left. split; [exact H | discriminate]. Qed.

Lemma concat_nil_groups : forall (sends : list (list N)), sends = [] -> concat sends = [].
Proof. intros sends ->. reflexivity. Qed.

Lemma sync_loop_started : forall rd sd groups ins lq sched s,
  done_if_empty groups sd ->
  let '(r, s', _, _) := sync_loop (2 + length ins + length groups) rd sd groups ins lq sched (emit s ESyncStarted) in
  sync_events (evs s) (evs s') r.
Proof.
  intros rd sd groups ins lq sched s Hinv.
  pose proof (sync_loop_spec (2 + length ins + length groups) rd sd groups ins lq sched
                (emit s ESyncStarted) _ Hinv ltac:(lia) (extends_refl _)) as H.
  destruct (sync_loop _ rd sd groups ins lq sched _) as [[[r s'] ins'] lq'].
  destruct H as [Ht [o Ho]].
  split; [exact Ht|]. right. exists o. rewrite Ho. cbn [emit evs]. rewrite <- app_assoc. reflexivity.
Qed.

Lemma sync_phase_events : forall sends ins sched s,
  let '(r, s', _, _) := sync_phase sends ins sched s in sync_events (evs s) (evs s') r.
Proof.
  intros sends ins sched s. unfold sync_phase.
  pose proof (st_send_evs s (WSync MHave)) as E1.
  destruct (st_send s (WSync MHave)) as [[|] s1]; cbn [snd] in E1; cbn [negb]; [|apply sync_events_error; exact E1].
  apply (receive_cases (fun x => let '(r, s', _, _) := x in sync_events (evs s) (evs s') r));
    [intros; apply sync_events_error; exact E1|].
  intros [| | | |] ins1 lq1 _; try (apply sync_events_error; exact E1).
  set (nothing := match concat sends with [] => true | _ => false end).
  assert (Hinv : done_if_empty sends nothing).
  { intro H. unfold nothing. rewrite (concat_nil_groups sends H). reflexivity. }
  pose proof (st_send_evs s1 (WSync (if nothing then MDone else MPreSync))) as E2. rewrite E1 in E2.
  destruct (st_send s1 _) as [[|] s2]; cbn [snd] in E2; cbn [negb]; [|apply sync_events_error; exact E2].
  apply (receive_cases (fun x => let '(r, s', _, _) := x in sync_events (evs s) (evs s') r));
    [intros; apply sync_events_error; exact E2|].
  intros [| | | |] ins2 lq2 _; try (apply sync_events_error; exact E2).
  all: rewrite <- E2; apply sync_loop_started; exact Hinv.
Qed.

Lemma live_loop_events : forall ins cs s before,
  extends_by_ops before (evs s) ->
  fst (live_loop ins cs s) <> RDiverge /\ extends_by_ops before (evs (snd (live_loop ins cs s))).
Proof.
  induction ins as [|x rest IH]; intros cs s before He; cbn [live_loop].
  - split; [destruct cs; discriminate | exact He].
  - destruct x as [[[m|id|]|]|[id|]].
    + split; [discriminate | exact He].
    + destruct (insert (dd s) id) as [b1 [|]]; apply IH; [apply extends_snoc|]; exact He.
    + split; [discriminate | exact He].
    + split; [destruct cs; discriminate | exact He].
    + destruct (insert (dd s) id) as [b1 [|]]; [|apply IH; exact He].
      change (evs s) with (evs (with_dd s b1)) in He. rewrite <- (st_send_evs _ (WLive id)) in He.
      destruct (st_send (with_dd s b1) (WLive id)) as [[|] s2]; [apply IH | split; [discriminate|]]; exact He.
    + rewrite <- (st_send_evs s WClose) in He.
      destruct (st_send s WClose) as [[|] s1]; [apply IH | split; [discriminate|]]; exact He.
Qed.

Definition terminal (e : event) : Prop := e = ESessionFinished \/ e = EFailed.

Inductive shape (lv : bool) : list event -> Prop :=
| sh_fail0 : shape lv [EFailed]
| sh_fail1 : forall o1, shape lv (ESyncStarted :: map EOp o1 ++ [EFailed])
| sh_nolive : forall o1 t, terminal t -> (t = ESessionFinished -> lv = false) ->
    shape lv (ESyncStarted :: map EOp o1 ++ [ESyncFinished; t])
| sh_live : forall o1 o2 t, lv = true -> terminal t ->
    shape lv (ESyncStarted :: map EOp o1 ++ [ESyncFinished; ELiveStarted] ++ map EOp o2 ++ [t]).

Definition last_is (l : list event) (e : event) : Prop := exists p, l = p ++ [e].

Lemma last_is_snoc : forall p t e, last_is (p ++ [t]) e <-> t = e.
Proof.
  intros p t e. split.
  - intros [p' H]. apply app_inj_tail in H. apply H.
  - intros ->. exists p. reflexivity.
Qed.

Lemma finish_spec : forall r s, r <> RDiverge ->
  fst (finish r s) <> RDiverge /\
  exists t, evs (snd (finish r s)) = evs s ++ [t] /\ terminal t /\ (fst (finish r s) = ROk <-> t = ESessionFinished).
Proof.
  intros r s Hr. unfold finish. destruct (close (snk s)) as [[|] k]; cbn [fst snd emit evs with_snk].
  - destruct r as [|e|]; [| |contradiction]; (split; [discriminate|]).
    + exists ESessionFinished. split; [reflexivity|]. split; [left; reflexivity|]. split; reflexivity.
    + exists EFailed. split; [reflexivity|]. split; [right; reflexivity|]. split; discriminate.
  - split; [discriminate|].
    exists EFailed. split; [reflexivity|]. split; [right; reflexivity|]. split; discriminate.
Qed.

Theorem run_shape : forall c ins fa stk sched,
  let r := fst (run c ins fa stk sched) in
  let l := evs (snd (run c ins fa stk sched)) in
  r <> RDiverge /\ shape (live c) l /\ (r = ROk <-> last_is l ESessionFinished).
Proof.
  intros c ins fa stk sched. cbv zeta. unfold run.
  pose proof (sync_phase_events (sends c) ins sched (st0 c fa stk)) as Hev.
  destruct (sync_phase (sends c) ins sched (st0 c fa stk)) as [[[sr s] ins1] lq1].
  destruct Hev as [Hd Hev]. cbn [st0 evs app] in Hev.
  destruct sr as [|e|]; [| |contradiction].
  - destruct Hev as [[_ Hc]|[o1 Ho]]; [contradiction|].
    destruct (live c) eqn:El.
    + pose proof (live_loop_events (map InL lq1 ++ ins1) false (emit (emit s ESyncFinished) ELiveStarted)
                    _ (extends_refl _)) as [Hr [o2 Ho2]].
      destruct (live_loop _ false _) as [r s2]. cbn [fst snd emit evs] in Hr, Ho2.
      destruct (finish_spec r s2 Hr) as [Hr' (t & Et & Ht & Hrt)].
      split; [exact Hr'|]. rewrite Et. split; [|apply (iff_trans Hrt); symmetry; apply last_is_snoc].
      rewrite Ho2, Ho. cbn [app]. repeat rewrite <- app_assoc. apply (sh_live true o1 o2 t); auto.
    + destruct (finish_spec ROk (emit s ESyncFinished)) as [Hr' (t & Et & Ht & Hrt)]; [discriminate|].
      split; [exact Hr'|]. rewrite Et. split; [|apply (iff_trans Hrt); symmetry; apply last_is_snoc].
      cbn [emit evs]. rewrite Ho. cbn [app]. rewrite <- app_assoc. apply sh_nolive; auto.
  - destruct (close (snk (emit s EFailed))) as [ok k]. cbn [fst snd with_snk evs emit].
    split; [discriminate|]. split.
    + destruct Hev as [[-> _]|[o1 ->]]; [apply sh_fail0 | apply (sh_fail1 (live c) o1)].
    + split; [discriminate|]. intro H. apply last_is_snoc in H. discriminate H.
Qed.

Lemma fold_ops_loop : forall lv s, (forall id, delta lv s (EOp id) = s) ->
  forall o rest, fold_left (delta lv) (map EOp o ++ rest) s = fold_left (delta lv) rest s.
Proof.
  intros lv s Hs. induction o as [|x o IH]; intros rest; cbn [map app fold_left]; [reflexivity|].
  rewrite Hs. apply IH.
Qed.

Lemma fold_bad : forall lv l, fold_left (delta lv) l QBad = QBad.
Proof. induction l as [|x l IH]; cbn; [reflexivity | exact IH]. Qed.

Lemma accept_QEnd : forall lv l, q_is_end (fold_left (delta lv) l QEnd) = true -> l = [].
Proof.
  intros lv [|x l] H; [reflexivity|]. cbn [fold_left] in H.
  replace (delta lv QEnd x) with QBad in H by (destruct x; reflexivity). rewrite fold_bad in H. discriminate H.
Qed.

Lemma shape_accepted : forall lv l, shape lv l -> lifecycle_tail lv l = true.
Proof.
  intros lv l H. unfold lifecycle_tail. destruct H as [|o1|o1 t Ht Hl|o1 o2 t Hl Ht].
  - reflexivity.
  - cbn. rewrite fold_ops_loop by reflexivity. reflexivity.
  - cbn. rewrite fold_ops_loop by reflexivity. destruct Ht as [-> | ->]; [rewrite (Hl eq_refl)|]; reflexivity.
  - cbn. rewrite fold_ops_loop by reflexivity. subst lv. cbn. rewrite fold_ops_loop by reflexivity. destruct Ht as [-> | ->]; reflexivity.
Qed.

Lemma accept_Q3 : forall lv l, q_is_end (fold_left (delta lv) l Q3) = true ->
  exists o t, l = map EOp o ++ [t] /\ terminal t.
Proof.
  intros lv. induction l as [|x l IH]; intro H; [discriminate H|].
  cbn [fold_left] in H. destruct x; cbn [delta] in H; try (rewrite fold_bad in H; discriminate H).
  - apply IH in H. destruct H as (o & t & -> & Ht). exists (id :: o), t. split; [reflexivity | assumption].
  - apply accept_QEnd in H. subst l.
    exists [], ESessionFinished. split; [reflexivity | left; reflexivity].
  - apply accept_QEnd in H. subst l.
    exists [], EFailed. split; [reflexivity | right; reflexivity].
Qed.

Lemma accept_Q2 : forall lv l, q_is_end (fold_left (delta lv) l Q2) = true ->
  (exists t, l = [t] /\ terminal t /\ (t = ESessionFinished -> lv = false)) \/
  (lv = true /\ exists o t, l = ELiveStarted :: map EOp o ++ [t] /\ terminal t).
Proof.
  intros lv l H. destruct l as [|x l]; [discriminate H|].
  cbn [fold_left] in H. destruct x; cbn [delta] in H; try (rewrite fold_bad in H; discriminate H).
  - destruct lv; [|rewrite fold_bad in H; discriminate H].
    apply accept_Q3 in H. destruct H as (o & t & -> & Ht). right. split; [reflexivity|]. eauto.
  - destruct lv; [rewrite fold_bad in H; discriminate H|].
    apply accept_QEnd in H. subst l.
    left. exists ESessionFinished. repeat split; auto. left; reflexivity.
  - apply accept_QEnd in H. subst l.
    left. exists EFailed. repeat split; try discriminate. right; reflexivity.
Qed.

Lemma accept_Q1 : forall lv l, q_is_end (fold_left (delta lv) l Q1) = true ->
  exists o rest, l = map EOp o ++ rest /\
    (rest = [EFailed] \/ exists r2, rest = ESyncFinished :: r2 /\ q_is_end (fold_left (delta lv) r2 Q2) = true).
Proof.
  intros lv. induction l as [|x l IH]; intro H; [discriminate H|].
  cbn [fold_left] in H. destruct x; cbn [delta] in H; try (rewrite fold_bad in H; discriminate H).
  - apply IH in H. destruct H as (o & rest & -> & Hr). exists (id :: o), rest. split; [reflexivity | assumption].
  - exists [], (ESyncFinished :: l). split; [reflexivity|]. right. eauto.
  - apply accept_QEnd in H. subst l.
    exists [], [EFailed]. split; [reflexivity | left; reflexivity].
Qed.

Lemma accepted_shape : forall lv l, lifecycle_tail lv l = true -> shape lv l.
Proof.
  intros lv l H. unfold lifecycle_tail in H. destruct l as [|x l]; [discriminate H|].
  cbn [fold_left] in H. destruct x; cbn [delta] in H; try (rewrite fold_bad in H; discriminate H).
  - apply accept_Q1 in H. destruct H as (o1 & rest & -> & [-> | (r2 & -> & H2)]).
    + apply sh_fail1.
    + apply accept_Q2 in H2. destruct H2 as [(t & -> & Ht & Hlv) | (Hlv & o2 & t & -> & Ht)].
      * apply sh_nolive; auto.
      * apply (sh_live lv o1 o2 t); auto.
  - apply accept_QEnd in H. subst l.
    apply sh_fail0.
Qed.

Theorem lifecycle_tail_iff_shape : forall lv l, lifecycle_tail lv l = true <-> shape lv l.
Proof. intros lv l. split; [apply accepted_shape | apply shape_accepted]. Qed.

Definition success_seq (lv : bool) (o1 o2 : list N) : list event :=
  [ESyncStarted] ++ map EOp o1 ++ [ESyncFinished] ++ (if lv then [ELiveStarted] ++ map EOp o2 else []).

Definition nonterminal (e : event) : Prop := e <> ESessionFinished /\ e <> EFailed.

Lemma nonterminal_ops : forall o, Forall nonterminal (map EOp o).
Proof. induction o; cbn; constructor; auto. split; discriminate. Qed.

(** The grammar in the words of the property: [t] is the only terminal event and it is last; [p]
    is a prefix of a success sequence [SyncStarted Op^ SyncFinished (LiveModeStarted Op^)?]
    (^ = repetition), complete for the configured mode if [t] is SessionFinished. *)
Definition lifecycle_form (lv : bool) (l : list event) : Prop :=
  exists p t, l = p ++ [t] /\ terminal t /\ Forall nonterminal p /\
    exists o1 o2 suffix, success_seq lv o1 o2 = p ++ suffix /\ (t = ESessionFinished -> suffix = []).

Lemma success_seq_nonterminal : forall lv o1 o2, Forall nonterminal (success_seq lv o1 o2).
Proof.
  intros lv o1 o2. unfold success_seq. cbn [app].
  constructor; [split; discriminate|]. apply Forall_app. split; [apply nonterminal_ops|].
  constructor; [split; discriminate|].
  destruct lv; constructor; [split; discriminate | apply nonterminal_ops].
Qed.

(** A prefix of a success sequence is terminal-free of itself. *)
Lemma lifecycle_form_intro : forall lv p t o1 o2 suffix,
  terminal t -> success_seq lv o1 o2 = p ++ suffix -> (t = ESessionFinished -> suffix = []) ->
  lifecycle_form lv (p ++ [t]).
Proof.
  intros lv p t o1 o2 suffix Ht E Hs. exists p, t. split; [reflexivity|]. split; [exact Ht|]. split; [|eauto].
  pose proof (success_seq_nonterminal lv o1 o2) as H. rewrite E in H. apply Forall_app in H. apply H.
Qed.

Theorem shape_lifecycle_form : forall lv l, shape lv l -> lifecycle_form lv l.
Proof.
  intros lv l H. destruct H as [|o1|o1 t Ht Hl|o1 o2 t Hl Ht].
  - apply (lifecycle_form_intro lv [] EFailed [] [] (success_seq lv [] []));
      [right; reflexivity | reflexivity | discriminate].
  - apply (lifecycle_form_intro lv (ESyncStarted :: map EOp o1) EFailed o1 []
             ([ESyncFinished] ++ (if lv then [ELiveStarted] ++ map EOp [] else [])));
      [right; reflexivity | reflexivity | discriminate].
  - replace (ESyncStarted :: map EOp o1 ++ [ESyncFinished; t])
      with ((ESyncStarted :: map EOp o1 ++ [ESyncFinished]) ++ [t])
      by (cbn [app]; rewrite <- app_assoc; reflexivity).
    apply (lifecycle_form_intro lv _ t o1 [] (if lv then [ELiveStarted] else [])); [exact Ht| |].
    + unfold success_seq. cbn [app]. rewrite <- app_assoc. destruct lv; reflexivity.
    + intro E. rewrite (Hl E). reflexivity.
  - subst lv.
    replace (ESyncStarted :: map EOp o1 ++ [ESyncFinished; ELiveStarted] ++ map EOp o2 ++ [t])
      with ((ESyncStarted :: map EOp o1 ++ [ESyncFinished; ELiveStarted] ++ map EOp o2) ++ [t])
      by (cbn [app]; rewrite <- !app_assoc; reflexivity).
    apply (lifecycle_form_intro true _ t o1 o2 []); [exact Ht | | reflexivity].
    unfold success_seq. cbn [app]. rewrite app_nil_r. reflexivity.
Qed.

Theorem lifecycle_every_run : forall c ins fa stk sched,
  fst (run c ins fa stk sched) <> RDiverge /\
  lifecycle_form (live c) (evs (snd (run c ins fa stk sched))) /\
  lifecycle_tail (live c) (evs (snd (run c ins fa stk sched))) = true.
Proof.
  intros c ins fa stk sched. destruct (run_shape c ins fa stk sched) as (Hr & Hs & _).
  split; [assumption|]. split; [apply shape_lifecycle_form | apply shape_accepted]; assumption.
Qed.

Theorem exactly_one_terminal_last : forall c ins fa stk sched,
  exists p t, evs (snd (run c ins fa stk sched)) = p ++ [t] /\
    (t = ESessionFinished \/ t = EFailed) /\
    Forall (fun e => e <> ESessionFinished /\ e <> EFailed) p.
Proof.
  intros c ins fa stk sched.
  destruct (lifecycle_every_run c ins fa stk sched) as (_ & (p & t & E & Ht & Hp & _) & _).
  exists p, t. split; [exact E|]. split; [exact Ht | exact Hp].
Qed.

Theorem result_matches_terminal : forall c ins fa stk sched,
  fst (run c ins fa stk sched) = ROk <-> last_is (evs (snd (run c ins fa stk sched))) ESessionFinished.
Proof. intros c ins fa stk sched. destruct (run_shape c ins fa stk sched) as (_ & _ & H). exact H. Qed.

Lemma session_started_rejected : forall lv w s,
  In ESessionStarted w -> q_is_end (fold_left (delta lv) w s) = false.
Proof.
  induction w as [|x w IH]; intros s Hin; [destruct Hin|].
  cbn [fold_left]. destruct Hin as [E|I]; [|apply IH; exact I].
  subst x. replace (delta lv s ESessionStarted) with QBad by (destruct s; reflexivity).
  rewrite fold_bad. reflexivity.
Qed.

Lemma shape_no_session_started : forall lv l, shape lv l -> ~ In ESessionStarted l.
Proof.
  intros lv l H Hin. apply shape_accepted in H. unfold lifecycle_tail in H.
  rewrite (session_started_rejected lv l Q0 Hin) in H. discriminate H.
Qed.

Theorem session_started_never_emitted : forall c ins fa stk sched,
  ~ In ESessionStarted (evs (snd (run c ins fa stk sched))).
Proof.
  intros c ins fa stk sched. destruct (run_shape c ins fa stk sched) as (_ & Hs & _).
  eapply shape_no_session_started; exact Hs.
Qed.

Definition witness_cfg : cfg := {| live := false; cap := 8; sends := [] |}.
Definition witness_ins : list input := [InS (SMsg (WSync MHave)); InS (SMsg (WSync MDone))].

(** The property as stated (SessionStarted first) fails — for every session, in particular for
    the plainest successful one. *)
Theorem lifecycle_refuted_everywhere : forall c ins fa stk sched,
  lifecycle (live c) (evs (snd (run c ins fa stk sched))) = false.
Proof.
  intros c ins fa stk sched. pose proof (session_started_never_emitted c ins fa stk sched) as H.
  destruct (evs (snd (run c ins fa stk sched))) as [|x l]; [reflexivity|].
  destruct x; try reflexivity. exfalso. apply H. left. reflexivity.
Qed.

Theorem lifecycle_refuted :
  exists c ins fa stk sched,
    fst (run c ins fa stk sched) = ROk /\ lifecycle (live c) (evs (snd (run c ins fa stk sched))) = false.
Proof.
  exists witness_cfg, witness_ins, None, false, []. split; [reflexivity | apply lifecycle_refuted_everywhere].
Qed.

(** Outside the known finding (the missing first event), the whole grammar holds: prepend the
    event the documentation promises and every run is accepted. *)
Theorem lifecycle_outside_known : forall c ins fa stk sched,
  lifecycle (live c) (ESessionStarted :: evs (snd (run c ins fa stk sched))) = true.
Proof.
  intros c ins fa stk sched. cbn [lifecycle].
  destruct (lifecycle_every_run c ins fa stk sched) as (_ & _ & H). exact H.
Qed.

Example ex_live_run :
  let c := {| live := true; cap := 4; sends := [[0%N; 1%N]] |} in
  let ins := [InS (SMsg (WSync MHave)); InS (SMsg (WSync MPreSync)); InS (SMsg (WSync (MOp 200%N)));
              InS (SMsg (WSync MDone)); InL (LPayload 7%N); InS (SMsg (WLive 201%N)); InL LClose; InS (SMsg WClose)] in
  fst (run c ins None false [false; true]) = ROk /\
  evs (snd (run c ins None false [false; true]))
  = [ESyncStarted; EOp 200%N; ESyncFinished; ELiveStarted; EOp 201%N; ESessionFinished] /\
  out (snk (snd (run c ins None false [false; true])))
  = [WSync MHave; WSync MPreSync; WSync (MOp 0%N); WSync (MOp 1%N); WSync MDone; WLive 7%N; WClose].
Proof. repeat split. Qed.

Example ex_faulty_run :
  let c := {| live := true; cap := 4; sends := [] |} in
  let ins := [InS (SMsg (WSync MHave)); InS (SMsg (WSync MDone)); InL (LPayload 7%N)] in
  fst (run c ins (Some 4) true []) = RErr ChanSink /\
  evs (snd (run c ins (Some 4) true [])) = [ESyncStarted; ESyncFinished; ELiveStarted; EFailed].
Proof. repeat split. Qed.

Example ex_closure_in_sync :
  let c := {| live := true; cap := 4; sends := [] |} in
  run c [InS (SMsg (WSync MHave)); InS (SMsg (WSync MPreSync))] None false []
  = (RErr SyncClosure, snd (run c [InS (SMsg (WSync MHave)); InS (SMsg (WSync MPreSync))] None false [])) /\
  evs (snd (run c [InS (SMsg (WSync MHave)); InS (SMsg (WSync MPreSync))] None false [])) = [ESyncStarted; EFailed].
Proof. split; reflexivity. Qed.
