(** One node of the joint system: the invariants a node keeps while it runs against a store that
    does not change and consumes a prefix of its peer's script.  Used by the joint proofs of C19
    (received_exact, termination) and C21. *)
From Coq Require Import List Arith NArith Bool Lia.
From PV Require Import Model.Dedup Model.LogSync Proofs.LogSyncC20 Proofs.LogSyncScript.
Import ListNotations.

Lemma range_ops_are_ops r todo : Forall is_op (flat_map (range_ops r) todo).
Proof.
  induction todo as [|alr todo IH]; [constructor|]. cbn [flat_map]. apply Forall_app. split; [|exact IH].
  unfold range_ops. apply ops_are_ops.
Qed.

Lemma script_complete r logs h : complete_word (script r logs h).
Proof.
  unfold script, complete_word. destruct (N.ltb 0 _).
  - right. eexists _, _, _, _. split; [reflexivity|apply range_ops_are_ops].
  - left. eexists. reflexivity.
Qed.

Lemma script_head r logs h : exists rest, script r logs h = Have (local_heights r logs) :: rest.
Proof. unfold script. eexists. reflexivity. Qed.

Lemma word_next sc cons m suf :
  complete_word sc -> cons ++ m :: suf = sc ->
  (cons = [] -> exists h, m = Have h) /\
  (length cons = 1 -> (m = Done /\ suf = []) \/ (exists o b, m = PreSync o b /\ suf <> [])) /\
  (2 <= length cons -> (m = Done /\ suf = []) \/ (is_op m /\ suf <> [])).
Proof.
  intros W E. destruct cons as [|c0 [|c1 cons]]; cbn in E.
  - split; [intros _|split; intros L; inversion L].
    destruct W as [[h ->]|[h [o [b [ops [-> _]]]]]]; injection E as -> _; eauto.
  - split; [discriminate|]. split; [intros _|intros L; apply le_S_n in L; inversion L].
    destruct W as [[h ->]|[h [o [b [ops [-> _]]]]]]; injection E as _ -> ->; [auto|].
    right. exists o, b. split; [reflexivity|]. destruct ops; discriminate.
  - split; [discriminate|]. split; [discriminate|intros _].
    destruct W as [[h ->]|[h [o [b [ops [-> F]]]]]]; injection E as _ _ E.
    { destruct cons; discriminate E. }
    (* [m] is the last element of [ops ++ [Done]] or one of [ops] *)
    destruct suf as [|x suf'] using rev_ind.
    + left. apply app_inj_tail in E. destruct E as [_ ->]. auto.
    + right. rewrite app_comm_cons, app_assoc in E. apply app_inj_tail in E. destruct E as [E _].
      split; [|destruct suf'; discriminate].
      rewrite <- E in F. apply Forall_app in F. destruct F as [_ F]. inversion F; assumption.
Qed.

Lemma word_length sc : complete_word sc -> 2 <= length sc.
Proof.
  intros [[h ->]|[h [o [b [ops [-> _]]]]]]; cbn; [lia|]. rewrite app_length. cbn. lia.
Qed.

Lemma word_done_last sc cons suf : complete_word sc -> cons ++ Done :: suf = sc -> suf = [].
Proof.
  intros W E. apply (gram_nothing_after_done cons). rewrite E, (complete_gram sc W). discriminate.
Qed.

Lemma read_silent s i s' o m : move s i s' o -> i = Recv m -> sent o = [].
Proof.
  destruct 1; intros E; try discriminate E; try reflexivity.
  destruct (snd (insert d (r_id w))); reflexivity.
Qed.

Lemma recv_sends_nothing s m : sent (snd (recv s m)) = [].
Proof. exact (read_silent _ _ _ _ m (step_move s (Recv m)) eq_refl). Qed.

Lemma node_tick_some fixed r n n' :
  node_tick fixed r n = Some n' ->
  n_pend n = [] /\ n_parked n = false /\ tick_enabled fixed (n_st n) = true /\
  n' = mknode (fst (tick fixed r (n_st n))) (sent (snd (tick fixed r (n_st n)))) false
         (n_hist n ++ snd (tick fixed r (n_st n))) (n_cons n).
Proof.
  unfold node_tick. destruct (n_pend n); [|discriminate]. destruct (n_parked n); [discriminate|].
  destruct (tick_enabled fixed (n_st n)); [|discriminate]. intros [= <-]. auto.
Qed.

Lemma node_recv_some n q n' q' :
  node_recv n q = Some (n', q') ->
  exists m, q = m :: q' /\ n_pend n = [] /\ n_parked n = false /\ can_recv (n_st n) = true /\
    n' = mknode (fst (recv (n_st n) m)) [] false (n_hist n ++ snd (recv (n_st n) m)) (n_cons n ++ [m]).
Proof.
  unfold node_recv. destruct (n_pend n); [|discriminate]. destruct (n_parked n); [discriminate|].
  destruct q as [|m q0]; [discriminate|]. destruct (can_recv (n_st n)); [|discriminate].
  intros [= <- <-]. exists m. auto.
Qed.

Lemma node_push_some cbuf n q n' q' :
  node_push cbuf n q = Some (n', q') ->
  exists m p, n_pend n = m :: p /\ n_parked n = false /\ q' = q ++ [m] /\
    n' = mknode (n_st n) p (parks cbuf (q ++ [m])) (n_hist n) (n_cons n).
Proof.
  unfold node_push. destruct (n_pend n) as [|m p]; [discriminate|]. destruct (n_parked n); [discriminate|].
  intros [= <- <-]. exists m, p. auto.
Qed.

Lemma parked_blocked fixed cbuf r n q_out q_in :
  n_parked n = true ->
  node_tick fixed r n = None /\ node_push cbuf n q_out = None /\ node_recv n q_in = None.
Proof.
  unfold node_tick, node_push, node_recv. intros ->. destruct (n_pend n); auto.
Qed.

(** Holds for every store: a side that has not sent its Done still has an author to send (so
    it is never stuck in [PSync [] None] waiting to send a Done that no arm will produce); on
    the way there, needs that are empty leave nothing to count and no bytes.  Used where a node
    that cannot tick is classified ([idle_classify]). *)
Definition kinv (s : st) : Prop :=
  match ph s with
  | PSendPreSync needs todo _ bytes => needs = [] -> todo = [] /\ bytes = 0%N
  | PReceivePreSyncOrDone needs _ _ => done_sent s = false -> needs <> []
  | PSync rest None => done_sent s = false -> rest <> []
  | _ => True
  end.

Lemma move_kinv s i s' o : move s i s' o -> kinv s -> kinv s'.
Proof.
  unfold kinv. destruct 1; cbn; trivial; try discriminate.
  - (* MSize *) intros K E. destruct (K E). discriminate.
  - (* MPreSync: a PreSync goes out only with bytes to send *)
    intros K _ ->. destruct (K eq_refl) as [_ ->]. discriminate.
  - (* MGotHave: PSendPreSync starts with [todo = flat_needs needs] and no bytes *)
    intros _ ->. auto.
Qed.

(** What a node has consumed, against the peer's script.  [PFailed => False]: with it [ninv]
    says that a side reading its peer's script never fails. *)
Definition cinv (sc_peer : list msg) (s : st) (cons : list msg) : Prop :=
  (exists suf, cons ++ suf = sc_peer) /\
  match ph s with
  | PStart _ | PSendHave _ _ | PReceiveHave _ => cons = [] /\ done_recv s = false
  | PSendPreSync _ _ _ _ | PReceivePreSyncOrDone _ _ _ => length cons = 1 /\ done_recv s = false
  | PSync _ _ => 2 <= length cons /\ (done_recv s = true <-> cons = sc_peer)
  | PEnd => cons = sc_peer
  | PFailed => False
  end.

Lemma tick_cinv sc s i s' o cons r : move s i s' o -> i = Tick r -> cinv sc s cons -> cinv sc s' cons.
Proof.
  unfold cinv. destruct 1; intros Ei; try discriminate Ei; cbn; trivial.
  - (* MFail *) destruct (H r Ei).
  - (* MEnd: the session ends only after the peer's Done, its last message *)
    intros [P [_ H]]. split; [exact P|]. apply H. reflexivity.
Qed.

Lemma app_cons_assoc {A} (l : list A) x suf : (l ++ [x]) ++ suf = l ++ x :: suf.
Proof. rewrite <- app_assoc. reflexivity. Qed.

Lemma prefix_neq_when_suffix {A} (l suf : list A) : suf <> [] -> l <> l ++ suf.
Proof.
  intros N E. apply N. assert (L : length l = length (l ++ suf)) by (rewrite <- E; reflexivity).
  rewrite app_length in L. destruct suf; [reflexivity|cbn in L; lia].
Qed.

Lemma recv_cinv sc s cons m suf :
  complete_word sc -> cinv sc s cons -> can_recv s = true -> cons ++ m :: suf = sc ->
  cinv sc (fst (recv s m)) (cons ++ [m]).
Proof.
  intros W [_ H] C E.
  destruct (word_next sc cons m suf W E) as [N0 [N1 N2]].
  split; [exists suf; rewrite app_cons_assoc; exact E|].
  assert (Last : suf <> [] -> false = true <-> cons ++ [m] = sc).
  { intros Hs. split; [discriminate|]. intros Q. exfalso.
    rewrite <- E, <- (app_cons_assoc cons m suf) in Q. exact (prefix_neq_when_suffix _ _ Hs Q). }
  unfold can_recv in C. destruct s as [p dr ds d]. rewrite app_length, Nat.add_1_r.
  destruct p as [logs|todo acc|local|needs todo ops bytes|needs ops bytes|rest [cur|]| |]; try discriminate C;
    cbn [ph done_recv] in H.
  - destruct H as [-> Hd]. destruct (N0 eq_refl) as [h ->]. cbn. auto.
  - destruct H as [L ->]. rewrite L.
    destruct (N1 L) as [[-> ->]|[o [b [-> Hs]]]]; cbn [recv set_ph fst ph done_recv]; split; auto.
    rewrite <- E. split; reflexivity.
  - destruct dr; [discriminate|]. destruct H as [L _].
    destruct (N2 L) as [[-> ->]|[[a [l [w ->]]] Hs]]; cbn [recv fst ph done_recv]; split; auto.
    rewrite <- E. split; reflexivity.
Qed.

Lemma accepted_tick s r : accepted s (Tick r) = None.
Proof. unfold accepted. destruct (ph s); reflexivity. Qed.

Lemma accepted_first sc s m suf h rest :
  cinv sc s [] -> can_recv s = true -> m :: suf = sc -> sc = Have h :: rest ->
  accepted s (Recv m) = Some h.
Proof.
  intros [_ C] Cr E Hd. rewrite Hd in E. injection E as -> _.
  unfold accepted, can_recv in *. destruct (ph s); try discriminate; try reflexivity.
  - destruct C as [L _]. discriminate L.
  - destruct C as [L _]. cbn in L. lia.
Qed.

Section Node.
  Variable r : replica.
  Variable logs : list (N * list N).
  Variable h_peer : heights.
  Variable sc_peer : list msg.
  Hypothesis peer_word : complete_word sc_peer.
  Hypothesis peer_head : exists rest, sc_peer = Have h_peer :: rest.

  Definition hv_of (cons : list msg) : option heights :=
    match cons with [] => None | _ => Some h_peer end.

  Definition ninv (n : node) : Prop :=
    kinv (n_st n) /\
    sinv r logs (n_st n) (sent (n_hist n)) (hv_of (n_cons n)) /\
    cinv sc_peer (n_st n) (n_cons n).

  Lemma ninv_init cap : ninv (node0 logs cap).
  Proof.
    unfold ninv, node0. cbn [n_st n_hist n_cons]. split; [exact I|]. split.
    - split; cbn; auto.
    - split; [exists sc_peer; reflexivity|]. cbn. auto.
  Qed.

  Lemma ninv_post_script n :
    ninv n -> post (ph (n_st n)) = true -> sent (n_hist n) ++ remaining r (n_st n) = script r logs h_peer.
  Proof.
    intros [_ [Sv _]] Po. apply (sinv_post r logs _ _ _ Po) in Sv. destruct Sv as [_ [h [Hh E]]].
    unfold hv_of in Hh. destruct (n_cons n); [discriminate|]. injection Hh as <-. exact E.
  Qed.

  Lemma ninv_not_failed n : ninv n -> ph (n_st n) <> PFailed.
  Proof. intros [_ [_ [_ C]]] F. rewrite F in C. exact C. Qed.

  Lemma ninv_sent_prefix n : ninv n -> exists suf, sent (n_hist n) ++ suf = script r logs h_peer.
  Proof.
    intros NI. destruct (sinv_prefix _ _ _ _ _ (proj1 (proj2 NI)) (ninv_not_failed n NI)) as [suf E].
    unfold hv_of in E. destruct (n_cons n); [|exists suf; exact E].
    destruct (script_head r logs h_peer) as [rest Hr]. exists (suf ++ rest).
    rewrite app_assoc, E, Hr. reflexivity.
  Qed.

  Lemma end_facts n :
    ninv n -> ph (n_st n) = PEnd -> sent (n_hist n) = script r logs h_peer /\ n_cons n = sc_peer.
  Proof.
    intros NI E. split.
    - pose proof (ninv_post_script n NI) as P. rewrite E in P.
      specialize (P eq_refl). unfold remaining in P. rewrite E, app_nil_r in P. exact P.
    - destruct NI as [_ [_ [_ C]]]. rewrite E in C. exact C.
  Qed.

  Lemma have_facts n m suf :
    ninv n -> n_cons n ++ m :: suf = sc_peer ->
    forall local h, ph (n_st n) = PReceiveHave local -> m = Have h ->
                    compare local h = compare (local_heights r logs) h_peer.
  Proof using peer_head.
    destruct peer_head as [rest Hr]. intros [_ [[_ S] [_ C]]] E local h P ->. rewrite P in S, C.
    destruct S as [-> _]. destruct C as [C _]. rewrite C, Hr in E. cbn in E. inversion E. reflexivity.
  Qed.

  (** [ninv] does not look at what is pending or parked. *)
  Lemma ninv_tick n p k :
    ninv n ->
    ninv (mknode (fst (tick true r (n_st n))) p k (n_hist n ++ snd (tick true r (n_st n))) (n_cons n)).
  Proof.
    intros [K [S C]]. pose proof (step_move (n_st n) (Tick r)) as V.
    split; [exact (move_kinv _ _ _ _ V K)|]. split; [|exact (tick_cinv _ _ _ _ _ _ r V eq_refl C)].
    cbn [n_st n_hist n_cons]. rewrite sent_app.
    pose proof (step_sinv r logs (n_st n) (Tick r) _ _ eq_refl S) as S'.
    rewrite accepted_tick in S'. destruct (hv_of (n_cons n)); exact S'.
  Qed.

  Lemma ninv_recv n m suf p k :
    ninv n -> can_recv (n_st n) = true -> n_cons n ++ m :: suf = sc_peer ->
    ninv (mknode (fst (recv (n_st n) m)) p k (n_hist n ++ snd (recv (n_st n) m)) (n_cons n ++ [m])).
  Proof.
    intros [K [S C]] Cr E.
    split; [exact (move_kinv _ _ _ _ (step_move (n_st n) (Recv m)) K)|]. split; [|exact (recv_cinv _ _ _ _ _ peer_word C Cr E)].
    cbn [n_st n_hist n_cons]. rewrite sent_app, recv_sends_nothing, app_nil_r.
    pose proof (step_sinv r logs (n_st n) (Recv m) _ _ I S) as S'. cbn [step] in S'.
    rewrite recv_sends_nothing, app_nil_r in S'.
    replace (hv_of (n_cons n ++ [m])) with (orelse (hv_of (n_cons n)) (accepted (n_st n) (Recv m)));
      [exact S'|].
    unfold hv_of. destruct (n_cons n) as [|c0 cs]; [|reflexivity].
    destruct peer_head as [rest Hr]. exact (accepted_first _ _ _ _ _ _ C Cr E Hr).
  Qed.
End Node.
