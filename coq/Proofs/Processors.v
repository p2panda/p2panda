(** Proofs about the processor-stream model (C13).

    The steps of a Buffer task ([lstep]) and of a stream of layers ([step]) are given as relations
    ([LStep], [SStep]), equivalent to the functions, and analysed by cases.  A per-layer invariant
    [LInv] ties what a layer holds and has sent to the sequential run of its processors on what
    it has received; the stream invariant [SInv] adds that a layer has received what its
    upstream emitted.  Every label preserves them, so they hold after every schedule.  Read at a
    quiescent state in which no item went with a dropped [next()] future, the invariant is
    "exactly once, in order" for every layer ([scheck]); the cancel-safe shapes never lose an
    item, nor do the schedules without an item-dropping [Recv]; a composed layer whose second
    [process] suspends does (witness schedule).

    Apart from the FIFO lemmas and the evaluated examples no proof unfolds [peff]: those
    results do not depend on what a processor does with its inputs. *)
From Coq Require Import List Arith NArith Bool Permutation.
From PV Require Import Model.Processors.
Import ListNotations.

Lemma run_snoc p xs x : run p (xs ++ [x]) = runf p (run p xs) x.
Proof. unfold run. rewrite fold_left_app. reflexivity. Qed.

Lemma run_snoc_peff p xs x h' ps er :
  peff p (heldof p xs) x = (h', ps, er) ->
  heldof p (xs ++ [x]) = h' /\
  pushes p (xs ++ [x]) = pushes p xs ++ ps /\
  failed p (xs ++ [x]) = (if er then failed p xs ++ [x] else failed p xs).
Proof.
  unfold heldof, pushes, failed. rewrite run_snoc.
  destruct (run p xs) as [[h q] e]. cbn [fst snd]. unfold runf. intros ->.
  cbn [fst snd]. auto.
Qed.

Lemma run_nil p : heldof p [] = [] /\ pushes p [] = [] /\ failed p [] = [].
Proof. unfold heldof, pushes, failed, run. cbn. auto. Qed.

Lemma pushes_app_prefix p a b : exists extra, pushes p (a ++ b) = pushes p a ++ extra.
Proof.
  induction b as [|x b [e IH]] using rev_ind.
  - exists []. now rewrite !app_nil_r.
  - destruct (peff p (heldof p (a ++ b)) x) as [[h' ps] er] eqn:E.
    apply run_snoc_peff in E as (_ & E & _).
    exists (e ++ ps). now rewrite app_assoc, E, IH, app_assoc.
Qed.

Lemma projQ_app a b : projQ (a ++ b) = projQ a ++ projQ b.
Proof. apply flat_map_app. Qed.
Lemma projQ1_app a b : projQ1 (a ++ b) = projQ1 a ++ projQ1 b.
Proof. apply flat_map_app. Qed.
Lemma projP1_app a b : projP1 (a ++ b) = projP1 a ++ projP1 b.
Proof. apply flat_map_app. Qed.
Lemma projP2_app a b : projP2 (a ++ b) = projP2 a ++ projP2 b.
Proof. apply flat_map_app. Qed.
Lemma oks_app a b : oks (a ++ b) = oks a ++ oks b.
Proof. apply flat_map_app. Qed.
Lemma ers_app a b : ers (a ++ b) = ers a ++ ers b.
Proof. apply flat_map_app. Qed.
Lemma okitems_app a b : okitems (a ++ b) = okitems a ++ okitems b.
Proof. unfold okitems. rewrite projQ_app. apply oks_app. Qed.
Lemma nonok_app a b : nonok (a ++ b) = nonok a ++ nonok b.
Proof. apply filter_app. Qed.

Lemma oks_map_Ok (f : N -> N) xs : oks (map (fun x => Ok (f x)) xs) = map f xs.
Proof. induction xs as [|x r IH]; cbn; [reflexivity|]. f_equal. exact IH. Qed.

Lemma okitems_src xs : okitems (map (fun x => OQ (Ok x)) xs) = xs.
Proof. induction xs as [|x r IH]; cbn; [reflexivity|]. f_equal. exact IH. Qed.

Lemma res_eqb_eq a b : res_eqb a b = true -> a = b.
Proof.
  destruct a, b; cbn; intros H; try discriminate; apply N.eqb_eq in H; now subst.
Qed.
Lemma res_eqb_refl a : res_eqb a a = true.
Proof. destruct a; cbn; apply N.eqb_refl. Qed.
Lemma out_eqb_eq a b : out_eqb a b = true -> a = b.
Proof.
  destruct a, b; cbn; intros H; try discriminate;
    try (apply res_eqb_eq in H; now subst); apply N.eqb_eq in H; now subst.
Qed.
Lemma out_eqb_refl a : out_eqb a a = true.
Proof. destruct a; cbn; try apply res_eqb_refl; apply N.eqb_refl. Qed.

Lemma eqb_list_refl {A} (e : A -> A -> bool) (l : list A) :
  (forall x, e x x = true) -> eqb_list e l l = true.
Proof. intros R. induction l; cbn; [reflexivity|]. now rewrite R, IHl. Qed.
Lemma eqb_list_eq {A} (e : A -> A -> bool) (a b : list A) :
  (forall x y, e x y = true -> x = y) -> eqb_list e a b = true -> a = b.
Proof.
  intros R. revert b. induction a as [|x a IH]; intros [|y b] H; cbn in H; try discriminate; auto.
  apply andb_true_iff in H as [H1 H2]. f_equal; auto.
Qed.

Ltac fields :=
  cbn [inq held1 q1 held2 q2 tk outq ins side done1 pop1 done2 lost hist emitted] in *.

(** A layer is given by its fields in the order of [mkL]: [i] the input channel, [h1 qa] and
    [h2 qb] the two processors, [o] the output channel; [n s d1 pp d2 lo hi e] the history
    fields.  Only [L_Recv] touches [lo]: an item is lost when the recv branch wins over a
    [next()] future that holds one. *)
Inductive LStep : lcfg -> layer -> llabel -> layer -> Prop :=
| L_Recv c x r h1 qa h2 qb m o n s d1 pp d2 lo hi e (Ec : cancellable c m = true) :
    LStep c (mkL (x :: r) h1 qa h2 qb (TSel m) o n s d1 pp d2 lo hi e) (Recv x)
      (mkL r h1 qa h2 qb (TProc x) o n s d1 pp d2 (lo ++ inflight m) hi e)
| L_ProcEnd c x i h1 qa h2 qb o n s d1 pp d2 lo hi e h' ps er
    (Ep : peff (firstp c) h1 x = (h', ps, er)) :
    LStep c (mkL i h1 qa h2 qb (TProc x) o n s d1 pp d2 lo hi e) (ProcEnd x)
      (mkL i h' (qa ++ ps) h2 qb (TSel NIdle) (o ++ if er then [OP1 x] else [])
           n s (d1 ++ [x]) pp d2 lo (hi ++ if er then [OP1 x] else []) e)
| L_Next1 p r i h1 qa h2 qb o n s d1 pp d2 lo hi e :
    LStep (Single p) (mkL i h1 (r :: qa) h2 qb (TSel NIdle) o n s d1 pp d2 lo hi e) (Next r)
      (mkL i h1 qa h2 qb (TSel NIdle) (o ++ [OQ r]) n s d1 pp d2 lo (hi ++ [OQ r]) e)
| L_Next2 p1 p2 r i h1 qa h2 qb o n s d1 pp d2 lo hi e :
    LStep (Comp p1 p2) (mkL i h1 qa h2 (r :: qb) (TSel NIdle) o n s d1 pp d2 lo hi e) (Next r)
      (mkL i h1 qa h2 qb (TSel NIdle) (o ++ [OQ r]) n s d1 pp d2 lo (hi ++ [OQ r]) e)
| L_HandEr p1 p2 y i h1 qa h2 qb o n s d1 pp d2 lo hi e :
    LStep (Comp p1 p2) (mkL i h1 (Er y :: qa) h2 qb (TSel NIdle) o n s d1 pp d2 lo hi e)
      (Hand (Er y))
      (mkL i h1 qa h2 qb (TSel NIdle) (o ++ [OQ1 y]) n s d1 (pp ++ [Er y]) d2 lo
           (hi ++ [OQ1 y]) e)
| L_HandOk p1 p2 y i h1 qa h2 qb o n s d1 pp d2 lo hi e :
    LStep (Comp p1 p2) (mkL i h1 (Ok y :: qa) h2 qb (TSel NIdle) o n s d1 pp d2 lo hi e)
      (Hand (Ok y))
      (mkL i h1 qa h2 qb (TSel (NHand y)) o n s d1 (pp ++ [Ok y]) d2 lo hi e)
| L_HandEnd p1 p2 y i h1 qa h2 qb o n s d1 pp d2 lo hi e h' ps er
    (Ep : peff p2 h2 y = (h', ps, er)) :
    LStep (Comp p1 p2) (mkL i h1 qa h2 qb (TSel (NHand y)) o n s d1 pp d2 lo hi e) (HandEnd y)
      (mkL i h1 qa h' (qb ++ ps) (TSel NIdle) (o ++ if er then [OP2 y] else [])
           n s d1 pp (d2 ++ [y]) lo (hi ++ if er then [OP2 y] else []) e).

Lemma lstep_iff c l a l' : lstep c l a = Some l' <-> LStep c l a l'.
Proof.
  split.
  - destruct l as [i h1 qa h2 qb t o n s d1 pp d2 lo hi e]. unfold lstep. fields. intros H.
    destruct a as [o'|x|x|r|r|y], t as [m|x']; try discriminate.
    + destruct i as [|x' i]; [discriminate|].
      destruct (N.eqb_spec x x') as [<-|]; [|discriminate].
      destruct (cancellable c m) eqn:Ec; [|discriminate].
      injection H as <-. now constructor.
    + destruct (N.eqb_spec x x') as [<-|]; [|discriminate].
      destruct (peff (firstp c) h1 x) as [[h' ps] er] eqn:Ep.
      injection H as <-. now constructor.
    + destruct m; [|discriminate].
      destruct c; [destruct qa as [|r' qa]|destruct qb as [|r' qb]];
        try discriminate; destruct (res_eqb r r') eqn:Er; try discriminate;
        apply res_eqb_eq in Er as <-; injection H as <-; constructor.
    + destruct m; [|discriminate]. destruct c; [discriminate|].
      destruct qa as [|r' qa]; [discriminate|].
      destruct (res_eqb r r') eqn:Er; [|discriminate]. apply res_eqb_eq in Er as <-.
      destruct r; injection H as <-; constructor.
    + destruct m as [|y']; [discriminate|]. destruct c as [|p1 p2]; [discriminate|].
      destruct (N.eqb_spec y y') as [<-|]; [|discriminate].
      destruct (peff p2 h2 y) as [[h' ps] er] eqn:Ep.
      injection H as <-. now constructor.
  - destruct 1; unfold lstep; fields; rewrite ?Ep, ?Ec, ?N.eqb_refl, ?res_eqb_refl; reflexivity.
Qed.

(** The input inside [first.process]; the item inside [second.process] ([inflight] of the
    [next()] future, nothing while the task is in [process]). *)
Definition cur (t : task) : list N := match t with TProc x => [x] | TSel _ => [] end.
Definition infl (t : task) : list N := match t with TSel (NHand y) => [y] | _ => [] end.

Lemma infl_TSel m : infl (TSel m) = inflight m.
Proof. reflexivity. Qed.

(** In [Comp] the sixth clause is what carries the order: as long as nothing is lost the second
    processor was handed the Ok items of [pop1] in their order, the one in hand last.  With
    losses only the multiset account of the last clause remains ([loss_accounting]). *)
Definition LRest (c : lcfg) (l : layer) : Prop :=
  match c with
  | Single p =>
      pushes p (done1 l) = projQ (hist l) ++ q1 l /\ projQ1 (hist l) = [] /\ projP2 (hist l) = []
      /\ infl (tk l) = [] /\ lost l = [] /\ q2 l = []
  | Comp p1 p2 =>
      pushes p1 (done1 l) = pop1 l ++ q1 l /\ projQ1 (hist l) = ers (pop1 l)
      /\ held2 l = heldof p2 (done2 l) /\ pushes p2 (done2 l) = projQ (hist l) ++ q2 l
      /\ projP2 (hist l) = failed p2 (done2 l)
      /\ (lost l = [] -> oks (pop1 l) = done2 l ++ infl (tk l))
      /\ ((forall y, slowb p2 y = false) -> lost l = [])
      /\ Permutation (oks (pop1 l)) (done2 l ++ infl (tk l) ++ lost l)
  end.

Record LInv (c : lcfg) (l : layer) : Prop := mkLInv {
  i_ins : ins l = done1 l ++ cur (tk l) ++ inq l;
  i_held1 : held1 l = heldof (firstp c) (done1 l);
  i_p1 : projP1 (hist l) = failed (firstp c) (done1 l);
  i_hist : hist l = emitted l ++ outq l;
  i_rest : LRest c l
}.

(** [cbn] computes a projection of an explicit list and leaves [projQ (hist l ++ _)] folded;
    [norm] reduces the fields of an explicit layer and splits the projections of what a step
    appended to its lists from those of the lists themselves. *)
#[local] Arguments projQ !l /.
#[local] Arguments projQ1 !l /.
#[local] Arguments projP1 !l /.
#[local] Arguments projP2 !l /.
#[local] Arguments oks !l /.
#[local] Arguments ers !l /.
Ltac norm :=
  cbn [inq held1 q1 held2 q2 tk outq ins side done1 pop1 done2 lost hist emitted
       LRest cur infl inflight firstp app];
  rewrite ?projQ_app, ?projQ1_app, ?projP1_app, ?projP2_app, ?oks_app, ?ers_app;
  cbn [projQ projQ1 projP1 projP2 oks ers flat_map app]; rewrite ?app_nil_r.

Lemma LInv_empty c : LInv c empty_layer.
Proof. split; [reflexivity..|]. destruct c; repeat split; auto. Qed.

Lemma LStep_io c l a l' :
  LStep c l a l' -> ins l' = ins l /\ emitted l' = emitted l /\ side l' = side l.
Proof. destruct 1; cbn; auto. Qed.

Lemma LStep_hist c l a l' :
  LStep c l a l' -> hist l = emitted l ++ outq l -> hist l' = emitted l' ++ outq l'.
Proof. intros St H. destruct St; fields; rewrite H, <- ?app_assoc; reflexivity. Qed.

Lemma LStep_inv c l a l' : LStep c l a l' -> LInv c l -> LInv c l'.
Proof.
  intros St [Iins Iheld Ip1 Ihist Irest].
  apply (LStep_hist _ _ _ _ St) in Ihist. unfold LRest in Irest.
  destruct St; fields; rewrite ?infl_TSel in Irest.
  all: cbn [cur infl inflight firstp app] in Iins, Iheld, Ip1, Irest; rewrite ?app_nil_r in Irest.
  (* In each case [split; trivial; norm; trivial] leaves the conjuncts the step touches. *)
  - (* Recv *)
    destruct c as [p|p1 p2].
    + (* the [next()] future holds nothing *)
      destruct Irest as (Hq1 & HQ1 & HP2 & Hinfl & Hrest).
      split; trivial; norm; trivial. rewrite Hinfl, app_nil_r. auto.
    + (* what the future held goes from in flight to lost *)
      destruct Irest as (Hq1 & HQ1 & Hh2 & Hq2 & HP2 & Hord & Hsafe & Hperm).
      split; trivial; norm; trivial. repeat split; trivial.
      * intros [Hl Hm]%app_eq_nil. now rewrite (Hord Hl), Hm, app_nil_r.
      * (* a [Recv] during a hand-over needs [slowb p2 y], which [Hs] excludes *)
        intros Hs. rewrite (Hsafe Hs). destruct m as [|y]; [reflexivity|].
        cbn [cancellable] in Ec. now rewrite Hs in Ec.
      * rewrite Hperm. apply Permutation_app_head, Permutation_app_comm.
  - (* ProcEnd *)
    rewrite Iheld in Ep. apply run_snoc_peff in Ep as (R1 & R2 & R3).
    split; trivial; norm.
    + now rewrite <- app_assoc.
    + now rewrite R1.
    + rewrite R3, Ip1. now destruct er; norm.
    + destruct c as [p|p1 p2]; cbn [firstp] in R2; destruct Irest as (Hq1 & Hrest); norm;
        rewrite R2, Hq1, <- app_assoc; destruct er; norm; auto.
  - (* Next, single *)
    destruct Irest as (Hq1 & Hrest).
    split; trivial; norm; trivial. rewrite <- app_assoc. auto.
  - (* Next, composed *)
    destruct Irest as (Hq1 & HQ1 & Hh2 & Hq2 & Hrest).
    split; trivial; norm; trivial. rewrite <- app_assoc. auto.
  - (* Hand of an Err *)
    destruct Irest as (Hq1 & HQ1 & Hrest).
    split; trivial; norm; trivial. rewrite <- app_assoc, HQ1. auto.
  - (* Hand of an Ok item: it is in flight now *)
    destruct Irest as (Hq1 & HQ1 & Hh2 & Hq2 & HP2 & Hord & Hsafe & Hperm).
    split; trivial; norm; trivial. rewrite <- app_assoc. repeat split; trivial.
    + intros Hl. now rewrite (Hord Hl).
    + rewrite Hperm, <- app_assoc.
      apply Permutation_app_head, Permutation_sym, Permutation_cons_append.
  - (* HandEnd: the item in flight has been processed *)
    destruct Irest as (Hq1 & HQ1 & Hh2 & Hq2 & HP2 & Hord & Hsafe & Hperm).
    rewrite Hh2 in Ep. apply run_snoc_peff in Ep as (R1 & R2 & R3).
    destruct er; split; trivial; norm; trivial;
      rewrite R1, R2, R3, Hq2, HP2, <- !app_assoc; repeat split; auto.
Qed.

Lemma accept_io l o :
  ins (accept l o) = ins l ++ okitems [o] /\ side (accept l o) = side l ++ nonok [o]
  /\ emitted (accept l o) = emitted l.
Proof. destruct o as [[y|y]|x|x|x]; cbn; rewrite app_nil_r; auto. Qed.

Lemma accept_inv c l o : LInv c l -> LInv c (accept l o).
Proof.
  intros [Iins Iheld Ip1 Ihist Irest].
  assert (LRest c (accept l o)) by (destruct c, o as [[y|y]|x|x|x]; exact Irest).
  destruct o as [[y|y]|x|x|x]; split; trivial.
  cbn. rewrite Iins, <- !app_assoc. reflexivity.
Qed.

Lemma take_inv c l o l' :
  take l = Some (o, l') -> LInv c l ->
  LInv c l' /\ ins l' = ins l /\ side l' = side l /\ emitted l' = emitted l ++ [o].
Proof.
  unfold take. destruct (outq l) as [|o' r] eqn:Q; intros [= <- <-] [Iins Iheld Ip1 Ihist Irest].
  repeat split; trivial. cbn. now rewrite Ihist, Q, <- app_assoc.
Qed.

(** The inputs of the stream, delivered or not: with [shape], what no label changes. *)
Fixpoint src_all (s : stream) : list N :=
  match s with Src gone rest => gone ++ rest | Lay _ up _ => src_all up end.

Fixpoint SInv (s : stream) : Prop :=
  match s with
  | Src _ _ => True
  | Lay c up l =>
      SInv up /\ LInv c l /\ ins l = okitems (emitted_of up) /\ side l = nonok (emitted_of up)
  end.

Definition SInvOf (cs : list lcfg) (xs : list N) (s : stream) : Prop :=
  SInv s /\ src_all s = xs /\ shape s = cs.

Lemma emit_inv cs xs s o s' :
  emit s = Some (o, s') -> SInvOf cs xs s ->
  SInvOf cs xs s' /\ emitted_of s' = emitted_of s ++ [o].
Proof.
  intros H (Inv & <- & <-). unfold SInvOf. destruct s as [gone rest|c up l]; cbn [emit] in H.
  - destruct rest as [|x r]; [discriminate|]. injection H as <- <-.
    cbn. rewrite map_app, <- app_assoc. cbn. auto.
  - destruct (take l) as [[o' l']|] eqn:T; [|discriminate]. injection H as <- <-.
    destruct Inv as (Su & Li & Hi & Hs). destruct (take_inv _ _ _ _ T Li) as (Li' & A & B & C).
    cbn [SInv emitted_of src_all shape]. rewrite A, B, C. repeat apply conj; trivial.
Qed.

Inductive SStep : stream -> nat -> llabel -> stream -> Prop :=
| St_Pull c up l o up' :
    emit up = Some (o, up') -> SStep (Lay c up l) 0 (Pull o) (Lay c up' (accept l o))
| St_Task c up l a l' : LStep c l a l' -> SStep (Lay c up l) 0 a (Lay c up l')
| St_Up c up l d a up' : SStep up d a up' -> SStep (Lay c up l) (S d) a (Lay c up' l).

Lemma step_iff s d a s' : step s d a = Some s' <-> SStep s d a s'.
Proof.
  split.
  - revert d s'. induction s as [|c up IH l]; intros [|d] s' H; cbn [step] in H; try discriminate.
    + destruct a as [o|x|x|r|r|y].
      1:{ destruct (emit up) as [[o' up']|] eqn:E; [|discriminate].
          destruct (out_eqb o o') eqn:Eo; [|discriminate]. apply out_eqb_eq in Eo as <-.
          injection H as <-. now constructor. }
      all: destruct (lstep c l _) eqn:E; [|discriminate]; injection H as <-.
      all: apply St_Task, lstep_iff, E.
    + destruct (step up d a) eqn:E; [|discriminate]. injection H as <-. apply St_Up, IH, E.
  - induction 1 as [c up l o up' E|c up l a l' St|c up l d a up' St IH]; cbn [step].
    + now rewrite E, out_eqb_refl.
    + (* no [LStep] has the label [Pull], so [step] goes to [lstep] *)
      pose proof St as E%lstep_iff. destruct St; now rewrite E.
    + now rewrite IH.
Qed.

Lemma step_inv s d a s' :
  SStep s d a s' -> forall cs xs, SInvOf cs xs s ->
  SInvOf cs xs s' /\ emitted_of s' = emitted_of s.
Proof.
  induction 1 as [c up l o up' E|c up l a l' St|c up l d a up' St IH];
    intros cs xs ((Su & Li & Hi & Hs) & <- & <-); unfold SInvOf; cbn [SInv emitted_of src_all shape].
  - destruct (emit_inv (shape up) (src_all up) _ _ _ E) as ((Su' & B & C) & A); [now split|].
    destruct (accept_io l o) as (A' & B' & C').
    rewrite A, okitems_app, nonok_app, A', B', C', Hi, Hs, B, C.
    repeat apply conj; trivial. exact (accept_inv _ _ _ Li).
  - destruct (LStep_io _ _ _ _ St) as (A & B & C). rewrite A, B, C.
    repeat apply conj; trivial. exact (LStep_inv _ _ _ _ St Li).
  - destruct (IH (shape up) (src_all up)) as ((Su' & B & C) & A); [now split|].
    rewrite A, B, C. repeat apply conj; trivial.
Qed.

Lemma tstep_inv cs xs s a s' : tstep s a = Some s' -> SInvOf cs xs s -> SInvOf cs xs s'.
Proof.
  destruct a as [d b|o]; cbn [tstep]; intros H Inv.
  - apply step_iff in H. apply (step_inv _ _ _ _ H _ _ Inv).
  - destruct (emit s) as [[o' s'']|] eqn:E; [|discriminate].
    destruct (out_eqb o o'); [|discriminate]. injection H as <-.
    apply (emit_inv _ _ _ _ _ E Inv).
Qed.

Lemma run_trace_inv cs xs tr : forall s s',
  run_trace s tr = Some s' -> SInvOf cs xs s -> SInvOf cs xs s'.
Proof.
  induction tr as [|a r IH]; intros s s' H Inv; cbn [run_trace] in H.
  - now injection H as <-.
  - destruct (tstep s a) as [s1|] eqn:E; [|discriminate].
    apply (IH _ _ H), (tstep_inv _ _ _ _ _ E Inv).
Qed.

Lemma build_inv xs cs : forall cs0 acc,
  SInvOf cs0 xs acc -> emitted_of acc = [] -> SInvOf (cs0 ++ cs) xs (build cs acc).
Proof.
  induction cs as [|c r IH]; intros cs0 acc (Inv & A & B) F; cbn [build].
  - rewrite app_nil_r. now split.
  - replace (cs0 ++ c :: r) with ((cs0 ++ [c]) ++ r) by now rewrite <- app_assoc.
    apply IH; [|reflexivity]. unfold SInvOf. cbn [SInv src_all shape]. rewrite F, B.
    repeat split; auto. apply LInv_empty.
Qed.

Theorem invariant_every_schedule cs xs tr s' :
  run_trace (init cs xs) tr = Some s' -> SInv s' /\ src_all s' = xs /\ shape s' = cs.
Proof.
  intros H. apply (run_trace_inv _ _ _ _ _ H), (build_inv xs cs [] (Src [] xs)); [now split|reflexivity].
Qed.

(** [loss_accounting] and [prefix_any_time] are about the outermost layer of a stream satisfying
    [SInv]; an inner layer is reached by taking [SInv] apart ([SInv (Lay c up l)] contains
    [SInv up]). *)

(** Loss accounting for every schedule and every shape: whatever was dequeued from the first
    processor of a composed layer was processed by the second one, is being processed, or went
    with a dropped future ([lost]) — nothing disappears anywhere else. *)
Theorem loss_accounting c up l :
  SInv (Lay c up l) ->
  match c with
  | Single _ => lost l = []
  | Comp _ _ => Permutation (oks (pop1 l)) (done2 l ++ infl (tk l) ++ lost l)
  end.
Proof.
  intros (_ & [_ _ _ _ Irest] & _). destruct c; apply Irest.
Qed.

Definition specQ (c : lcfg) (I : list N) : list res :=
  match c with Single p => pushes p I | Comp p1 p2 => pushes p2 (oks (pushes p1 I)) end.

(** At any point of a loss-free schedule, not only at quiescence: what a layer has emitted of
    origin [OQ] is a prefix of the sequential result on what it has received so far (no
    duplicate, no re-ordering). *)
Theorem prefix_any_time c up l :
  SInv (Lay c up l) -> lost l = [] -> exists rest, specQ c (ins l) = projQ (emitted l) ++ rest.
Proof.
  intros (_ & [Iins _ _ Ihist Irest] & _) Hl.
  rewrite Iins. destruct (pushes_app_prefix (firstp c) (done1 l) (cur (tk l) ++ inq l)) as [e1 E1].
  assert (HQ : projQ (hist l) = projQ (emitted l) ++ projQ (outq l)) by (rewrite Ihist; apply projQ_app).
  destruct c as [p|p1 p2]; cbn [LRest firstp specQ] in *.
  - destruct Irest as (Hq1 & _). rewrite E1, Hq1, HQ. rewrite <- !app_assoc. eauto.
  - destruct Irest as (Hq1 & _ & _ & Hq2 & _ & Hord & _). specialize (Hord Hl).
    rewrite E1, Hq1, !oks_app, Hord. rewrite <- !app_assoc.
    destruct (pushes_app_prefix p2 (done2 l) (infl (tk l) ++ oks (q1 l) ++ oks e1)) as [e2 E2].
    rewrite E2, Hq2, HQ. rewrite <- !app_assoc. eauto.
Qed.

Lemma lquiet_inv l :
  lquiet l = true -> inq l = [] /\ q1 l = [] /\ q2 l = [] /\ outq l = [] /\ tk l = TSel NIdle.
Proof.
  unfold lquiet. destruct (inq l); [|discriminate]. destruct (q1 l); [|discriminate].
  destruct (q2 l); [|discriminate]. destruct (outq l); [|discriminate].
  destruct (tk l) as [[|y]|x]; [auto|discriminate..].
Qed.

Lemma lcheck_quiet c l :
  LInv c l -> lquiet l = true -> lost l = [] -> lcheck c (ins l) (emitted l) = true.
Proof.
  intros [Iins Iheld Ip1 Ihist Irest] Q Hl.
  destruct (lquiet_inv _ Q) as (Q1 & Q2 & Q3 & Q4 & Q5).
  rewrite Q5, Q1 in Iins. cbn [cur app] in Iins. rewrite app_nil_r in Iins.
  rewrite Q4, app_nil_r in Ihist.
  destruct c as [p|p1 p2]; cbn [LRest firstp lcheck] in *.
  - destruct Irest as (Hq1 & HQ1 & HP2 & _).
    rewrite Q2, app_nil_r in Hq1.
    rewrite <- Ihist, Iins, <- Hq1, Ip1, HQ1, HP2.
    rewrite !eqb_list_refl; auto using res_eqb_refl, N.eqb_refl.
  - destruct Irest as (Hq1 & HQ1 & _ & Hq2 & HP2 & Hord & _).
    rewrite Q2, app_nil_r in Hq1. rewrite Q3, app_nil_r in Hq2.
    specialize (Hord Hl). rewrite Q5 in Hord. cbn [infl] in Hord. rewrite app_nil_r in Hord.
    rewrite <- Ihist, Iins, Hq1, Hord, <- Hq2, Ip1, HQ1, HP2.
    rewrite !eqb_list_refl; auto using res_eqb_refl, N.eqb_refl.
Qed.

Lemma scheck_quiet s :
  SInv s -> quiescent s = true -> lost_of s = [] -> scheck s (src_all s) = true.
Proof.
  induction s as [gone rest|c up IH l]; intros Inv Q Hl.
  - cbn in *. destruct rest; [|discriminate]. rewrite app_nil_r.
    apply eqb_list_refl, N.eqb_refl.
  - destruct Inv as (Su & Li & Hi & Hs). cbn [quiescent] in Q. apply andb_true_iff in Q as [Qu Ql].
    cbn [lost_of] in Hl. apply app_eq_nil in Hl as [Hlu Hll].
    cbn [scheck src_all]. rewrite <- Hi, (lcheck_quiet _ _ Li Ql Hll). cbn [andb]. auto.
Qed.

(** Any shape, any schedule: a quiescent state in which nothing was dropped is exactly-once. *)
Theorem exactly_once_in_order cs xs tr s' :
  run_trace (init cs xs) tr = Some s' -> quiescent s' = true -> lost_of s' = [] ->
  scheck s' xs = true.
Proof.
  intros H Q Hl. destruct (invariant_every_schedule _ _ _ _ H) as (Inv & <- & _).
  now apply scheck_quiet.
Qed.

Lemma lcheck_lspec c xs E : lcheck c xs E = true -> okitems E = lspec c xs.
Proof.
  unfold okitems. destruct c as [p|p1 p2]; cbn [lcheck lspec]; intros H;
    repeat (apply andb_true_iff in H as [H _]);
    apply eqb_list_eq in H; auto using res_eqb_eq; now rewrite H.
Qed.

Lemma scheck_chain s xs :
  scheck s xs = true -> okitems (emitted_of s) = chain_spec (shape s) xs.
Proof.
  revert xs. induction s as [gone rest|c up IH l]; intros xs H; cbn [scheck] in H.
  - apply eqb_list_eq in H; [|intros x y; apply N.eqb_eq]. subst xs.
    apply okitems_src.
  - apply andb_true_iff in H as [H1 H2].
    cbn [shape emitted_of]. unfold chain_spec in *. rewrite fold_left_app. cbn [fold_left].
    rewrite <- (IH _ H2). now apply lcheck_lspec.
Qed.

Theorem chain_spec_no_loss cs xs tr s' :
  run_trace (init cs xs) tr = Some s' -> quiescent s' = true -> lost_of s' = [] ->
  okitems (emitted_of s') = chain_spec cs xs.
Proof.
  intros H Q Hl. destruct (invariant_every_schedule _ _ _ _ H) as (_ & _ & <-).
  apply scheck_chain, (exactly_once_in_order _ _ _ _ H Q Hl).
Qed.

Fixpoint safe_shape (cs : list lcfg) : Prop :=
  match cs with [] => True | c :: r => safe_cfg c /\ safe_shape r end.

Lemma safe_shape_app a b : safe_shape (a ++ b) <-> safe_shape a /\ safe_shape b.
Proof. induction a as [|c a IH]; cbn; tauto. Qed.

Lemma safe_no_loss s : SInv s -> safe_shape (shape s) -> lost_of s = [].
Proof.
  induction s as [gone rest|c up IH l]; intros Inv Sf; [reflexivity|].
  destruct Inv as (Su & [_ _ _ _ Irest] & _). cbn [shape] in Sf.
  apply safe_shape_app in Sf as (Sup & Sc & _). cbn [lost_of]. rewrite (IH Su Sup). cbn [app].
  destruct c as [p|p1 p2]; cbn [LRest safe_cfg] in *; apply Irest; exact Sc.
Qed.

(** Every reachable state (not only the quiescent ones) of every schedule of a stream built from
    cancel-safe layers: no item was dropped with a cancelled future. *)
Theorem nothing_dropped_safe cs xs tr s' :
  safe_shape cs -> run_trace (init cs xs) tr = Some s' -> lost_of s' = [].
Proof.
  intros Sf H. destruct (invariant_every_schedule _ _ _ _ H) as (Inv & _ & B).
  apply safe_no_loss; [exact Inv|now rewrite B].
Qed.

(** Every schedule of a stream built from cancel-safe layers (any number of layers, each its own
    Buffer; composed layers only with a second processor whose [process] does not suspend):
    when nothing is left to do, every layer has delivered exactly what the sequential run of its
    processors yields on what it received, in order. *)
Theorem exactly_once_in_order_safe cs xs tr s' :
  safe_shape cs ->
  run_trace (init cs xs) tr = Some s' -> quiescent s' = true -> scheck s' xs = true.
Proof.
  intros Sf H Q. apply (exactly_once_in_order _ _ _ _ H Q), (nothing_dropped_safe _ _ _ _ Sf H).
Qed.

Theorem fifo_preserved_safe cs xs tr s' :
  safe_shape cs ->
  run_trace (init cs xs) tr = Some s' -> quiescent s' = true ->
  okitems (emitted_of s') = chain_spec cs xs.
Proof.
  intros Sf H Q. apply (chain_spec_no_loss _ _ _ _ H Q), (nothing_dropped_safe _ _ _ _ Sf H).
Qed.

Fixpoint no_drop (s : stream) (tr : list label) : bool :=
  match tr with
  | [] => true
  | a :: r =>
      match tstep s a with
      | Some s' => negb (drops_item s a) && no_drop s' r
      | None => true
      end
  end.

Lemma no_drop_no_loss tr : forall s s',
  run_trace s tr = Some s' -> no_drop s tr = true -> lost_of s = [] -> lost_of s' = [].
Proof.
  induction tr as [|a r IH]; intros s s' H ND Hl; cbn [run_trace no_drop] in *.
  - injection H as <-. exact Hl.
  - destruct (tstep s a) as [s1|] eqn:E; [|discriminate].
    apply andb_true_iff in ND as [N1 N2]. apply (IH _ _ H N2).
    unfold drops_item in N1. rewrite E in N1. apply negb_true_iff, negb_false_iff in N1.
    apply Nat.eqb_eq in N1. rewrite Hl in N1. cbn in N1.
    destruct (lost_of s1); [reflexivity|discriminate].
Qed.

Lemma init_no_loss cs xs : lost_of (init cs xs) = [].
Proof.
  unfold init. generalize (Src [] xs) (eq_refl : lost_of (Src [] xs) = []).
  induction cs as [|c r IH]; intros acc H; cbn [build]; [exact H|].
  apply IH. cbn [lost_of]. rewrite H. reflexivity.
Qed.

(** Any shape, any schedule that contains no item-dropping [Recv]. *)
Theorem exactly_once_in_order_no_drop cs xs tr s' :
  run_trace (init cs xs) tr = Some s' -> no_drop (init cs xs) tr = true ->
  quiescent s' = true -> scheck s' xs = true.
Proof.
  intros H ND Q. apply (exactly_once_in_order _ _ _ _ H Q), (no_drop_no_loss _ _ _ H ND), init_no_loss.
Qed.

(** In a cancel-safe layer the recv branch of Buffer's select! cannot win while the composed
    [next()] holds an intermediate item: the model has no such step (so an implementation trace
    showing an input received between [Hand (Ok y)] and [HandEnd y] is not a trace of the model). *)
Theorem handover_not_cancellable_safe c l y x :
  safe_cfg c -> tk l = TSel (NHand y) -> lstep c l (Recv x) = None.
Proof.
  intros Sc T. unfold lstep. rewrite T. destruct (inq l) as [|x' r]; [reflexivity|].
  destruct c as [p|p1 p2]; cbn [cancellable safe_cfg] in *.
  - now rewrite andb_false_r.
  - now rewrite Sc, andb_false_r.
Qed.

(** ... and in ANY layer a step that loses something is a [Recv] taken while an item is in hand
    whose [second.process] can suspend. *)
Theorem loss_only_by_cancelled_handover c l a l' :
  lstep c l a = Some l' -> lost l' <> lost l ->
  exists x y p1 p2, a = Recv x /\ tk l = TSel (NHand y) /\ c = Comp p1 p2 /\ slowb p2 y = true
                    /\ lost l' = lost l ++ [y].
Proof.
  intros St%lstep_iff NE. destruct St; fields; try contradiction.
  destruct m as [|y]; cbn [inflight] in *; [rewrite app_nil_r in NE; contradiction|].
  destruct c as [p|p1 p2]; [discriminate|]. exists x, y, p1, p2. auto.
Qed.

(** A second processor whose [process] passes a budgeted tokio resource is never in the
    cancel-safe class, whatever its yield counts. *)
Theorem budgeted_process_is_suspending p y : bproc p = true -> slowb p y = true.
Proof. unfold slowb. intros ->. reflexivity. Qed.

Lemma lprogress c l :
  LInv c l -> lquiet l = false -> (exists a l', LStep c l a l') \/ outq l <> [].
Proof.
  intros [_ _ _ _ Irest] Q.
  destruct l as [i h1 qa h2 qb [[|y]|x] o n s d1 pp d2 lo hi e]; unfold lquiet in Q; fields.
  - (* idle: receive an input, else dequeue from the first processor, else from the second;
       else there is something on the output channel *)
    destruct i as [|x i]; [|left; eexists _, _; now constructor].
    destruct qa as [|r qa].
    2:{ left. destruct c as [p|p1 p2]; [|destruct r]; eexists _, _; constructor. }
    destruct qb as [|r qb].
    + right. now destruct o.
    + left. destruct c as [p|p1 p2]; [|eexists _, _; constructor].
      destruct Irest as (_ & _ & _ & _ & _ & Hq2). discriminate Hq2.
  - (* in a hand-over, which only a composed layer can be *)
    left. destruct c as [p|p1 p2].
    + destruct Irest as (_ & _ & _ & Hinfl & _). discriminate Hinfl.
    + destruct (peff p2 h2 y) as [[h' ps] er] eqn:Ep. eexists _, _. econstructor. eassumption.
  - left. destruct (peff (firstp c) h1 x) as [[h' ps] er] eqn:Ep. eexists _, _. econstructor. eassumption.
Qed.

Lemma sprogress s :
  SInv s -> quiescent s = false ->
  (exists d a s', step s d a = Some s') \/ (exists o s', emit s = Some (o, s')).
Proof.
  induction s as [gone rest|c up IH l]; intros Inv Q.
  - right. cbn in *. destruct rest as [|x r]; [discriminate|]. eauto.
  - destruct Inv as (Su & Li & _). cbn [quiescent] in Q.
    destruct (quiescent up) eqn:Qu.
    + cbn [andb] in Q. destruct (lprogress _ _ Li Q) as [(a & l' & E)|Ho].
      * left. exists 0, a, (Lay c up l'). apply step_iff, St_Task, E.
      * right. cbn [emit]. unfold take. destruct (outq l); [congruence|]. eauto.
    + left. destruct (IH Su eq_refl) as [(d & a & up' & E)|(o & up' & E)].
      * exists (S d), a, (Lay c up' l). apply step_iff, St_Up, step_iff, E.
      * exists 0, (Pull o), (Lay c up' (accept l o)). apply step_iff, St_Pull, E.
Qed.

(** No deadlock in the model: a schedule that cannot be extended ends in a quiescent state, so
    (theorems above) exactly-once if nothing was dropped. *)
Theorem progress cs xs tr s :
  run_trace (init cs xs) tr = Some s -> quiescent s = false -> exists a s', tstep s a = Some s'.
Proof.
  intros H Q. destruct (invariant_every_schedule _ _ _ _ H) as (Inv & _).
  destruct (sprogress _ Inv Q) as [(d & a & s' & E)|(o & s' & E)].
  - exists (L d a), s'. exact E.
  - exists (Yield o), s'. cbn. rewrite E, out_eqb_refl. reflexivity.
Qed.

(** A FIFO processor that never fails: the sequential run is "add the tag", so the chain
    specification of FIFO layers is the input order itself (tags added). *)
Definition fifo (p : pcfg) : Prop := perrs p = [] /\ nerrs p = [] /\ grp p <= 1.

Lemma fifo_peff p h x : fifo p -> peff p h x = (h, [Ok (N.add x (tag p))], false).
Proof.
  intros (A & B & C). unfold peff. rewrite A, B. cbn [memN existsb].
  now apply Nat.leb_le in C as ->.
Qed.

Lemma fifo_run p : fifo p -> forall xs,
  pushes p xs = map (fun x => Ok (N.add x (tag p))) xs /\ failed p xs = [].
Proof.
  intros F xs. induction xs as [|x xs [IH1 IH2]] using rev_ind.
  - destruct (run_nil p) as (_ & B & C). rewrite B, C. auto.
  - destruct (run_snoc_peff p xs x _ _ _ (fifo_peff p (heldof p xs) x F)) as (_ & R2 & R3).
    rewrite R2, R3, IH1, IH2, map_app. auto.
Qed.

Definition ltag (c : lcfg) : N := match c with Single p => tag p | Comp p1 p2 => N.add (tag p1) (tag p2) end.
Fixpoint sumtags (cs : list lcfg) : N := match cs with [] => 0%N | c :: r => N.add (ltag c) (sumtags r) end.
Definition fifo_cfg (c : lcfg) : Prop := match c with Single p => fifo p | Comp p1 p2 => fifo p1 /\ fifo p2 end.
Fixpoint fifo_shape (cs : list lcfg) : Prop := match cs with [] => True | c :: r => fifo_cfg c /\ fifo_shape r end.

Lemma fifo_lspec c xs : fifo_cfg c -> lspec c xs = map (fun x => N.add x (ltag c)) xs.
Proof.
  destruct c as [p|p1 p2]; cbn [fifo_cfg lspec ltag].
  - intros F. destruct (fifo_run p F xs) as [A _]. rewrite A. apply oks_map_Ok.
  - intros [F1 F2]. destruct (fifo_run p1 F1 xs) as [A _]. rewrite A, oks_map_Ok.
    destruct (fifo_run p2 F2 (map (fun x => N.add x (tag p1)) xs)) as [B _]. rewrite B, oks_map_Ok, map_map.
    apply map_ext. intros x. now rewrite N.add_assoc.
Qed.

Lemma fifo_chain cs : fifo_shape cs -> forall xs,
  chain_spec cs xs = map (fun x => N.add x (sumtags cs)) xs.
Proof.
  unfold chain_spec. induction cs as [|c r IH]; intros F xs; cbn [fold_left sumtags].
  - rewrite <- (map_id xs) at 1. apply map_ext. intros x. now rewrite N.add_0_r.
  - destruct F as [Fc Fr]. rewrite (IH Fr), (fifo_lspec c xs Fc), map_map.
    apply map_ext. intros x. now rewrite N.add_assoc.
Qed.

Theorem fifo_order_safe cs xs tr s' :
  safe_shape cs -> fifo_shape cs ->
  run_trace (init cs xs) tr = Some s' -> quiescent s' = true ->
  okitems (emitted_of s') = map (fun x => N.add x (sumtags cs)) xs.
Proof.
  intros Sf F H Q. rewrite <- (fifo_chain cs F). exact (fifo_preserved_safe _ _ _ _ Sf H Q).
Qed.

(** [mkP tag perrs nerrs grp pdel bproc]: a processor that adds [tag] to its input; [process]
    fails on the inputs in [perrs], the outputs for those in [nerrs] are Errs of [next]; outputs
    are released in reversed groups of [grp] (one by one if [grp <= 1]); [process y] yields
    [pdel[y mod length pdel]] times (never if [pdel = []]); [bproc]: it passes a budgeted
    tokio resource. *)

Definition pfifo (t : N) (d : list nat) : pcfg := mkP t [] [] 1 d false.

(** Two FIFO processors composed behind one Buffer; the second one's [process] yields once.
    Schedule: 1 arrives, is processed by the first processor, handed over (second.process(101)
    suspended), 2 arrives, the recv branch wins: the [next()] future holding 101 is dropped. *)
Definition wit_cfg : list lcfg := [Comp (pfifo 100 []) (pfifo 200 [1])].
Definition wit_in : list N := [1; 2]%N.
Definition wit_tr : list label :=
  [ L 0 (Pull (OQ (Ok 1))); L 0 (Recv 1); L 0 (ProcEnd 1); L 0 (Hand (Ok 101));
    L 0 (Pull (OQ (Ok 2))); L 0 (Recv 2); L 0 (ProcEnd 2); L 0 (Hand (Ok 102));
    L 0 (HandEnd 102); L 0 (Next (Ok 302)); Yield (OQ (Ok 302)) ]%N.

Theorem composed_refuted :
  exists cs xs tr s',
    run_trace (init cs xs) tr = Some s' /\ quiescent s' = true /\ scheck s' xs = false
    /\ okitems (emitted_of s') <> chain_spec cs xs.
Proof.
  exists wit_cfg, wit_in, wit_tr. eexists. split; [vm_compute; reflexivity|].
  vm_compute. repeat split; auto. discriminate.
Qed.

(** Non-vacuity of the safe-class theorems: a two-layer stream (FIFO single; composed, the first
    processor failing in [process] on one input, the second one not suspending) and a schedule
    that reaches quiescence. *)
Definition ex_cfg : list lcfg :=
  [Single (pfifo 100 [2]); Comp (mkP 0 [102%N] [] 1 [1] false) (pfifo 1000 [])].
Definition ex_in : list N := [1; 2]%N.
Definition ex_tr : list label :=
  [ L 1 (Pull (OQ (Ok 1))); L 1 (Pull (OQ (Ok 2))); L 1 (Recv 1); L 1 (ProcEnd 1); L 1 (Recv 2);
    L 1 (ProcEnd 2); L 1 (Next (Ok 101)); L 1 (Next (Ok 102));
    L 0 (Pull (OQ (Ok 101))); L 0 (Pull (OQ (Ok 102))); L 0 (Recv 101); L 0 (ProcEnd 101);
    L 0 (Hand (Ok 101)); L 0 (HandEnd 101); L 0 (Recv 102); L 0 (ProcEnd 102); L 0 (Next (Ok 1101));
    Yield (OP1 102); Yield (OQ (Ok 1101)) ]%N.

Example ex_safe : safe_shape ex_cfg.
Proof. repeat split. Qed.

Example ex_reaches_quiescence :
  exists s', run_trace (init ex_cfg ex_in) ex_tr = Some s' /\ quiescent s' = true
             /\ okitems (emitted_of s') = [1101%N] /\ emitted_of s' = [OP1 102%N; OQ (Ok 1101%N)].
Proof. eexists. split; [vm_compute; reflexivity|]. vm_compute. auto. Qed.

(** Non-vacuity of [exactly_once_in_order_no_drop] on a configuration OUTSIDE the safe class:
    the witness configuration with the schedule in which 2 arrives only after the hand-over of
    101 has completed. *)
Definition nd_tr : list label :=
  [ L 0 (Pull (OQ (Ok 1))); L 0 (Recv 1); L 0 (ProcEnd 1); L 0 (Hand (Ok 101)); L 0 (HandEnd 101);
    L 0 (Pull (OQ (Ok 2))); L 0 (Recv 2); L 0 (ProcEnd 2); L 0 (Next (Ok 301)); L 0 (Hand (Ok 102));
    L 0 (HandEnd 102); L 0 (Next (Ok 302)); Yield (OQ (Ok 301)); Yield (OQ (Ok 302)) ]%N.

Example ex_no_drop :
  exists s', run_trace (init wit_cfg wit_in) nd_tr = Some s' /\ no_drop (init wit_cfg wit_in) nd_tr = true
             /\ quiescent s' = true /\ okitems (emitted_of s') = [301; 302]%N.
Proof. eexists. split; [vm_compute; reflexivity|]. vm_compute. auto. Qed.

(** ... and the witness schedule is rejected by [no_drop] (so [no_drop] does exclude schedules). *)
Example wit_has_drop : no_drop (init wit_cfg wit_in) wit_tr = false.
Proof. vm_compute. reflexivity. Qed.

Example ex_fifo :
  safe_shape [Single (pfifo 100 [2]); Comp (pfifo 10 [1]) (pfifo 1000 [])] /\
  fifo_shape [Single (pfifo 100 [2]); Comp (pfifo 10 [1]) (pfifo 1000 [])].
Proof.
  repeat split; auto.
Qed.

Example ex_budgeted_not_safe :
  ~ safe_shape [Comp (pfifo 100 []) (mkP 1000 [] [] 1 [] true)].
Proof. cbn [safe_shape safe_cfg]. intros [H _]. specialize (H 0%N). rewrite budgeted_process_is_suspending in H; [discriminate|reflexivity]. Qed.

(** Non-vacuity of [nothing_dropped_safe] / [handover_not_cancellable_safe]: a burst released by
    a group-reversing first processor (3 items at once) in a cancel-safe composed layer; in the
    state after [Hand (Ok 103)] the arrival of input 4 cannot be received. *)
Definition burst_cfg : list lcfg := [Comp (mkP 100 [] [] 3 [] false) (pfifo 1000 [])].
Definition burst_in : list N := [1; 2; 3; 4]%N.
Definition burst_tr : list label :=
  [ L 0 (Pull (OQ (Ok 1))); L 0 (Recv 1); L 0 (ProcEnd 1); L 0 (Pull (OQ (Ok 2))); L 0 (Recv 2); L 0 (ProcEnd 2);
    L 0 (Pull (OQ (Ok 3))); L 0 (Recv 3); L 0 (ProcEnd 3); L 0 (Pull (OQ (Ok 4))); L 0 (Hand (Ok 103)) ]%N.

Example ex_burst_safe : safe_shape burst_cfg.
Proof. repeat split. Qed.

Example ex_burst_recv_rejected :
  exists s, run_trace (init burst_cfg burst_in) burst_tr = Some s /\ lost_of s = []
            /\ tstep s (L 0 (Recv 4%N)) = None /\ exists s', tstep s (L 0 (HandEnd 103%N)) = Some s'.
Proof.
  eexists. split; [vm_compute; reflexivity|].
  split; [reflexivity|]. split; [vm_compute; reflexivity|]. eexists. vm_compute. reflexivity.
Qed.
