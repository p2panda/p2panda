(** The hypothesis of [received_exact] -- operation ids pairwise distinct over everything the two
    sides send each other -- follows from natural well-formedness of the two replicas: ids are an
    injective function of (author, log, seq) shared by both replicas (same operation, same hash;
    no forks), sequence numbers are unique within a log, configurations name every author and
    every log once. *)
From Coq Require Import List Arith NArith Bool Lia.
From PV Require Import Lib.ListFacts Model.LogSync Proofs.LogSyncC20 Proofs.LogSyncOps Proofs.LogSyncJoint
  Proofs.LogSyncRecv.
Import ListNotations.

Definition wf_ids (idf : N * N * N -> N) (r : replica) : Prop :=
  forall a l w, In w (rows_of r (a, l)) -> r_id w = idf (a, l, r_seq w).
Definition in_rep (r : replica) (k : N * N * N) : Prop :=
  exists w, In w (rows_of r (fst (fst k), snd (fst k))) /\ r_seq w = snd k.
Definition inj_on_reps (idf : N * N * N -> N) (rA rB : replica) : Prop :=
  forall k1 k2, in_rep rA k1 \/ in_rep rB k1 -> in_rep rA k2 \/ in_rep rB k2 -> idf k1 = idf k2 -> k1 = k2.
Definition nodup_seqs (r : replica) : Prop := forall k, NoDup (map r_seq (rows_of r k)).
Definition nodup_cfg (logs : list (N * list N)) : Prop :=
  NoDup (map fst logs) /\ forall a ls, In (a, ls) logs -> NoDup ls.

Definition key3 (x : N * N * row) : N * N * N := (fst (fst x), snd (fst x), r_seq (snd x)).

Lemma nodup_map_inj {A B} (f : A -> B) (l : list A) :
  (forall x y, In x l -> In y l -> f x = f y -> x = y) -> NoDup l -> NoDup (map f l).
Proof.
  induction l as [|x l IH]; intros I N; [constructor|]. inversion N; subst. cbn. constructor.
  - intros H. apply in_map_iff in H. destruct H as [y [E Hy]].
    assert (y = x) by (apply I; [right; exact Hy|left; reflexivity|exact E]). subst y. contradiction.
  - apply IH; [|assumption]. intros y z Hy Hz. apply I; right; assumption.
Qed.

(** Keys [k b] stay distinct over a [flat_map] when a part [p] of each key tells which element
    of [l] it came from. *)
Lemma nodup_flat_map_keyed {A B K G} (k : B -> K) (g : A -> G) (p : K -> G) (f : A -> list B) l :
  NoDup (map g l) -> (forall x, In x l -> NoDup (map k (f x))) ->
  (forall x b, In x l -> In b (f x) -> p (k b) = g x) ->
  NoDup (map k (flat_map f l)).
Proof.
  induction l as [|x l IH]; intros N E P; [constructor|].
  cbn [map] in N. apply NoDup_cons_iff in N. destruct N as [Nx N].
  cbn [flat_map]. rewrite map_app. apply NoDup_app_iff. split; [|split].
  - apply E. left. reflexivity.
  - apply IH; [exact N| |]; intros y; [intros Hy|intros b Hy]; [apply E|apply P]; right; exact Hy.
  - intros c H1 H2. apply Nx. apply in_map_iff in H1. destruct H1 as [b1 [<- H1]].
    apply in_map_iff in H2. destruct H2 as [b2 [E2 H2]].
    apply in_flat_map in H2. destruct H2 as [y [Hy H2]].
    apply in_map_iff. exists y. split; [|exact Hy].
    rewrite <- (P y b2 (or_intror Hy) H2), E2. apply (P x b1 (or_introl eq_refl) H1).
Qed.

Lemma expected_ops_keys_nodup r logs h :
  nodup_cfg logs -> nodup_seqs r -> NoDup (map key3 (expected_ops r logs h)).
Proof.
  intros [NA NL] NS. unfold expected_ops.
  apply (nodup_flat_map_keyed key3 fst (fun k => fst (fst k))); [exact NA| |].
  - intros [a ls] Hal. cbn [fst snd].
    apply (nodup_flat_map_keyed key3 (fun l => l) (fun k => snd (fst k))).
    + rewrite map_id. exact (NL a ls Hal).
    + intros l _. rewrite map_map. unfold key3. cbn [fst snd].
      rewrite <- (map_map r_seq (fun s => (a, l, s))). apply nodup_map_inj.
      * intros s1 s2 _ _ E. inversion E. reflexivity.
      * apply NoDup_map_filter, NS.
    + intros l b _ Hb. apply in_map_iff in Hb. destruct Hb as [w [<- _]]. reflexivity.
  - intros [a ls] b _ Hb. apply in_flat_map in Hb. destruct Hb as [l [_ Hb]].
    apply in_map_iff in Hb. destruct Hb as [w [<- _]]. reflexivity.
Qed.

Lemma in_missing_rows r h a l w :
  In w (missing_rows r h a l) <-> In w (rows_of r (a, l)) /\ above (lookup2 h a l) (r_seq w) = true.
Proof. unfold missing_rows. apply filter_In. Qed.

Lemma expected_ops_rows r logs h a l w :
  In (a, l, w) (expected_ops r logs h) -> In w (rows_of r (a, l)).
Proof.
  intros H. apply in_expected_ops in H. destruct H as [a' [ls [l' [_ [_ [E Hw]]]]]].
  inversion E; subst. apply in_missing_rows in Hw. apply Hw.
Qed.

Lemma sent_above_peer rA rB logsA logsB a ls l w w' :
  NoDup (map fst logsB) -> In (a, ls) logsB -> In l ls ->
  In (a, l, w) (expected_ops rA logsA (local_heights rB logsB)) ->
  In w' (rows_of rB (a, l)) -> (r_seq w' < r_seq w)%N.
Proof.
  intros NB Hal Hl H R. apply in_expected_ops in H. destruct H as [a' [ls' [l' [_ [_ [E Hw]]]]]].
  inversion E; subst a' l'. apply in_missing_rows in Hw. destruct Hw as [_ A].
  rewrite (lookup2_local_heights rB logsB a ls l NB Hal Hl) in A. unfold height in A.
  destruct (maxseq (rows_of rB (a, l))) as [m|] eqn:M.
  - pose proof (maxseq_bound _ _ M w' R). cbn in A. apply N.ltb_lt in A. lia.
  - apply maxseq_none in M. rewrite M in R. destruct R.
Qed.

(* Nothing is asked of [logsA]: a key sent by both sides is a log B has configured, and whatever A
   sends of such a log lies above all rows B holds of it. *)
Lemma sends_disjoint rA rB logsA logsB k :
  NoDup (map fst logsB) ->
  In k (map key3 (expected_ops rA logsA (local_heights rB logsB))) ->
  In k (map key3 (expected_ops rB logsB (local_heights rA logsA))) -> False.
Proof.
  intros NB H1 H2. apply in_map_iff in H1. apply in_map_iff in H2.
  destruct H1 as [[[a l] w1] [<- H1]], H2 as [[[a2 l2] w2] [E2 H2]].
  unfold key3 in E2. cbn [fst snd] in E2. inversion E2 as [[Ea El Es]]. subst a2 l2.
  pose proof (expected_ops_rows _ _ _ _ _ _ H2) as R2.
  apply in_expected_ops in H2. destruct H2 as [a' [ls [l' [Hal [Hl [E _]]]]]]. inversion E; subst a' l'.
  pose proof (sent_above_peer rA rB logsA logsB a ls l w1 w2 NB Hal Hl H1 R2). lia.
Qed.

Lemma expected_ops_ids idf r logs h :
  wf_ids idf r -> map id3 (expected_ops r logs h) = map idf (map key3 (expected_ops r logs h)).
Proof.
  intros W. rewrite map_map. apply map_ext_in. intros [[a l] w] H.
  apply (W a l w), (expected_ops_rows r logs h), H.
Qed.

Lemma expected_ops_in_rep r logs h k : In k (map key3 (expected_ops r logs h)) -> in_rep r k.
Proof.
  intros H. apply in_map_iff in H. destruct H as [[[a l] w] [<- H]].
  exists w. split; [exact (expected_ops_rows _ _ _ _ _ _ H)|reflexivity].
Qed.

Theorem ids_distinct_from_wf (idf : N * N * N -> N) rA rB logsA logsB :
  inj_on_reps idf rA rB -> wf_ids idf rA -> wf_ids idf rB -> nodup_seqs rA -> nodup_seqs rB ->
  nodup_cfg logsA -> nodup_cfg logsB -> pos_sizes rA -> pos_sizes rB ->
  NoDup (ids (scA rA rB logsA logsB) ++ ids (scB rA rB logsA logsB)).
Proof.
  intros Inj WA WB SA SB CA CB PA PB. unfold ids, scA, scB, hA, hB.
  rewrite (sent_ops_exact rA logsA _ PA), (sent_ops_exact rB logsB _ PB).
  rewrite (expected_ops_ids idf _ _ _ WA), (expected_ops_ids idf _ _ _ WB), <- map_app.
  apply nodup_map_inj.
  - assert (K : forall k, In k (map key3 (expected_ops rA logsA (local_heights rB logsB)) ++
                               map key3 (expected_ops rB logsB (local_heights rA logsA))) ->
                          in_rep rA k \/ in_rep rB k).
    { intros k H. apply in_app_iff in H.
      destruct H as [H|H]; [left|right]; exact (expected_ops_in_rep _ _ _ _ H). }
    intros x y Hx Hy. exact (Inj x y (K x Hx) (K y Hy)).
  - apply NoDup_app_iff. split; [|split].
    + apply expected_ops_keys_nodup; assumption.
    + apply expected_ops_keys_nodup; assumption.
    + intros k. apply sends_disjoint. exact (proj1 CB).
Qed.

Theorem received_exact_wf (idf : N * N * N -> N) rA rB logsA logsB cbuf cap ls y :
  inj_on_reps idf rA rB -> wf_ids idf rA -> wf_ids idf rB -> nodup_seqs rA -> nodup_seqs rB ->
  nodup_cfg logsA -> nodup_cfg logsB -> pos_sizes rA -> pos_sizes rB ->
  exec true cbuf rA rB (sys0 logsA logsB cap) ls = Some y -> finished y = true ->
  sent (n_hist (sa y)) = scA rA rB logsA logsB /\ sent (n_hist (sb y)) = scB rA rB logsA logsB /\
  ev_ops (n_hist (sa y)) = expected_ops rB logsB (local_heights rA logsA) /\
  ev_ops (n_hist (sb y)) = expected_ops rA logsA (local_heights rB logsB).
Proof.
  intros Inj WA WB SA SB CA CB PA PB E F.
  pose proof (ids_distinct_from_wf idf rA rB logsA logsB Inj WA WB SA SB CA CB PA PB) as ND.
  destruct (received_exact rA rB logsA logsB cbuf ND cap ls y E F) as [S1 [S2 [E1 E2]]].
  repeat split; try assumption.
  - rewrite E1. apply (sent_ops_exact rB logsB _ PB).
  - rewrite E2. apply (sent_ops_exact rA logsA _ PA).
Qed.

(** Non-vacuity: the example replicas satisfy the well-formedness hypotheses. *)
Definition ex_idf (k : N * N * N) : N := ((fst (fst k) + 1) * 100 + snd k)%N.
Definition ex_rB' : replica := [((0, 0), [mkrow 0 100 500]); ((1, 0), [mkrow 0 200 300; mkrow 1 201 300])]%N.
Definition ex_logs2' : list (N * list N) := [(0, [0]); (1, [0])]%N.

Lemma ex_rows_A k w : In w (rows_of ex_r k) -> k = (0, 0)%N /\ (w = mkrow 0 100 500 \/ w = mkrow 1 101 500).
Proof.
  unfold ex_r. cbn [rows_of]. destruct (keyb k (0, 0)%N) eqn:K; [|intros []].
  apply keyb_eq in K. intros [<-|[<-|[]]]; auto.
Qed.

Lemma ex_rows_B k w : In w (rows_of ex_rB' k) ->
  (k = (0, 0)%N /\ w = mkrow 0 100 500) \/ (k = (1, 0)%N /\ (w = mkrow 0 200 300 \/ w = mkrow 1 201 300)).
Proof.
  unfold ex_rB'. cbn [rows_of]. destruct (keyb k (0, 0)%N) eqn:K.
  - apply keyb_eq in K. intros [<-|[]]. auto.
  - destruct (keyb k (1, 0)%N) eqn:K1; [|intros []]. apply keyb_eq in K1. intros [<-|[<-|[]]]; auto.
Qed.

Example wf_example :
  inj_on_reps ex_idf ex_r ex_rB' /\ wf_ids ex_idf ex_r /\ wf_ids ex_idf ex_rB' /\
  nodup_seqs ex_r /\ nodup_seqs ex_rB' /\ nodup_cfg ex_logs2' /\ pos_sizes ex_r /\ pos_sizes ex_rB'.
Proof.
  assert (K : forall k, in_rep ex_r k \/ in_rep ex_rB' k ->
                        In k [(0, 0, 0); (0, 0, 1); (1, 0, 0); (1, 0, 1)]%N).
  { intros [[a l] s] [[w [H E]]|[w [H E]]]; cbn [fst snd] in H, E; subst s.
    - apply ex_rows_A in H. destruct H as [K [-> | ->]]; inversion K; cbn; auto.
    - apply ex_rows_B in H. destruct H as [[K ->]|[K [-> | ->]]]; inversion K; cbn; auto 6. }
  repeat split.
  - (* on the four keys the id can be decoded *)
    assert (G : forall k, in_rep ex_r k \/ in_rep ex_rB' k ->
                          ((ex_idf k / 100 - 1)%N, 0%N, (ex_idf k mod 100)%N) = k).
    { intros k H. apply K in H. destruct H as [<-|[<-|[<-|[<-|[]]]]]; reflexivity. }
    intros k1 k2 H1 H2 E. rewrite <- (G k1 H1), <- (G k2 H2), E. reflexivity.
  - intros a l w H. apply ex_rows_A in H. destruct H as [K' [-> | ->]]; inversion K'; reflexivity.
  - intros a l w H. apply ex_rows_B in H. destruct H as [[K' ->]|[K' [-> | ->]]]; inversion K'; reflexivity.
  - intros k. unfold ex_r. cbn [rows_of]. destruct (keyb k (0, 0)%N); cbn; repeat constructor; cbn; intuition discriminate.
  - intros k. unfold ex_rB'. cbn [rows_of]. destruct (keyb k (0, 0)%N); [cbn; repeat constructor; cbn; intuition discriminate|].
    destruct (keyb k (1, 0)%N); cbn; repeat constructor; cbn; intuition discriminate.
  - cbn. repeat constructor; cbn; intuition discriminate.
  - intros a ls [E|[E|[]]]; inversion E; subst; repeat constructor; cbn; intuition.
  - exact (proj1 sent_ops_example).
  - intros k w H. apply ex_rows_B in H. destruct H as [[_ ->]|[_ [-> | ->]]]; reflexivity.
Qed.
