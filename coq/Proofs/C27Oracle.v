(** Soundness of the C27 oracle: when it answers [true] for an observed node entry, the record
    the implementation stores is authentic for that node and is the newest authentic record
    that arrived for it since the last local overwrite. *)
From Coq Require Import List Bool.
From PV Require Import Model.AddressBook Proofs.AddressBook Oracle.C27.
Import ListNotations.

Lemma opt_rec_eqb_sound a b : opt_rec_eqb a b = true -> a = b.
Proof.
  destruct a as [x|], b as [y|]; cbn [opt_rec_eqb]; try discriminate; [|reflexivity].
  intros H. apply tinfo_eqb_eq in H. congruence.
Qed.

Lemma entry_ok_sound recs ops n bs got :
  entry_ok recs ops n (Some (bs, got)) = true ->
  exists init l,
    segment n ops None = Some (init, l) /\
    (match got with None => None | Some i => nth_error recs i end)
      = newest_authentic sym_sig sym_verify n init l /\
    match got with
    | None => True
    | Some i => exists r, nth_error recs i = Some r /\ authentic sym_sig sym_verify n r = true
    end.
Proof.
  unfold entry_ok, expected. destruct (segment n ops None) as [[init l]|]; [|discriminate].
  intros H. apply andb_true_iff in H. destruct H as [H H3]. apply andb_true_iff in H. destruct H as [H1 H2].
  exists init, l. split; [reflexivity|]. split; [apply opt_rec_eqb_sound; exact H2|].
  destruct got as [i|]; [|exact I].
  destruct (nth_error recs i) as [r|]; [|discriminate]. exists r. split; [reflexivity|exact H3].
Qed.

Lemma entry_ok_absent recs ops n :
  entry_ok recs ops n None = true -> segment n ops None = None.
Proof. unfold entry_ok, expected. destruct (segment n ops None) as [[i l]|]; [discriminate|reflexivity]. Qed.
