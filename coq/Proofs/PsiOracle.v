(** The concrete instance of Oracle/C30.v satisfies the section hypotheses of Proofs/Psi.v (so
    the theorems are not vacuous), an honest session and a one-sided run evaluated on it, and
    soundness of the boolean oracles. *)
From Coq Require Import List Arith NArith Bool String.
From PV Require Import Model.Psi Proofs.Psi Oracle.C30.
Import ListNotations.

Lemma cw_eqb_spec a b : cw_eqb a b = true <-> a = b.
Proof.
  revert b; induction a as [n|t IH sa sb d|n|]; intros [n'|t' sa' sb' d'|n'|]; cbn [cw_eqb];
    try (split; (discriminate || reflexivity)).
  - rewrite N.eqb_eq. split; [intros ->|intros [= ->]]; reflexivity.
  - rewrite !andb_true_iff, IH, !N.eqb_eq, Bool.eqb_true_iff.
    split; [intros [[[-> ->] ->] ->]|intros [= -> -> -> ->]; auto]; reflexivity.
  - rewrite N.eqb_eq. split; [intros ->|intros [= ->]]; reflexivity.
Qed.

Lemma cH_inj (s : salt N) t1 t2 : cH t1 s = cH t2 s -> t1 = t2.
Proof. destruct s as [[sa sb] b]. cbn [cH]. intros E. inversion E. reflexivity. Qed.

Lemma cH_not_raw t (s : salt N) : ~ cw_raw (cH t s).
Proof. destruct s as [[sa sb] b]. cbn [cH cw_raw]. tauto. Qed.

(** What the model lines of the correspondence run are instances of. *)
Definition inst_both_get_intersection :=
  both_get_intersection cw N cw_eqb cw_eqb_spec cH cH_inj.
Definition inst_no_raw_topic_in_messages :=
  no_raw_topic_in_messages cw N cw_eqb cw_eqb_spec cH cw_raw cH_not_raw.
Definition inst_restricted_sharing_scope :=
  restricted_sharing_scope cw N cw_eqb cw_eqb_spec cH cH_inj.

(** Non-vacuity: a session with a non-empty, proper intersection, a restricted Bob whose book
    holds a node of a common topic (shared), one of a private topic (withheld), a stale one and
    himself. *)
Definition ex_pa := alice_party true [1; 2; 7]%N [(0, false, Some 10, [1])%N].
Definition ex_pb := bob_party true [2; 3; 7]%N
  [(1, false, Some 11, [2; 3])%N; (2, false, Some 12, [7])%N; (3, false, Some 13, [3])%N; (4, true, Some 14, [2])%N].

Example ex_session :
  model_honest true true [1; 2; 7]%N [2; 3; 7]%N
     [(0, false, Some 10, [1])%N]
     [(1, false, Some 11, [2; 3])%N; (2, false, Some 12, [7])%N; (3, false, Some 13, [3])%N; (4, true, Some 14, [2])%N]
  = "ok 2,7 / 1=11,2=12 / 1 | ok 2,7 / 0=10 / 0 | a>S1 ; b>S2 h1.2,h1.3,h1.7 ; a>H3 h0.1,h0.2,h0.7 ; b>N 1=11,2=12 ; a>N 0=10 | leaks -"%string.
Proof. vm_compute. reflexivity. Qed.

Example ex_topics_raw : Forall cw_raw (p_topics cw ex_pa) /\ Forall cw_raw (p_topics cw ex_pb).
Proof. split; repeat constructor. Qed.

Example ex_restricted : p_restricted cw ex_pa = true /\ p_restricted cw ex_pb = true.
Proof. split; reflexivity. Qed.

Example ex_out_of_order :
  model_script false true [1; 2]%N [] [IS1; INodes []; IH3 []] None = "err UnexpectedMessage | b>S2 h1.1,h1.2 | leaks -"%string.
Proof. vm_compute. reflexivity. Qed.

Lemma memw_In w l : memw w l = true <-> In w l.
Proof. apply (mem_In cw cw_eqb cw_eqb_spec). Qed.

Lemma subset_spec a b : subset a b = true <-> forall w, In w a -> In w b.
Proof.
  unfold subset. rewrite forallb_forall. split; intros Hs w Hin; apply memw_In; apply Hs; exact Hin.
Qed.

Lemma set_eq_spec a b : set_eq a b = true <-> forall w, In w a <-> In w b.
Proof.
  unfold set_eq. rewrite andb_true_iff, !subset_spec. split.
  - intros [H1 H2] w. split; auto.
  - intros Hs. split; intros w; apply Hs.
Qed.

Lemma inter_spec_In ta tb w : In w (inter_spec ta tb) <-> In w (map Raw ta) /\ In w (map Raw tb).
Proof.
  unfold inter_spec. rewrite !in_map_iff. split.
  - intros [t [<- Hin]]. apply filter_In in Hin. destruct Hin as [Ha Hb].
    apply existsb_exists in Hb. destruct Hb as [t' [Hb E]]. apply N.eqb_eq in E. subst t'.
    split; exists t; auto.
  - intros [[t [<- Ha]] [t' [E Hb]]]. inversion E; subst t'. exists t. split; [reflexivity|].
    apply filter_In. split; [exact Ha|]. apply existsb_exists. exists t. split; [exact Hb|apply N.eqb_refl].
Qed.

Lemma no_raw_words_spec ms :
  no_raw_words ms = true -> forall m, In m ms -> forall t, cw_raw t -> ~ occurs cw N t m.
Proof.
  unfold no_raw_words, occurs. rewrite forallb_forall. intros Hall m Hm t Hraw Hocc.
  specialize (Hall m Hm). rewrite forallb_forall in Hall. specialize (Hall t Hocc).
  destruct t; [discriminate|destruct Hraw ..].
Qed.

Lemma optN_eqb_spec a b : optN_eqb a b = true <-> a = b.
Proof.
  destruct a, b; cbn [optN_eqb]; [rewrite N.eqb_eq|..]; split; intros E; congruence.
Qed.

Lemma err_eqb_spec a b : err_eqb a b = true <-> a = b.
Proof.
  split; [|intros ->; destruct b as [[| |]|]; reflexivity].
  destruct a as [[| |]|], b as [[| |]|]; (reflexivity || discriminate).
Qed.

Lemma in_scope_b_spec (p : cparty) common id tr :
  in_scope_b (p_me cw p) (p_book cw p) common (id, tr) = true -> in_scope_of cw p common id tr.
Proof.
  unfold in_scope_b. cbn [fst snd]. rewrite existsb_exists. intros [n [Hin Hb]].
  apply andb_prop in Hb as [Hb Hsc]. apply andb_prop in Hb as [Hid Htr].
  apply N.eqb_eq in Hid. apply optN_eqb_spec in Htr. exists n. repeat (split; [assumption|]).
  apply orb_prop in Hsc. destruct Hsc as [Hme|Hc].
  - left. apply N.eqb_eq. exact Hme.
  - right. apply andb_prop in Hc as [Hs Hc]. apply negb_true_iff in Hs.
    apply existsb_exists in Hc. destruct Hc as [t [Ht Hm]].
    split; [exact Hs|]. exists t. split; [exact Ht|]. apply memw_In. exact Hm.
Qed.

Lemma scope_ok_spec (p : cparty) common ms :
  scope_ok true (p_me cw p) (p_book cw p) common ms = true ->
  forall m id tr, In m ms -> In (id, tr) (infos_of cw N m) -> in_scope_of cw p common id tr.
Proof.
  unfold scope_ok. rewrite forallb_forall. intros Hall m id tr Hm Hin.
  specialize (Hall m Hm). rewrite forallb_forall in Hall. apply in_scope_b_spec. apply Hall. exact Hin.
Qed.

(** What [check_honest = true] on an observation means: the three parts of C30, stated on the
    observed results / messages of the two real sides. *)
Theorem check_honest_sound ra rb ta tb bookA bookB oa ob sa sb leaks :
  check_honest ra rb ta tb bookA bookB oa ob sa sb leaks = true ->
  exists rA rB,
    oa = Done rA /\ ob = Done rB /\
    (forall t, In t (res_topics cw rA) <-> In t (map Raw ta) /\ In t (map Raw tb)) /\
    (forall t, In t (res_topics cw rB) <-> In t (map Raw ta) /\ In t (map Raw tb)) /\
    leaks = 0 /\
    (forall m, In m (sa ++ sb) -> forall t, cw_raw t -> ~ occurs cw N t m) /\
    (ra = true -> forall m id tr, In m sa -> In (id, tr) (infos_of cw N m) ->
       in_scope cw (alice_party ra ta bookA) (bob_party rb tb bookB) id tr) /\
    (rb = true -> forall m id tr, In m sb -> In (id, tr) (infos_of cw N m) ->
       in_scope cw (bob_party rb tb bookB) (alice_party ra ta bookA) id tr).
Proof.
  unfold check_honest. destruct oa as [rA|]; [|discriminate]. destruct ob as [rB|]; [|discriminate].
  intros E.
  (* not used: the last four conjuncts ([sends_infos] and [res_remote] of either side) *)
  do 4 apply andb_prop in E as [E _].
  apply andb_prop in E as [E HsB]. apply andb_prop in E as [E HsA].
  apply andb_prop in E as [E HrB]. apply andb_prop in E as [E HrA].
  apply andb_prop in E as [E Hl]. apply andb_prop in E as [HtA HtB].
  exists rA, rB. split; [reflexivity|]. split; [reflexivity|].
  split; [intros t; etransitivity; [apply set_eq_spec, HtA|apply inter_spec_In]|].
  split; [intros t; etransitivity; [apply set_eq_spec, HtB|apply inter_spec_In]|].
  split; [apply Nat.eqb_eq; exact Hl|].
  split.
  { intros m Hm. apply in_app_iff in Hm.
    destruct Hm as [Hm|Hm]; [exact (no_raw_words_spec sa HrA m Hm)|exact (no_raw_words_spec sb HrB m Hm)]. }
  split; intros -> m id tr Hm Hin; apply in_scope_of_common with (common := inter_spec ta tb).
  - intros t Ht. apply inter_spec_In in Ht. exact Ht.
  - exact (scope_ok_spec (alice_party true ta bookA) _ _ HsA m id tr Hm Hin).
  - intros t Ht. apply inter_spec_In in Ht. destruct Ht. split; assumption.
  - exact (scope_ok_spec (bob_party true tb bookB) _ _ HsB m id tr Hm Hin).
Qed.

(** What [check_script = true] means: the observed outcome is the one the message-order
    specification demands (or [SinkErr] when the sink takes fewer messages than the side would
    send), and nothing raw was sent.  No side sends more than 3 messages, so the budget 3 that
    [sink = None] stands for is a sink that takes everything. *)
Theorem check_script_sound alice r ts book script sink o sent leaks :
  check_script alice r ts book script sink o sent leaks = true ->
  let spec := expect cw N (if alice then alice_expects else bob_expects)
                     (map (to_rx (if alice then 1 else 0)%N) script) 0 in
  let want := if alice then S (snd spec) else Nat.min 2 (snd spec) in
  let k := match sink with Some k => k | None => 3 end in
  (want <= k -> outcome_err cw o = fst spec /\ List.length sent = want) /\
  (k < want -> outcome_err cw o = Some SinkErr /\ List.length sent = k) /\
  leaks = 0 /\
  (forall m, In m sent -> forall t, cw_raw t -> ~ occurs cw N t m).
Proof.
  unfold check_script.
  destruct (expect cw N _ _ 0) as [e n]. cbn [fst snd].
  set (want := if alice then S n else Nat.min 2 n).
  set (k := match sink with Some k => k | None => 3 end).
  intros E.
  (* not used: [kinds_ok] and the last conjunct (result within own topics, scope of the infos) *)
  apply andb_prop in E as [E _].
  apply andb_prop in E as [E Hr]. apply andb_prop in E as [E Hl].
  apply andb_prop in E as [Ho _].
  assert (Hrest : leaks = 0 /\ (forall m, In m sent -> forall t, cw_raw t -> ~ occurs cw N t m)).
  { split; [apply Nat.eqb_eq; exact Hl|apply no_raw_words_spec; exact Hr]. }
  (* [outcome_err_b] is [outcome_err cw] written out again *)
  destruct (Nat.leb_spec want k) as [Hle|Hgt]; apply andb_prop in Ho as [He Hlen];
    apply Nat.eqb_eq in Hlen; apply err_eqb_spec in He.
  - split; [intros _; split; assumption|]. split; [|exact Hrest].
    intros Hc. apply Nat.lt_nge in Hc. contradiction.
  - split; [|split; [intros _; split; assumption|exact Hrest]].
    intros Hc. apply Nat.lt_nge in Hgt. contradiction.
Qed.
