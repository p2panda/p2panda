(** Characterisation of the log store reference model (C08). *)
From Coq Require Import List NArith Bool Permutation Sorted.
From PV Require Import Model.LogStore.
From PV Require Import Lib.ListFacts.
Import ListNotations.
Local Open Scope N_scope.

Lemma in_log_spec a l r : in_log a l r = true <-> r_author r = a /\ r_log r = l.
Proof. unfold in_log. rewrite andb_true_iff, !N.eqb_eq. tauto. Qed.

Lemma log_rows_spec s a l r : In r (log_rows s a l) <-> In r s /\ r_author r = a /\ r_log r = l.
Proof. unfold log_rows. rewrite filter_In, in_log_spec. tauto. Qed.

Lemma has_id_spec s id : has_id s id = true <-> exists r, In r s /\ r_id r = id.
Proof.
  unfold has_id. rewrite existsb_exists. split; intros [r [H1 H2]]; exists r; split; auto.
  - now apply N.eqb_eq. - now apply N.eqb_eq.
Qed.

Lemma has_id_false s id : has_id s id = false <-> forall r, In r s -> r_id r <> id.
Proof.
  split.
  - intros H r Hr E. assert (has_id s id = true) by (apply has_id_spec; eauto). congruence.
  - intros H. destruct (has_id s id) eqn:E; auto. apply has_id_spec in E. destruct E as [r [H1 H2]].
    exfalso. eapply H; eauto.
Qed.

Lemma filter_comm {A} (f g : A -> bool) l : filter f (filter g l) = filter g (filter f l).
Proof.
  induction l as [|x t IH]; cbn [filter]; auto.
  destruct (f x) eqn:F, (g x) eqn:G; cbn [filter]; rewrite ?F, ?G, IH; reflexivity.
Qed.

Lemma filter_length_split {A} (f : A -> bool) (l : list A) :
  (length (filter f l) + length (filter (fun x => negb (f x)) l) = length l)%nat.
Proof.
  induction l as [|x l IH]; cbn [filter length]; auto.
  destruct (f x); cbn [negb length]; [|rewrite <- plus_n_Sm]; now rewrite <- IH.
Qed.

Lemma max_seq_none rs : max_seq rs = None <-> rs = [].
Proof.
  destruct rs as [|r t]; cbn [max_seq]; split; intros H; auto; try discriminate.
  destruct (max_seq t); discriminate.
Qed.

Lemma max_seq_ge rs m : max_seq rs = Some m -> forall r, In r rs -> r_seq r <= m.
Proof.
  revert m. induction rs as [|x t IH]; intros m Hm r Hr; [inversion Hr|].
  cbn [max_seq] in Hm. destruct (max_seq t) as [m'|] eqn:E.
  - inversion Hm; subst. destruct Hr as [->|Hr]; [apply N.le_max_l|].
    etransitivity; [apply (IH m' eq_refl r Hr)|apply N.le_max_r].
  - inversion Hm; subst. apply max_seq_none in E. subst. destruct Hr as [->|[]]. reflexivity.
Qed.

Lemma max_seq_attained rs m : max_seq rs = Some m -> exists r, In r rs /\ r_seq r = m.
Proof.
  revert m. induction rs as [|x t IH]; intros m Hm; [discriminate|].
  cbn [max_seq] in Hm. destruct (max_seq t) as [m'|] eqn:E.
  - inversion Hm; subst. destruct (N.max_spec (r_seq x) m') as [[_ ->]|[_ ->]].
    + destruct (IH m' eq_refl) as [r [H1 H2]]. exists r. split; [now right|auto].
    + exists x. split; [now left|auto].
  - inversion Hm; subst. exists x. split; [now left|auto].
Qed.

Definition is_latest (s : store) (a l : N) (r : row) : Prop :=
  In r s /\ r_author r = a /\ r_log r = l /\
  forall r', In r' s -> r_author r' = a -> r_log r' = l -> r_seq r' <= r_seq r.

Lemma latest_candidates_spec s a l r : In r (latest_candidates s a l) <-> is_latest s a l r.
Proof.
  unfold latest_candidates, is_latest. destruct (max_seq (log_rows s a l)) as [m|] eqn:E.
  - rewrite filter_In, log_rows_spec, N.eqb_eq. split.
    + intros [[H1 [H2 H3]] H4]. repeat split; auto. intros r' I1 I2 I3. rewrite H4.
      eapply max_seq_ge; eauto. apply log_rows_spec; auto.
    + intros [H1 [H2 [H3 H4]]]. repeat split; auto.
      destruct (max_seq_attained _ _ E) as [x [X1 X2]]. apply log_rows_spec in X1.
      destruct X1 as [X1 [X3 X4]]. specialize (H4 x X1 X3 X4).
      apply N.le_antisymm; [|now rewrite <- X2]. eapply max_seq_ge; eauto. apply log_rows_spec; auto.
  - apply max_seq_none in E. split; [intros []|]. intros [H1 [H2 [H3 _]]].
    assert (Hr : In r (log_rows s a l)) by (apply log_rows_spec; auto). rewrite E in Hr. inversion Hr.
Qed.

Theorem latest_is_max : forall (s : store) (a l : N),
  (latest s a l = None <-> log_rows s a l = []) /\
  (forall r, latest s a l = Some r -> is_latest s a l r) /\
  (forall r, In r (latest_candidates s a l) <-> is_latest s a l r).
Proof.
  intros s a l. split; [|split].
  - unfold latest, latest_candidates. destruct (max_seq (log_rows s a l)) as [m|] eqn:E.
    + split; intros H.
      * exfalso. destruct (max_seq_attained _ _ E) as [x [X1 X2]].
        assert (Hx : In x (filter (fun r => r_seq r =? m) (log_rows s a l))).
        { apply filter_In. split; auto. now apply N.eqb_eq. }
        destruct (filter (fun r => r_seq r =? m) (log_rows s a l)); [inversion Hx|discriminate].
      * rewrite H in E. discriminate.
    + apply max_seq_none in E. tauto.
  - intros r H. apply latest_candidates_spec. unfold latest in H.
    destruct (latest_candidates s a l); [discriminate|]. inversion H; subst. now left.
  - intros r. apply latest_candidates_spec.
Qed.

Example latest_is_max_ex :
  let s := [mkrow 0 1 2 0 104 0 false; mkrow 1 1 2 3 138 0 false; mkrow 2 1 2 3 172 5 true; mkrow 3 1 0 9 138 0 false] in
  latest s 1 2 = Some (mkrow 1 1 2 3 138 0 false) /\ length (latest_candidates s 1 2) = 2%nat /\ latest s 2 2 = None.
Proof. vm_compute. auto. Qed.

Lemma in_ins_key x l z : In z (ins_key x l) <-> In z (x :: l).
Proof.
  induction l as [|y t IH]; cbn [ins_key]; [reflexivity|].
  destruct (x <? y); [reflexivity|]. destruct (x =? y) eqn:E.
  - apply N.eqb_eq in E. subst. cbn [In]. tauto.
  - cbn [In] in *. destruct IH as [I1 I2]. split.
    + intros [H|H]; [auto|]. destruct (I1 H); auto.
    + intros [H|[H|H]]; auto.
Qed.

Lemma in_sort_keys l z : In z (sort_keys l) <-> In z l.
Proof.
  induction l as [|x t IH]; cbn [sort_keys fold_right]; [reflexivity|].
  fold (sort_keys t). rewrite in_ins_key. cbn [In]. now rewrite IH.
Qed.

Lemma ins_key_sorted x l : StronglySorted N.lt l -> StronglySorted N.lt (ins_key x l).
Proof.
  induction l as [|y t IH]; intros H; cbn [ins_key].
  - repeat constructor.
  - inversion H as [|? ? Ht Hy]; subst. destruct (x <? y) eqn:E1.
    + apply N.ltb_lt in E1. constructor; auto. constructor; auto.
      eapply Forall_impl; [|exact Hy]. intros z. apply N.lt_trans, E1.
    + destruct (x =? y) eqn:E2; auto. apply N.ltb_ge in E1. apply N.eqb_neq in E2.
      constructor; auto. apply Forall_forall. intros z Hz. apply in_ins_key in Hz.
      destruct Hz as [<-|Hz]; [apply N.le_neq; split; [exact E1|now apply not_eq_sym]|].
      rewrite Forall_forall in Hy. auto.
Qed.

Lemma sort_keys_sorted l : StronglySorted N.lt (sort_keys l).
Proof.
  induction l as [|x t IH]; cbn [sort_keys fold_right]; [constructor|]. now apply ins_key_sorted.
Qed.

Lemma in_height_of s a l p : In p (height_of s a l) <-> fst p = l /\ max_seq (log_rows s a l) = Some (snd p).
Proof.
  unfold height_of. destruct p as [l' h]. cbn [fst snd]. destruct (max_seq (log_rows s a l)) as [m|].
  - cbn [In]. split; [intros [H|[]]; inversion H; auto|]. intros [-> H]. inversion H. auto.
  - cbn [In]. split; [tauto|]. intros [_ H]. discriminate.
Qed.

Definition heights_list (s : store) (a : N) (logs : list N) : list (N * N) :=
  flat_map (height_of s a) (sort_keys logs).

Lemma in_heights_list s a logs l h :
  In (l, h) (heights_list s a logs) <-> In l logs /\ max_seq (log_rows s a l) = Some h.
Proof.
  unfold heights_list. rewrite in_flat_map. split.
  - intros [x [H1 H2]]. apply in_height_of in H2. cbn [fst snd] in H2. destruct H2 as [-> H2].
    apply -> in_sort_keys in H1. auto.
  - intros [H1 H2]. exists l. split; [now apply in_sort_keys|]. apply in_height_of. auto.
Qed.

Lemma flat_map_keys_sorted s a ks :
  StronglySorted N.lt ks -> StronglySorted N.lt (map fst (flat_map (height_of s a) ks)).
Proof.
  induction ks as [|k t IH]; intros H; cbn [flat_map map]; [constructor|].
  inversion H as [|? ? Ht Hk]; subst. unfold height_of at 1.
  destruct (max_seq (log_rows s a k)) as [m|]; cbn [app map fst]; auto.
  constructor; auto. apply Forall_forall. intros z Hz. apply in_map_iff in Hz.
  destruct Hz as [[l h] [<- Hz]]. cbn [fst]. apply in_flat_map in Hz. destruct Hz as [x [X1 X2]].
  apply in_height_of in X2. cbn [fst] in X2. destruct X2 as [-> _]. rewrite Forall_forall in Hk. auto.
Qed.

(** The answer of [get_log_heights]: [None] exactly when none of the requested logs has a row
    (in particular for the empty list); otherwise the map log -> largest seq_num over exactly the
    requested logs that have rows, keys strictly ascending (a [BTreeMap]). *)
Theorem heights_spec : forall (s : store) (a : N) (logs : list N),
  heights s a [] = None /\
  (heights s a logs = None <-> forall l, In l logs -> log_rows s a l = []) /\
  (forall hs, heights s a logs = Some hs ->
     (forall l h, In (l, h) hs <-> In l logs /\ max_seq (log_rows s a l) = Some h) /\
     StronglySorted N.lt (map fst hs)).
Proof.
  intros s a logs. split; [reflexivity|]. unfold heights. fold (heights_list s a logs). split; [split|].
  - intros H l Hl. destruct (max_seq (log_rows s a l)) as [m|] eqn:E; [|now apply max_seq_none].
    assert (Hin : In (l, m) (heights_list s a logs)) by (apply in_heights_list; auto).
    destruct (heights_list s a logs); [inversion Hin|discriminate].
  - intros H. destruct (heights_list s a logs) as [|[l h] t] eqn:E; auto. exfalso.
    assert (Hin : In (l, h) (heights_list s a logs)) by (rewrite E; now left).
    apply in_heights_list in Hin. destruct Hin as [H1 H2]. rewrite (H l H1) in H2. discriminate.
  - intros hs H.
    assert (hs = heights_list s a logs) by (destruct (heights_list s a logs); [discriminate|now inversion H]).
    subst. split; [intros; apply in_heights_list|]. apply flat_map_keys_sorted, sort_keys_sorted.
Qed.

Example heights_spec_ex :
  let s := [mkrow 0 1 2 0 104 0 false; mkrow 1 1 2 3 138 0 false; mkrow 2 1 0 7 172 5 true; mkrow 3 2 0 9 138 0 false] in
  heights s 1 [2; 0; 2; 5] = Some [(0, 7); (2, 3)] /\ heights s 1 [5] = None /\ heights s 1 [] = None.
Proof. vm_compute. auto. Qed.

Lemma in_range_spec af un q :
  in_range af un q = true <->
  (match af with None => True | Some x => x < q end) /\ q <= (match un with None => u32_max | Some u => u end).
Proof.
  unfold in_range. rewrite andb_true_iff, N.leb_le. destruct af as [x|].
  - rewrite N.ltb_lt. tauto.
  - rewrite N.leb_le. split; [tauto|]. intros [_ H]. split; [apply N.le_0_l|auto].
Qed.

Lemma range_rows_spec s a l af un r :
  In r (range_rows s a l af un) <->
  In r s /\ r_author r = a /\ r_log r = l /\
  (match af with None => True | Some x => x < r_seq r end) /\
  r_seq r <= (match un with None => u32_max | Some u => u end).
Proof. unfold range_rows. rewrite filter_In, log_rows_spec, in_range_spec. tauto. Qed.

Lemma ins_row_perm x l : Permutation (ins_row x l) (x :: l).
Proof.
  induction l as [|y t IH]; cbn [ins_row]; auto. destruct (row_le x y); auto.
  eapply perm_trans; [apply perm_skip, IH|apply perm_swap].
Qed.

Lemma sort_rows_perm l : Permutation (sort_rows l) l.
Proof.
  induction l as [|x t IH]; cbn [sort_rows fold_right]; auto. fold (sort_rows t).
  eapply perm_trans; [apply ins_row_perm|]. now apply perm_skip.
Qed.

(** The order the theorems speak of is by seq_num alone, as in the SQL ([ORDER BY seq_num]); the
    tie-break by id in [row_le] only makes the model's list canonical for the comparison with the
    harness, which prints ties the same way. *)
Definition seq_le (x y : row) : Prop := r_seq x <= r_seq y.

Lemma row_le_true x y : row_le x y = true -> seq_le x y.
Proof.
  unfold row_le, seq_le. rewrite orb_true_iff, andb_true_iff, N.ltb_lt, N.eqb_eq.
  intros [H|[H _]]; [apply N.lt_le_incl, H|apply N.eq_le_incl, H].
Qed.

Lemma row_le_false x y : row_le x y = false -> seq_le y x.
Proof.
  unfold row_le, seq_le. rewrite orb_false_iff, N.ltb_ge. now intros [H _].
Qed.

Lemma ins_row_sorted x l : StronglySorted seq_le l -> StronglySorted seq_le (ins_row x l).
Proof.
  induction l as [|y t IH]; intros H; cbn [ins_row].
  - repeat constructor.
  - inversion H as [|? ? Ht Hy]; subst. destruct (row_le x y) eqn:E.
    + apply row_le_true in E. constructor; auto. constructor; auto.
      eapply Forall_impl; [|exact Hy]. intros z. apply N.le_trans, E.
    + apply row_le_false in E. constructor; auto. apply Forall_forall. intros z Hz.
      apply (Permutation_in _ (ins_row_perm x t)) in Hz. destruct Hz as [<-|Hz]; auto.
      rewrite Forall_forall in Hy. auto.
Qed.

Lemma sort_rows_sorted l : StronglySorted seq_le (sort_rows l).
Proof.
  induction l as [|x t IH]; cbn [sort_rows fold_right]; [constructor|]. now apply ins_row_sorted.
Qed.

Definition entries_list (s : store) (a l : N) (af un : option N) : list row :=
  match entries s a l af un with None => [] | Some es => es end.

Lemma entries_list_eq s a l af un : entries_list s a l af un = sort_rows (range_rows s a l af un).
Proof. unfold entries_list, entries. now destruct (sort_rows (range_rows s a l af un)). Qed.

(** [get_log_entries] returns exactly the rows of the log with [after < seq_num <= until]
    ([None] = no bound below / [u32::MAX] above), each once, in ascending seq_num order; the answer
    is [None] exactly when there is no such row. *)
Theorem entries_sorted_in_range : forall (s : store) (a l : N) (af un : option N),
  Permutation (entries_list s a l af un) (range_rows s a l af un) /\
  StronglySorted seq_le (entries_list s a l af un) /\
  (forall r, In r (entries_list s a l af un) <->
     In r s /\ r_author r = a /\ r_log r = l /\
     (match af with None => True | Some x => x < r_seq r end) /\
     r_seq r <= (match un with None => u32_max | Some u => u end)) /\
  (entries s a l af un = None <-> range_rows s a l af un = []) /\
  entries s a l af un <> Some [].
Proof.
  intros s a l af un. rewrite entries_list_eq.
  assert (P := sort_rows_perm (range_rows s a l af un)).
  split; [exact P|]. split; [apply sort_rows_sorted|]. split; [|split].
  - intros r. rewrite <- range_rows_spec. split; apply Permutation_in; auto. now apply Permutation_sym.
  - unfold entries. destruct (sort_rows (range_rows s a l af un)) eqn:E.
    + split; auto. intros _. apply Permutation_nil in P. auto.
    + split; [discriminate|]. intros H. rewrite H in P. apply Permutation_sym, Permutation_nil in P. discriminate.
  - unfold entries. destruct (sort_rows (range_rows s a l af un)); discriminate.
Qed.

Example entries_ex :
  let s := [mkrow 0 1 2 4 104 0 false; mkrow 1 1 2 3 138 0 true; mkrow 2 1 2 3 172 5 true; mkrow 3 1 2 0 138 0 false; mkrow 4 2 2 1 1 1 true] in
  option_map (map r_id) (entries s 1 2 (Some 0) (Some 3)) = Some [1; 2] /\
  option_map (map r_id) (entries s 1 2 None None) = Some [3; 1; 2; 0] /\
  entries s 1 2 (Some 3) (Some 3) = None.
Proof. vm_compute. auto. Qed.

Lemma sumN_perm f l1 l2 : Permutation l1 l2 -> sumN f l1 = sumN f l2.
Proof.
  unfold sumN. induction 1; cbn [fold_right]; [reflexivity|now f_equal|apply N.add_shuffle3|congruence].
Qed.

Lemma sumN_add f g l : sumN (fun r => f r + g r) l = sumN f l + sumN g l.
Proof. unfold sumN. induction l as [|x t IH]; cbn [fold_right]; [reflexivity|]. rewrite IH. apply N.add_shuffle1. Qed.

(** [get_log_size] counts and sums exactly the rows [get_log_entries] returns for the same range
    (header bytes + claimed payload bytes, saturating at [u32::MAX]); it is never [None]; sums
    that do not fit [u32] are an error. *)
Theorem size_is_sum_of_entries : forall (s : store) (a l : N) (af un : option N),
  let es := entries_list s a l af un in
  let fits := (sumN r_hsize es <? two32) && (sumN r_psize es <? two32) && (N.of_nat (length es) <? two32) in
  size s a l af un =
    if fits then Val (Some (N.of_nat (length es), N.min (sumN (fun r => r_hsize r + r_psize r) es) u32_max))
    else Err.
Proof.
  intros s a l af un es fits. subst es fits.
  destruct (entries_sorted_in_range s a l af un) as [P _].
  rewrite (sumN_perm r_hsize _ _ P), (sumN_perm r_psize _ _ P), (sumN_perm _ _ _ P), (Permutation_length P).
  rewrite sumN_add. unfold size.
  set (h := sumN r_hsize _). set (p := sumN r_psize _). set (c := N.of_nat _).
  rewrite !N.ltb_antisym, <- !negb_orb. now destruct (_ || _ || _).
Qed.

Example size_ex :
  let s := [mkrow 0 1 2 0 104 0 false; mkrow 1 1 2 1 138 7 true; mkrow 2 1 2 2 142 4294967000 false] in
  size s 1 2 None (Some 1) = Val (Some (2, 249)) /\ size s 1 2 (Some 5) None = Val (Some (0, 0)) /\
  size s 1 2 None None = Val (Some (3, 4294967295)) /\
  size (mkrow 3 1 2 3 142 4294967295 false :: s) 1 2 None None = Err.
Proof. vm_compute. auto. Qed.

Lemma prune_hit_spec a l u r : prune_hit a l u r = true <-> r_author r = a /\ r_log r = l /\ r_seq r < u.
Proof. unfold prune_hit. rewrite andb_true_iff, in_log_spec, N.ltb_lt. tauto. Qed.

(** [prune_entries] removes exactly the rows of that author's log with [seq_num < until], keeps
    the order of the others, and reports how many it removed. *)
Theorem prune_deletes_exactly_below : forall (s : store) (a l u : N),
  (forall r, In r (fst (prune s a l u)) <-> In r s /\ ~ (r_author r = a /\ r_log r = l /\ r_seq r < u)) /\
  (N.to_nat (snd (prune s a l u)) + length (fst (prune s a l u)) = length s)%nat /\
  (forall a' l', (a', l') <> (a, l) -> log_rows (fst (prune s a l u)) a' l' = log_rows s a' l') /\
  (forall af un, range_rows (fst (prune s a l u)) a l af un =
                 filter (fun r => negb (r_seq r <? u)) (range_rows s a l af un)).
Proof.
  intros s a l u. cbn [prune fst snd]. split; [|split; [|split]].
  - intros r. rewrite filter_In, negb_true_iff, <- not_true_iff_false, prune_hit_spec. tauto.
  - rewrite Nnat.Nat2N.id. apply filter_length_split.
  - intros a' l' Hne. unfold log_rows. induction s as [|x t IH]; cbn [filter]; auto.
    destruct (prune_hit a l u x) eqn:E; cbn [negb filter].
    + apply prune_hit_spec in E. destruct E as [E1 [E2 _]].
      destruct (in_log a' l' x) eqn:F; auto. apply in_log_spec in F. destruct F. exfalso. apply Hne. congruence.
    + destruct (in_log a' l' x); [f_equal|]; auto.
  - (* pruning commutes with the two selections; on rows of the log, [prune_hit] is [seq_num < u] *)
    intros af un. unfold range_rows, log_rows. rewrite !(filter_comm _ (fun r => negb (prune_hit a l u r))).
    apply filter_ext_in. intros x Hx. apply filter_In in Hx as [Hx _]. apply filter_In in Hx as [_ Hx].
    unfold prune_hit. now rewrite Hx.
Qed.

Example prune_ex :
  let s := [mkrow 0 1 2 0 104 0 false; mkrow 1 1 2 1 138 7 true; mkrow 2 1 2 2 142 9 false; mkrow 3 1 0 0 104 0 false] in
  map r_id (fst (prune s 1 2 2)) = [2; 3] /\ snd (prune s 1 2 2) = 2 /\ snd (prune s 1 2 0) = 0.
Proof. vm_compute. auto. Qed.

(** INSERT OR IGNORE on the primary key, DELETE by key, UPDATE body = NULL by key. *)
Theorem writes_spec : forall (s : store) (r : row) (id : N),
  (snd (insert_or_ignore s r) = negb (has_id s (r_id r))) /\
  (forall x, In x (fst (insert_or_ignore s r)) <-> In x s \/ (has_id s (r_id r) = false /\ x = r)) /\
  (snd (delete s id) = has_id s id /\ forall x, In x (fst (delete s id)) <-> In x s /\ r_id x <> id) /\
  (snd (delete_payload s id) = has_id s id /\
   fst (delete_payload s id) = map (fun x => if r_id x =? id then drop_body x else x) s).
Proof.
  intros s r id. split; [|split; [|split]].
  - unfold insert_or_ignore. destruct (has_id s (r_id r)); reflexivity.
  - intros x. unfold insert_or_ignore. destruct (has_id s (r_id r)); cbn [fst].
    + split; [auto|]. intros [H|[H _]]; [auto|discriminate].
    + rewrite in_app_iff. cbn [In]. split; [intros [H|[H|[]]]|intros [H|[_ H]]]; auto.
  - cbn [delete fst snd]. split; auto. intros x. rewrite filter_In, negb_true_iff, N.eqb_neq. tauto.
  - cbn [delete_payload fst snd]. auto.
Qed.

Example writes_ex :
  let s := [mkrow 0 1 2 0 104 0 false; mkrow 1 1 2 1 138 7 true] in
  snd (insert_or_ignore s (mkrow 1 9 9 9 1 1 false)) = false /\ fst (insert_or_ignore s (mkrow 1 9 9 9 1 1 false)) = s /\
  snd (insert_or_ignore s (mkrow 2 1 0 0 104 0 false)) = true /\
  map r_id (fst (delete s 0)) = [1] /\ snd (delete s 5) = false /\
  map r_body (fst (delete_payload s 1)) = [false; false] /\ snd (delete_payload s 1) = true.
Proof. vm_compute. repeat split. Qed.

Definition ids_unique (s : store) : Prop := NoDup (map r_id s).

Lemma step_ids_unique tab s it : ids_unique s -> ids_unique (fst (step tab s it)).
Proof.
  unfold ids_unique. intros H. destruct it; cbn [step]; auto.
  - destruct (nth_error tab (N.to_nat k)) as [o|]; auto. unfold insert_or_ignore.
    destruct (has_id s (r_id (row_of k o l))) eqn:E; cbn [fst]; auto.
    rewrite map_app. cbn [map]. apply (NoDup_Add (Add_app _ _ [])). rewrite app_nil_r. split; [exact H|].
    intros Hin. apply in_map_iff in Hin. destruct Hin as [y [Y1 Y2]]. rewrite has_id_false in E. eapply E; eauto.
  - cbn [delete fst]. now apply NoDup_map_filter.
  - cbn [delete_payload fst]. rewrite map_map.
    erewrite map_ext; [exact H|]. intros x. destruct (r_id x =? k); reflexivity.
  - cbn [prune fst]. now apply NoDup_map_filter.
Qed.

(** Holds by the shape of [step]: [OPanic] can only come from [size .. = Panic], and [size], unlike
    [size_legacy], has no such branch.  That the code does not panic either is the
    correspondence's part. *)
Theorem queries_total : forall (tab : list opdef) (s : store) (it : item), snd (step tab s it) <> OPanic.
Proof.
  intros tab s it. destruct it; cbn [step]; try discriminate.
  - destruct (nth_error tab (N.to_nat k)); [|discriminate].
    destruct (insert_or_ignore s (row_of k o l)); discriminate.
  - unfold size. destruct ((two32 <=? _) || _ || _); discriminate.
Qed.

Lemma run_never_panics tab its : forall s, ~ In OPanic (snd (run tab s its)).
Proof.
  induction its as [|it r IH]; intros s; cbn [run]; [intros []|].
  destruct (step tab s it) as [s1 o] eqn:E. specialize (IH s1).
  destruct (run tab s1 r) as [s2 os]. cbn [snd] in *. intros [H|H]; auto.
  pose proof (queries_total tab s it) as Q. rewrite E in Q. auto.
Qed.

Lemma run_ids_unique tab its : forall s, ids_unique s -> ids_unique (fst (run tab s its)).
Proof.
  induction its as [|it r IH]; intros s H; cbn [run]; auto.
  pose proof (step_ids_unique tab s it H) as H1. destruct (step tab s it) as [s1 o]. cbn [fst] in H1.
  specialize (IH s1 H1). destruct (run tab s1 r) as [s2 os]. auto.
Qed.

(** The code before the two repairs panicked (regression witnesses, replayed on the
    implementation on every run: findings/C08-*.json). *)
Lemma heights_legacy_panics s a : heights_legacy s a [] = Panic.
Proof. reflexivity. Qed.

Lemma heights_legacy_agrees s a logs : logs <> [] -> heights_legacy s a logs = Val (heights s a logs).
Proof. destruct logs; [congruence|reflexivity]. Qed.

Lemma size_legacy_panics :
  size_legacy [mkrow 0 0 0 0 142 4294967295 false] 0 0 None None = Panic.
Proof. vm_compute. reflexivity. Qed.

Lemma size_legacy_agrees s a l af un :
  sumN r_hsize (range_rows s a l af un) + sumN r_psize (range_rows s a l af un) < two32 ->
  size_legacy s a l af un = size s a l af un.
Proof.
  intros H. unfold size_legacy, size.
  set (h := sumN r_hsize _) in *. set (p := sumN r_psize _) in *.
  destruct ((two32 <=? h) || (two32 <=? p) || _); auto.
  destruct (two32 <=? h + p) eqn:E; [apply N.leb_le in E; now apply N.lt_nge in H|].
  (* [two32] is the successor of [u32_max] *)
  rewrite N.min_l; auto. now apply N.lt_succ_r.
Qed.
