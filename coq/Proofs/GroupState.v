(** Proofs about the group membership state model (Model/GroupState.v): association-list
    lemmas, the lookup characterisation of [merge], and the algebra of [merge] (C32). *)
From Coq Require Import List NArith Bool.
From PV Require Import Model.GroupState.
Import ListNotations.

Lemma fold_left_source {A B} (f : A -> B -> A) (P : A -> Prop) (Q : B -> Prop) :
  (forall a b, P (f a b) -> Q b \/ P a) ->
  forall l a, P (fold_left f l a) -> (exists b, In b l /\ Q b) \/ P a.
Proof.
  intros step. induction l as [|b r IH]; intros a H; cbn [fold_left] in H; [right; exact H|].
  destruct (IH _ H) as [[b' [Hin Hq]]|H'].
  - left. exists b'. split; [right; exact Hin|exact Hq].
  - destruct (step _ _ H') as [Hb|Ha]; [|right; exact Ha].
    left. exists b. split; [left; reflexivity|exact Hb].
Qed.

Section AList.
  Context {C : Type}.
  Implicit Types (s : State C) (m : MemberState C).

  Definition wf s : Prop := NoDup (keys s).

  Lemma lookup_remove_key_eq id s : lookup id (remove_key id s) = None.
  Proof.
    induction s as [|[k m] r IH]; cbn [remove_key lookup]; [reflexivity|].
    destruct (N.eqb id k) eqn:E; [exact IH|]. cbn [lookup]. rewrite E. exact IH.
  Qed.

  Lemma lookup_remove_key_neq id k s : id <> k -> lookup id (remove_key k s) = lookup id s.
  Proof.
    intros Hne. induction s as [|[k' m] r IH]; cbn [remove_key lookup]; [reflexivity|].
    destruct (N.eqb k k') eqn:E.
    - apply N.eqb_eq in E. subst k'.
      destruct (N.eqb_spec id k) as [->|_]; [contradiction|]. exact IH.
    - cbn [lookup]. destruct (N.eqb id k'); [reflexivity|exact IH].
  Qed.

  Lemma lookup_set id k m s : lookup id (set k m s) = if N.eqb id k then Some m else lookup id s.
  Proof.
    unfold set. cbn [lookup]. destruct (N.eqb_spec id k) as [->|Hne]; [reflexivity|].
    apply lookup_remove_key_neq, Hne.
  Qed.

  Lemma in_keys_iff id s : In id (keys s) <-> lookup id s <> None.
  Proof.
    induction s as [|[k m] r IH]; cbn [keys map fst In lookup]; [split; [contradiction|intros H; apply H; reflexivity]|].
    destruct (N.eqb_spec id k) as [->|Hne].
    - split; [discriminate|left; reflexivity].
    - rewrite <- IH. split; [intros [H|H]; [congruence|exact H]|right; assumption].
  Qed.

  Lemma lookup_in id s m : lookup id s = Some m -> In id (keys s).
  Proof. intros H. apply in_keys_iff. rewrite H. discriminate. Qed.

  Lemma lookup_not_in id s : ~ In id (keys s) -> lookup id s = None.
  Proof.
    rewrite in_keys_iff. destruct (lookup id s); [intros H; exfalso; apply H; discriminate|reflexivity].
  Qed.

  Lemma keys_remove_key k s : keys (remove_key k s) = filter (fun x => negb (N.eqb k x)) (keys s).
  Proof.
    induction s as [|[k' m] r IH]; cbn [remove_key keys map fst filter]; [reflexivity|].
    destruct (N.eqb k k'); cbn [negb keys map fst]; [exact IH|]. f_equal. exact IH.
  Qed.

  Lemma wf_set k m s : wf s -> wf (set k m s).
  Proof.
    intros H. unfold wf, set. cbn [keys map fst]. fold (keys (remove_key k s)).
    rewrite keys_remove_key. constructor.
    - rewrite filter_In, N.eqb_refl. intros [_ E]. discriminate E.
    - apply NoDup_filter, H.
  Qed.

  Lemma wf_singleton k m : wf [(k, m)].
  Proof. constructor; [intros []|constructor]. Qed.
End AList.

(** The order is a strict total order only on a set [dom]: the real [access_lt] is one on the
    accesses without conditions ([real_lt_strict_total_nocond]) and not on all of them
    ([real_lt_not_total]). *)
Section Sel.
  Context {A : Type}.
  Variable R : A -> A -> bool.
  Variable dom : A -> Prop.

  Record strict_total_on : Prop := {
    sto_irrefl : forall a, dom a -> R a a = false;
    sto_asym : forall a b, dom a -> dom b -> R a b = true -> R b a = false;
    sto_trans : forall a b c, dom a -> dom b -> dom c -> R a b = true -> R b c = true -> R a c = true;
    sto_total : forall a b, dom a -> dom b -> R a b = false -> R b a = false -> a = b
  }.

  Definition sel (a b : A) : A := if R a b then a else b.

  Lemma sel_dom a b : dom a -> dom b -> dom (sel a b).
  Proof. unfold sel. destruct (R a b); auto. Qed.

  Lemma sel_idem a : sel a a = a.
  Proof. unfold sel. destruct (R a a); reflexivity. Qed.

  Lemma sel_swap a b : R b a = negb (R a b) -> sel a b = sel b a.
  Proof. unfold sel. intros ->. destruct (R a b); reflexivity. Qed.

  Hypothesis H : strict_total_on.

  Lemma sel_comm a b : dom a -> dom b -> sel a b = sel b a.
  Proof.
    intros Da Db. unfold sel.
    destruct (R a b) eqn:Eab.
    - rewrite (sto_asym H a b Da Db Eab). reflexivity.
    - destruct (R b a) eqn:Eba; [reflexivity|].
      symmetry. apply (sto_total H a b Da Db Eab Eba).
  Qed.

  Lemma neg_trans a b c : dom a -> dom b -> dom c -> R a b = false -> R b c = false -> R a c = false.
  Proof.
    intros Da Db Dc Eab Ebc.
    destruct (R a c) eqn:Eac; [|reflexivity].
    destruct (R b a) eqn:Eba.
    - rewrite (sto_trans H b a c Db Da Dc Eba Eac) in Ebc. discriminate.
    - assert (a = b) by (apply (sto_total H a b Da Db Eab Eba)). subst b. congruence.
  Qed.

  Lemma sel_assoc a b c : dom a -> dom b -> dom c -> sel (sel a b) c = sel a (sel b c).
  Proof.
    intros Da Db Dc. unfold sel.
    destruct (R a b) eqn:Eab; destruct (R b c) eqn:Ebc; cbv iota.
    - rewrite (sto_trans H a b c Da Db Dc Eab Ebc). rewrite Eab. reflexivity.
    - reflexivity.
    - rewrite Eab. reflexivity.
    - rewrite (neg_trans a b c Da Db Dc Eab Ebc). reflexivity.
  Qed.
End Sel.

Definition lex_step (x y : N) (b : bool) : bool := N.ltb y x || (N.eqb x y && b).

Lemma lex_step_iff x y b : lex_step x y b = true <-> (y < x)%N \/ (x = y /\ b = true).
Proof. unfold lex_step. rewrite orb_true_iff, andb_true_iff, N.ltb_lt, N.eqb_eq. reflexivity. Qed.

Lemma lex_step_tie x b : lex_step x x b = b.
Proof. unfold lex_step. rewrite N.ltb_irrefl, N.eqb_refl. reflexivity. Qed.

Lemma lex_step_swap x y b b' : x <> y \/ b' = negb b -> lex_step y x b' = negb (lex_step x y b).
Proof.
  intros H. destruct (N.eq_dec x y) as [->|Hne].
  - rewrite !lex_step_tie. destruct H as [H|H]; [contradiction|exact H].
  - unfold lex_step. rewrite (proj2 (N.eqb_neq x y) Hne), (proj2 (N.eqb_neq y x) (not_eq_sym Hne)), !orb_false_r.
    unfold N.ltb. rewrite (N.compare_antisym x y).
    destruct (x ?= y)%N eqn:E; [destruct (Hne (N.compare_eq _ _ E))|reflexivity|reflexivity].
Qed.

Lemma lex_step_trans x y z b1 b2 b3 :
  (b1 = true -> b2 = true -> b3 = true) ->
  lex_step x y b1 = true -> lex_step y z b2 = true -> lex_step x z b3 = true.
Proof.
  intros H H1 H2. apply lex_step_iff in H1, H2. apply lex_step_iff.
  destruct H1 as [L1|[-> p]], H2 as [L2|[-> q]];
    [left; exact (N.lt_trans _ _ _ L2 L1)|left; exact L1|left; exact L2|right; split; [reflexivity|exact (H p q)]].
Qed.

Section Member.
  Context {C : Type}.
  Variable lt : Access C -> Access C -> bool.
  Implicit Types (m : MemberState C).

  (** [m1] wins against [m2]: larger member counter, then larger access counter, then the
      access that is [lt]-smaller (state.rs [merge]: "take the lower of the two access levels"). *)
  Definition beats m1 m2 : bool :=
    lex_step (member_counter m1) (member_counter m2)
      (lex_step (access_counter m1) (access_counter m2) (lt (access m1) (access m2))).

  Lemma member_eta m : mkMember (member_counter m) (access m) (access_counter m) = m.
  Proof. destruct m; reflexivity. Qed.

  Lemma merge_member_sel m1 m2 : merge_member_with lt m1 m2 = sel beats m1 m2.
  Proof.
    unfold merge_member_with, sel, beats, lex_step.
    destruct (N.ltb (member_counter m2) (member_counter m1)); cbv zeta; cbn [orb].
    - rewrite N.eqb_refl, N.ltb_irrefl, N.eqb_refl, member_eta. destruct (lt _ _); reflexivity.
    - destruct (N.eqb_spec (member_counter m1) (member_counter m2)) as [Ec|_]; cbn [andb]; [|reflexivity].
      destruct (N.ltb (access_counter m2) (access_counter m1)); cbn [member_counter access access_counter orb].
      + rewrite N.eqb_refl, <- Ec, member_eta. destruct (lt _ _); reflexivity.
      + destruct (N.eqb_spec (access_counter m1) (access_counter m2)) as [Ek|_]; cbn [andb]; [|reflexivity].
        rewrite <- Ec, <- Ek, member_eta. destruct (lt _ _); reflexivity.
  Qed.

  Lemma merge_member_idem m : merge_member_with lt m m = m.
  Proof. rewrite merge_member_sel. apply sel_idem. Qed.

  (** Two entries either tie on both counters, and then [lt] on their accesses decides; or they
      do not, and then the counters decide, whatever [lt] is. *)
  Lemma tie_or_not m1 m2 :
    (member_counter m1 = member_counter m2 /\ access_counter m1 = access_counter m2) \/
    (member_counter m1 <> member_counter m2 \/ access_counter m1 <> access_counter m2).
  Proof.
    destruct (N.eq_dec (member_counter m1) (member_counter m2)) as [Ec|Nc]; [|right; left; exact Nc].
    destruct (N.eq_dec (access_counter m1) (access_counter m2)) as [Ek|Nk]; [|right; right; exact Nk].
    left. split; assumption.
  Qed.

  Lemma beats_tie m1 m2 :
    member_counter m1 = member_counter m2 -> access_counter m1 = access_counter m2 ->
    beats m1 m2 = lt (access m1) (access m2).
  Proof. unfold beats. intros -> ->. rewrite !lex_step_tie. reflexivity. Qed.

  Lemma beats_no_tie m1 m2 :
    member_counter m1 <> member_counter m2 \/ access_counter m1 <> access_counter m2 ->
    beats m2 m1 = negb (beats m1 m2).
  Proof.
    intros [H|H]; apply lex_step_swap; [left; exact H|right; apply lex_step_swap; left; exact H].
  Qed.

  Lemma member_eq m1 m2 :
    member_counter m1 = member_counter m2 -> access_counter m1 = access_counter m2 ->
    access m1 = access m2 -> m1 = m2.
  Proof. intros Ec Ek Ea. rewrite <- (member_eta m1), Ec, Ek, Ea. apply member_eta. Qed.

  Variable dom : Access C -> Prop.
  Definition mdom m : Prop := dom (access m).

  Lemma merge_member_dom m1 m2 : mdom m1 -> mdom m2 -> mdom (merge_member_with lt m1 m2).
  Proof. rewrite merge_member_sel. apply sel_dom. Qed.

  (** the merge of [m1] and [m2] never asks [lt] about a pair of different accesses outside [dom] *)
  Definition decided_in m1 m2 : Prop :=
    member_counter m1 <> member_counter m2 \/ access_counter m1 <> access_counter m2 \/
    access m1 = access m2 \/ (mdom m1 /\ mdom m2).

  Hypothesis Hlt : strict_total_on lt dom.

  Lemma beats_strict_total : strict_total_on beats mdom.
  Proof.
    constructor.
    - intros m D. rewrite beats_tie by reflexivity. exact (sto_irrefl _ _ Hlt _ D).
    - intros m1 m2 D1 D2 H. destruct (tie_or_not m1 m2) as [[Ec Ek]|N].
      + rewrite beats_tie in * by congruence. exact (sto_asym _ _ Hlt _ _ D1 D2 H).
      + rewrite (beats_no_tie _ _ N), H. reflexivity.
    - intros m1 m2 m3 D1 D2 D3. apply lex_step_trans, lex_step_trans.
      exact (sto_trans _ _ Hlt _ _ _ D1 D2 D3).
    - intros m1 m2 D1 D2 H12 H21. destruct (tie_or_not m1 m2) as [[Ec Ek]|N].
      + rewrite beats_tie in * by congruence. apply (member_eq _ _ Ec Ek).
        exact (sto_total _ _ Hlt _ _ D1 D2 H12 H21).
      + rewrite (beats_no_tie _ _ N), H12 in H21. discriminate.
  Qed.

  Lemma merge_member_comm m1 m2 :
    decided_in m1 m2 -> merge_member_with lt m1 m2 = merge_member_with lt m2 m1.
  Proof.
    intros U. rewrite !merge_member_sel.
    destruct (tie_or_not m1 m2) as [[Ec Ek]|N]; [|apply sel_swap, beats_no_tie, N].
    destruct U as [U|[U|[Ea|[D1 D2]]]]; [contradiction..| |].
    - rewrite (member_eq _ _ Ec Ek Ea). reflexivity.
    - exact (sel_comm _ _ beats_strict_total _ _ D1 D2).
  Qed.

  Lemma merge_member_assoc m1 m2 m3 :
    mdom m1 -> mdom m2 -> mdom m3 ->
    merge_member_with lt (merge_member_with lt m1 m2) m3
    = merge_member_with lt m1 (merge_member_with lt m2 m3).
  Proof. rewrite !merge_member_sel. apply (sel_assoc _ _ beats_strict_total). Qed.
End Member.

Section Merge.
  Context {C : Type}.
  Variable lt : Access C -> Access C -> bool.
  Implicit Types (s : State C) (m : MemberState C).

  Definition merge_opt (o1 o2 : option (MemberState C)) : option (MemberState C) :=
    match o1, o2 with
    | Some m1, Some m2 => Some (merge_member_with lt m1 m2)
    | Some m1, None => Some m1
    | None, o => o
    end.

  (** the function [merge_with] folds, which the model leaves anonymous *)
  Definition merge_step (acc : State C) (km : N * MemberState C) : State C :=
    match lookup (fst km) acc with
    | Some ms => set (fst km) (merge_member_with lt (snd km) ms) acc
    | None => set (fst km) (snd km) acc
    end.

  Lemma merge_with_fold s1 s2 : merge_with lt s1 s2 = fold_left merge_step s1 s2.
  Proof. reflexivity. Qed.

  Lemma lookup_merge_step id acc k m :
    lookup id (merge_step acc (k, m)) =
    if N.eqb id k then merge_opt (Some m) (lookup k acc) else lookup id acc.
  Proof.
    unfold merge_step. cbn [fst snd].
    destruct (lookup k acc) as [ms|] eqn:E; rewrite lookup_set; destruct (N.eqb id k); reflexivity.
  Qed.

  Lemma wf_merge_step acc km : wf acc -> wf (merge_step acc km).
  Proof. intros H. unfold merge_step. destruct (lookup (fst km) acc); apply wf_set; exact H. Qed.

  (** Every key of the merged state is decided by that key alone, whatever the order in which
      [state_1]'s entries are visited.  Only [s1], the state iterated over, must have one entry
      per key; [s2] is only ever read through [lookup]. *)
  Theorem lookup_merge s1 s2 id :
    wf s1 -> lookup id (merge_with lt s1 s2) = merge_opt (lookup id s1) (lookup id s2).
  Proof.
    rewrite merge_with_fold. revert s2.
    induction s1 as [|[k m] r IH]; intros s2 Hwf; cbn [fold_left lookup]; [reflexivity|].
    apply NoDup_cons_iff in Hwf. destruct Hwf as [Hnin Hnd].
    rewrite (IH _ Hnd), lookup_merge_step.
    destruct (N.eqb id k) eqn:E; [|reflexivity].
    apply N.eqb_eq in E. subst id. rewrite (lookup_not_in k r Hnin). reflexivity.
  Qed.

  Theorem wf_merge s1 s2 : wf s2 -> wf (merge_with lt s1 s2).
  Proof.
    rewrite merge_with_fold. revert s2.
    induction s1 as [|km r IH]; intros s2 H; cbn [fold_left]; [exact H|].
    apply IH, wf_merge_step, H.
  Qed.

  Lemma merge_with_source s1 s2 id :
    lookup id (merge_with lt s1 s2) <> None -> lookup id s1 <> None \/ lookup id s2 <> None.
  Proof.
    rewrite merge_with_fold. intros H.
    apply (fold_left_source _ (fun s => lookup id s <> None) (fun km => id = fst km)) in H.
    - destruct H as [[km [Hin ->]]|H]; [left; apply in_keys_iff, in_map, Hin|right; exact H].
    - intros s km. unfold merge_step. destruct (lookup (fst km) s); rewrite lookup_set;
        destruct (N.eqb_spec id (fst km)); auto.
  Qed.

  Theorem merge_idem s id : wf s -> lookup id (merge_with lt s s) = lookup id s.
  Proof.
    intros H. rewrite (lookup_merge s s id H).
    destruct (lookup id s) as [m|]; cbn [merge_opt]; [|reflexivity].
    rewrite merge_member_idem. reflexivity.
  Qed.

  Variable dom : Access C -> Prop.
  Hypothesis Hlt : strict_total_on lt dom.

  Definition dom_at (id : N) s : Prop := forall m, lookup id s = Some m -> dom (access m).

  Theorem merge_comm_decided s1 s2 id :
    wf s1 -> wf s2 ->
    (forall m1 m2, lookup id s1 = Some m1 -> lookup id s2 = Some m2 -> decided_in dom m1 m2) ->
    lookup id (merge_with lt s1 s2) = lookup id (merge_with lt s2 s1).
  Proof.
    intros W1 W2 U. rewrite (lookup_merge s1 s2 id W1), (lookup_merge s2 s1 id W2).
    destruct (lookup id s1) as [m1|], (lookup id s2) as [m2|]; cbn [merge_opt]; try reflexivity.
    f_equal. apply (merge_member_comm lt dom Hlt), U; reflexivity.
  Qed.

  Theorem merge_comm_at s1 s2 id :
    wf s1 -> wf s2 -> dom_at id s1 -> dom_at id s2 ->
    lookup id (merge_with lt s1 s2) = lookup id (merge_with lt s2 s1).
  Proof.
    intros W1 W2 D1 D2. apply merge_comm_decided; [exact W1|exact W2|].
    intros m1 m2 E1 E2. right. right. right. split; [exact (D1 _ E1)|exact (D2 _ E2)].
  Qed.

  Theorem merge_assoc_at s1 s2 s3 id :
    wf s1 -> wf s2 -> dom_at id s1 -> dom_at id s2 -> dom_at id s3 ->
    lookup id (merge_with lt (merge_with lt s1 s2) s3)
    = lookup id (merge_with lt s1 (merge_with lt s2 s3)).
  Proof.
    intros W1 W2 D1 D2 D3.
    rewrite (lookup_merge (merge_with lt s1 s2) s3 id (wf_merge s1 s2 W2)).
    rewrite (lookup_merge s1 s2 id W1).
    rewrite (lookup_merge s1 (merge_with lt s2 s3) id W1).
    rewrite (lookup_merge s2 s3 id W2).
    destruct (lookup id s1) as [m1|] eqn:E1; destruct (lookup id s2) as [m2|] eqn:E2;
      destruct (lookup id s3) as [m3|] eqn:E3; cbn [merge_opt]; try reflexivity.
    f_equal. apply (merge_member_assoc lt dom Hlt); [apply D1|apply D2|apply D3]; assumption.
  Qed.
End Merge.

Definition TotalAccess {C} (lt : Access C -> Access C -> bool) : Prop :=
  strict_total_on lt (fun _ => True).

(** [TotalAccess] is satisfiable. *)
Definition lex_lt (a b : Access N) : bool :=
  match level_cmp (level a) (level b) with
  | Lt => true
  | Gt => false
  | Eq =>
      match conditions a, conditions b with
      | Some x, Some y => N.ltb x y
      | Some _, None => true
      | None, _ => false
      end
  end.

Lemma level_N_inj a b : level_N a = level_N b -> a = b.
Proof. destruct a, b; cbn; intros H; try reflexivity; discriminate. Qed.

Lemma ltb_strict_total : strict_total_on N.ltb (fun _ => True).
Proof.
  constructor.
  - intros a _. apply N.ltb_irrefl.
  - intros a b _ _ H. apply N.ltb_lt in H. apply N.ltb_ge, N.lt_le_incl, H.
  - intros a b c _ _ _ H1 H2. apply N.ltb_lt in H1, H2. apply N.ltb_lt. exact (N.lt_trans _ _ _ H1 H2).
  - intros a b _ _ H1 H2. apply N.ltb_ge in H1, H2. exact (N.le_antisymm _ _ H2 H1).
Qed.

Example lex_lt_total : TotalAccess lex_lt.
Proof.
  constructor.
  - intros [c l] _. unfold lex_lt, level_cmp. cbn [level conditions]. rewrite N.compare_refl.
    destruct c; [apply N.ltb_irrefl|reflexivity].
  - intros [c1 l1] [c2 l2] _ _. unfold lex_lt, level_cmp. cbn [level conditions].
    rewrite (N.compare_antisym (level_N l1) (level_N l2)).
    destruct (level_N l1 ?= level_N l2)%N; cbn [CompOpp]; try discriminate; try reflexivity.
    destruct c1 as [x|], c2 as [y|]; try discriminate; try reflexivity.
    exact (sto_asym _ _ ltb_strict_total x y I I).
  - (* [N.lt n m] is [(n ?= m) = Lt] *)
    intros [c1 l1] [c2 l2] [c3 l3] _ _ _. unfold lex_lt, level_cmp. cbn [level conditions].
    destruct (level_N l1 ?= level_N l2)%N eqn:C12; try discriminate;
      destruct (level_N l2 ?= level_N l3)%N eqn:C23; try discriminate.
    + apply N.compare_eq in C12. rewrite C12, C23.
      destruct c1 as [x|], c2 as [y|], c3 as [z|]; try discriminate; try reflexivity.
      exact (sto_trans _ _ ltb_strict_total x y z I I I).
    + apply N.compare_eq in C12. rewrite C12, C23. reflexivity.
    + apply N.compare_eq in C23. rewrite <- C23, C12. reflexivity.
    + rewrite (N.lt_trans _ _ _ C12 C23). reflexivity.
  - intros [c1 l1] [c2 l2] _ _. unfold lex_lt, level_cmp. cbn [level conditions].
    rewrite (N.compare_antisym (level_N l1) (level_N l2)).
    destruct (level_N l1 ?= level_N l2)%N eqn:E; cbn [CompOpp]; try discriminate.
    apply N.compare_eq, level_N_inj in E. subst l2.
    destruct c1 as [x|], c2 as [y|]; try discriminate; try reflexivity.
    intros H1 H2. rewrite (sto_total _ _ ltb_strict_total x y I I H1 H2). reflexivity.
Qed.

Definition no_cond {C} (a : Access C) : Prop := conditions a = None.

Lemma access_lt_nocond {C} (ccmp : C -> C -> option comparison) (a b : Access C) :
  no_cond a -> no_cond b ->
  access_lt ccmp a b = N.ltb (level_N (level a)) (level_N (level b)).
Proof.
  unfold no_cond, access_lt, access_partial_cmp, level_cmp. intros -> ->.
  unfold N.ltb. destruct (level_N (level a) ?= level_N (level b))%N; reflexivity.
Qed.

Lemma real_lt_strict_total_nocond {C} (ccmp : C -> C -> option comparison) :
  strict_total_on (access_lt ccmp) no_cond.
Proof.
  constructor.
  - intros a Da. rewrite access_lt_nocond by assumption. apply N.ltb_irrefl.
  - intros a b Da Db. rewrite !access_lt_nocond by assumption.
    exact (sto_asym _ _ ltb_strict_total _ _ I I).
  - intros a b c Da Db Dc. rewrite !access_lt_nocond by assumption.
    exact (sto_trans _ _ ltb_strict_total _ _ _ I I I).
  - intros [ca la] [cb lb] Da Db. rewrite !access_lt_nocond by assumption. intros H1 H2.
    unfold no_cond in Da, Db. cbn [conditions level] in *. subst ca cb.
    rewrite (level_N_inj la lb (sto_total _ _ ltb_strict_total _ _ I I H1 H2)). reflexivity.
Qed.

Definition nocond_at {C} (id : N) (s : State C) : Prop := dom_at no_cond id s.

(** Example: the hypotheses of the no-conditions theorems are satisfiable by states in which
    the tie-break is actually exercised (same counters, different levels). *)
Example nocond_example :
  let s1 : State N := [(0%N, mkMember 1 (mkAccess None Write) 0); (1%N, mkMember 2 (mkAccess None Read) 1)] in
  let s2 : State N := [(0%N, mkMember 1 (mkAccess None Read) 0)] in
  wf s1 /\ wf s2 /\ nocond_at 0 s1 /\ nocond_at 0 s2 /\
  lookup 0%N (merge ncmp s1 s2) = Some (mkMember 1 (mkAccess None Read) 0) /\
  lookup 0%N (merge ncmp s2 s1) = Some (mkMember 1 (mkAccess None Read) 0).
Proof.
  cbv zeta. repeat apply conj.
  - constructor; [intros [E|[]]; discriminate E|apply wf_singleton].
  - apply wf_singleton.
  - intros m H. injection H as <-. reflexivity.
  - intros m H. injection H as <-. reflexivity.
  - reflexivity.
  - reflexivity.
Qed.

(** (no conditions, Write) and (Some 7, Write) are different and neither is below the other;
    (Some 5, Read) and (Some 3, Write) are each below the other. *)
Lemma real_lt_not_total : ~ TotalAccess (access_lt ncmp).
Proof.
  intros H.
  pose (a := mkAccess (@None N) Write). pose (b := mkAccess (Some 7%N) Write).
  assert (E : a = b) by (apply (sto_total _ _ H a b I I); reflexivity).
  discriminate E.
Qed.

Lemma real_lt_not_asym :
  access_lt ncmp (mkAccess (Some 5%N) Read) (mkAccess (Some 3%N) Write) = true /\
  access_lt ncmp (mkAccess (Some 3%N) Write) (mkAccess (Some 5%N) Read) = true.
Proof. split; reflexivity. Qed.

Definition wit_mixed_1 : State N := [(0%N, mkMember 1 (mkAccess None Write) 0)].
Definition wit_mixed_2 : State N := [(0%N, mkMember 1 (mkAccess (Some 7%N) Write) 0)].
Definition wit_some_1 : State N := [(0%N, mkMember 1 (mkAccess (Some 5%N) Read) 0)].
Definition wit_some_2 : State N := [(0%N, mkMember 1 (mkAccess (Some 3%N) Write) 0)].

Lemma merge_not_comm_some :
  lookup 0%N (merge ncmp wit_some_1 wit_some_2) <> lookup 0%N (merge ncmp wit_some_2 wit_some_1).
Proof. vm_compute. discriminate. Qed.

Theorem merge_refuted_conditions :
  exists (s1 s2 : State N) (id : N),
    wf s1 /\ wf s2 /\ lookup id (merge ncmp s1 s2) <> lookup id (merge ncmp s2 s1).
Proof.
  exists wit_mixed_1, wit_mixed_2, 0%N.
  split; [apply wf_singleton|]. split; [apply wf_singleton|]. vm_compute. discriminate.
Qed.

(** associativity fails as well, with conditions present everywhere (totally ordered [N]):
    (Some 5,Read), (Some 3,Write), (Some 4,Read) *)
Definition wit_some_3 : State N := [(0%N, mkMember 1 (mkAccess (Some 4%N) Read) 0)].

Theorem merge_assoc_refuted_conditions :
  exists (s1 s2 s3 : State N) (id : N),
    wf s1 /\ wf s2 /\ wf s3 /\
    lookup id (merge ncmp (merge ncmp s1 s2) s3) <> lookup id (merge ncmp s1 (merge ncmp s2 s3)).
Proof.
  exists wit_some_1, wit_some_2, wit_some_3, 0%N.
  split; [apply wf_singleton|]. split; [apply wf_singleton|]. split; [apply wf_singleton|].
  vm_compute. discriminate.
Qed.

(** [unambiguous m1 m2]: the two entries do not tie on both counters, or carry the same access, or
    neither carries conditions: [decided_in no_cond], written out.  Its negation - a tie on both
    counters between two different accesses at least one of which carries conditions - is what
    [known()] in vlib/props/c32.py files under the finding [merge_noncommutative_with_conditions]. *)
Definition unambiguous {C} (m1 m2 : MemberState C) : Prop :=
  member_counter m1 <> member_counter m2 \/ access_counter m1 <> access_counter m2 \/
  access m1 = access m2 \/ (no_cond (access m1) /\ no_cond (access m2)).

Theorem merge_comm_outside_known {C} (ccmp : C -> C -> option comparison) (s1 s2 : State C) id :
  wf s1 -> wf s2 ->
  (forall m1 m2, lookup id s1 = Some m1 -> lookup id s2 = Some m2 -> unambiguous m1 m2) ->
  lookup id (merge ccmp s1 s2) = lookup id (merge ccmp s2 s1).
Proof. exact (merge_comm_decided _ _ (real_lt_strict_total_nocond ccmp) s1 s2 id). Qed.
