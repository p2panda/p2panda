(** Safety of the causal orderer model: an item is released only after some delivered dependency
    list of it has been released entirely (for every delivery sequence, every interleaving of
    [next] calls, every HashSet iteration order, any fuel). *)
From Coq Require Import List NArith Lia.
From PV Require Import Model.Orderer Proofs.OrdererBase.
Import ListNotations.

(** The invariants speak of what has been delivered ([del]) and released ([rel]) so far.
    [just]: some delivered dependency list of the row's id has every member in the table, released
    already or still queued with a smaller index -- the queue order respects the dependencies.
    [InvP]: a pending row stands for a delivered list [ds] of its child: the digest is that of [ds],
    parent and key ([p_id]) belong to [ds], and the rows of the key for that child list all of [ds].
    That the key belongs to the list is what bounds the recursion depth (OrdererLive.pp_no_oof). *)
Definition just (del : list entry) (rel : list id) (t : list rrow) (r : rrow) : Prop :=
  exists ds, In (r_id r, ds) del /\
    forall d, In d ds ->
      exists rd, In rd t /\ r_id rd = d /\ (In d rel \/ (r_inq rd = true /\ (r_idx rd < r_idx r)%N)).

Definition InvR (del : list entry) (rel : list id) (s : store) : Prop :=
  PK s /\
  (forall r, In r (ready_tbl s) -> just del rel (ready_tbl s) r) /\
  (forall r, In r (ready_tbl s) -> r_inq r = false -> In (r_id r) rel).

Definition InvP (del : list entry) (s : store) : Prop :=
  forall row, In row (pending_tbl s) ->
    exists ds, In (p_child row, ds) del /\ p_dig row = (p_child row, sortN ds) /\
               In (p_parent row) ds /\ In (p_id row) ds /\
               forall p, In p ds -> In (mkP (p_id row) (p_child row) p (p_dig row)) (pending_tbl s).

Lemma InvR_ext del rel s s' : ready_tbl s' = ready_tbl s -> InvR del rel s -> InvR del rel s'.
Proof. unfold InvR, PK, ids. intros E. rewrite E. auto. Qed.

Lemma InvP_ext del s s' : pending_tbl s' = pending_tbl s -> InvP del s -> InvP del s'.
Proof. unfold InvP. intros E. rewrite E. auto. Qed.

(** Every operation on the ready table carries each row over unchanged, or else its id has been
    released; a row's justification survives that. *)
Definition carried (rel : list id) (t t' : list rrow) : Prop :=
  forall r, In r t -> exists r', In r' t' /\ r_id r' = r_id r /\ (r' = r \/ In (r_id r) rel).

Lemma just_carried del del' rel rel' t t' r r' :
  incl del del' -> incl rel rel' -> carried rel' t t' -> r_id r' = r_id r -> r_idx r' = r_idx r ->
  just del rel t r -> just del' rel' t' r'.
Proof.
  unfold just. intros Hd Hr Hc -> -> [ds [Hds Hall]]. exists ds. split; [apply Hd, Hds|]. intros d Hdin.
  destruct (Hall d Hdin) as [rd [Hrd [<- C]]]. destruct (Hc rd Hrd) as [rd' [Hrd' [Eid Hc']]].
  exists rd'. split; [exact Hrd'|]. split; [exact Eid|].
  destruct C as [C|C]; [left; apply Hr, C|]. destruct Hc' as [-> | Hc']; auto.
Qed.

Definition can_mark (del : list entry) (s : store) (x : id) : Prop :=
  exists ds, In (x, ds) del /\ forall d, In d ds -> is_ready s d = true.

(** the fresh row of [x] comes after every row in the queue *)
Lemma just_fresh del rel s x :
  InvR del rel s -> can_mark del s x ->
  just del rel (ready_tbl s) (mkR x (max_idx (ready_tbl s) + 1) true).
Proof.
  intros [_ [_ H3]] [ds [Hds Hall]]. exists ds. split; [exact Hds|]. intros d Hd.
  apply Hall, is_ready_row in Hd. destruct Hd as [rd [Hrd Ed]]. exists rd. split; [exact Hrd|].
  split; [exact Ed|]. destruct (r_inq rd) eqn:Eq.
  - right. split; [reflexivity|]. pose proof (max_idx_ge _ _ Hrd). cbn [r_idx]. lia.
  - left. subst d. exact (H3 rd Hrd Eq).
Qed.

Lemma InvR_mark_ready del rel s x :
  InvR del rel s -> can_mark del s x -> InvR del rel (mark_ready s x).
Proof.
  intros HI Hx. pose proof (just_fresh del rel s x HI Hx) as Hfresh.
  destruct HI as [Hpk [Hj H3]]. destruct (mark_ready_rows s x) as [Hnew Hold].
  assert (Hc : carried rel (ready_tbl s) (ready_tbl (mark_ready s x))).
  { intros r Hr. destruct (Hold r Hr) as [Hr'|[Ex [Hrx [r0 [Hr0 [Ex0 Eq0]]]]]].
    - exists r. auto.
    - eexists. split; [exact Hrx|]. split; [symmetry; exact Ex|]. right. rewrite Ex, <- Ex0. exact (H3 r0 Hr0 Eq0). }
  split; [apply mark_ready_PK, Hpk|]. split.
  - intros r' Hr'. apply (just_carried del del rel rel (ready_tbl s) _ r'); auto using incl_refl.
    destruct (Hnew r' Hr') as [Hr| ->]; [apply Hj, Hr | exact Hfresh].
  - intros r' Hr' Hq. destruct (Hnew r' Hr') as [Hr| ->]; [exact (H3 r' Hr Hq) | discriminate].
Qed.

Lemma InvR_take del rel s s' x :
  InvR del rel s -> take_next_ready s = (s', Some x) ->
  InvR del (rel ++ [x]) s' /\ exists ds, In (x, ds) del /\ forall d, In d ds -> In d rel.
Proof.
  intros [Hpk [Hj H3]] E. pose proof (fun r' => take_out_of_queue s s' x r' E) as Hout.
  apply take_Some in E. destruct E as [-> [m [Hm [Ex [Hmq Hmin]]]]].
  assert (Hrel : incl rel (rel ++ [x])) by (apply incl_appl, incl_refl).
  assert (Hx : In x (rel ++ [x])) by apply in_elt.
  split; [split; [|split]|]; cbn [ready_tbl set_ready].
  - unfold PK. rewrite ids_map; [exact Hpk | intros; apply dequeue_id].
  - intros r' Hr'. apply in_map_iff in Hr'. destruct Hr' as [r [<- Hr]].
    apply (just_carried del del rel _ (ready_tbl s) _ r);
      auto using incl_refl, dequeue_id, dequeue_idx.
    intros a Ha. exists (dequeue x a). split; [apply in_map, Ha|]. split; [apply dequeue_id|].
    unfold dequeue. destruct (N.eqb (r_id a) x) eqn:Ea; [right | left; reflexivity].
    apply N.eqb_eq in Ea. rewrite Ea. exact Hx.
  - intros r' Hr' Hq. destruct (Hout r' Hr' Hq) as [->|[r [Hr [<- Hrq]]]]; [exact Hx|].
    apply Hrel. exact (H3 r Hr Hrq).
  - (* whatever the head of the queue waits for cannot be queued before it *)
    destruct (Hj m Hm) as [ds [Hds Hall]]. rewrite Ex in Hds. exists ds. split; [exact Hds|].
    intros d Hd. destruct (Hall d Hd) as [rd [Hrd [_ [C|[Cq Ci]]]]]; [exact C|].
    specialize (Hmin rd Hrd Cq). lia.
Qed.

Lemma InvP_mark_pending del s c ps :
  In (c, ps) del -> InvP del s -> InvP del (mark_pending s c ps).
Proof.
  intros Hc H row Hrow. apply mark_pending_In in Hrow. destruct Hrow as [Hrow|[i [p [Hi [Hr [Hp E]]]]]].
  - destruct (H row Hrow) as [ds [A [B [C [D F]]]]]. exists ds. repeat (split; [assumption|]).
    intros p Hp. apply mark_pending_In. left. apply F. exact Hp.
  - subst row. cbn [p_child p_dig p_parent p_id]. exists ps. repeat (split; [assumption || reflexivity|]).
    intros p' Hp'. apply mark_pending_In. right. exists i, p'. auto.
Qed.

Lemma InvP_remove_pending del s k : InvP del s -> InvP del (remove_pending s k).
Proof.
  intros H row Hrow. apply remove_pending_In in Hrow. destruct Hrow as [Hrow Hk].
  destruct (H row Hrow) as [ds [A [B [C [D F]]]]]. exists ds. repeat (split; [assumption|]).
  intros p Hp. apply remove_pending_In. cbn [p_id]. split; [apply F; exact Hp | exact Hk].
Qed.

Lemma InvP_group del s row ds :
  InvP del s -> p_dig row = (p_child row, sortN ds) ->
  (forall p, In p ds -> In (mkP (p_id row) (p_child row) p (p_dig row)) (pending_tbl s)) ->
  forall p, In p (group_parents (pending_tbl s) (p_child row) (p_dig row)) <-> In p ds.
Proof.
  intros HP B F p. rewrite group_parents_In. split.
  - intros [row' [Hrow' [Ec [Ed Ep]]]]. destruct (HP row' Hrow') as [ds' [_ [B' [C' _]]]].
    rewrite Ed, B, Ec in B'. injection B' as Es. subst p.
    apply sortN_In. rewrite Es. apply sortN_In. exact C'.
  - intros Hp. eexists. split; [exact (F p Hp)|]. auto.
Qed.

Definition good (del : list entry) (e : entry) : Prop :=
  exists ds, In (fst e, ds) del /\ forall p, In p (snd e) <-> In p ds.

Lemma good_self del x ds : In (x, ds) del -> good del (x, ds).
Proof. intros H. exists ds. split; [exact H | reflexivity]. Qed.

Lemma gnp_good del s k es e :
  InvP del s -> get_next_pending s k = Some es -> In e es -> good del e /\ In k (snd e).
Proof.
  intros HP Hg He. apply (gnp_Some_In s k es e Hg) in He.
  destruct He as [row [Hrow [<- ->]]]. destruct (HP row Hrow) as [ds [A [B [C [D F]]]]].
  pose proof (InvP_group del s row ds HP B F) as G.
  split; [exists ds; split; [exact A | exact G] | apply G, D].
Qed.

Section Safety.
Variable perm : perm_t.
Hypothesis perm_incl : forall n l e, In e (perm n l) -> In e l.
Variables (del : list entry) (rel : list id).

Definition Inv (s : store) : Prop := InvR del rel s /\ InvP del s.

Lemma Inv_ext s s' : ready_tbl s' = ready_tbl s -> pending_tbl s' = pending_tbl s -> Inv s -> Inv s'.
Proof. intros Er Ep [A B]. split; [exact (InvR_ext _ _ s s' Er A) | exact (InvP_ext _ s s' Ep B)]. Qed.

Lemma Inv_mark_good s e : Inv s -> good del e -> ready s (snd e) = true -> Inv (mark_ready s (fst e)).
Proof.
  intros [A B] [ds [Hds Heq]] Hr. split; [|exact (InvP_ext _ s _ (mark_ready_pending s _) B)].
  apply InvR_mark_ready; [exact A|]. exists ds. split; [exact Hds|].
  intros d Hd. apply (proj1 (ready_spec s (snd e) (proj1 A)) Hr), Heq, Hd.
Qed.

Lemma Inv_remove_pending s k : Inv s -> Inv (remove_pending s k).
Proof.
  intros [A B]. split; [exact (InvR_ext _ _ s _ eq_refl A) | apply InvP_remove_pending; exact B].
Qed.

Definition pp_body (f : nat) (st : store) (e : entry) : store :=
  if ready st (snd e) then process_pending perm f (mark_ready st (fst e)) (fst e) else st.

Lemma pp_unfold f s key :
  process_pending perm (S f) s key =
  match get_next_pending s key with
  | None => s
  | Some es => remove_pending (fold_left (pp_body f) (perm (tick s) es) (bump s (length es))) key
  end.
Proof. reflexivity. Qed.

Lemma pp_Inv : forall f s k, Inv s -> Inv (process_pending perm f s k).
Proof.
  induction f as [|f IH]; intros s k HI.
  - exact (Inv_ext s (set_oof s) eq_refl eq_refl HI).
  - rewrite pp_unfold. destruct (get_next_pending s k) as [es|] eqn:Eg; [|exact HI].
    apply Inv_remove_pending. apply fold_left_inv; [|exact (Inv_ext s (bump s _) eq_refl eq_refl HI)].
    intros st e He Hst. unfold pp_body. destruct (ready st (snd e)) eqn:Er; [|exact Hst].
    apply IH, Inv_mark_good; [exact Hst | | exact Er].
    exact (proj1 (gnp_good del s k es e (proj2 HI) Eg (perm_incl _ _ _ He))).
Qed.

End Safety.

Lemma Inv_mono del rel del' rel' s : incl del del' -> incl rel rel' -> Inv del rel s -> Inv del' rel' s.
Proof.
  intros Hd Hr [[Hpk [Hj H3]] HP]. split; [split; [exact Hpk|]; split|].
  - intros r Hin. apply (just_carried del del' rel rel' (ready_tbl s) _ r); auto.
    intros r0 Hr0. exists r0. auto.
  - intros r Hin Hq. apply Hr. exact (H3 r Hin Hq).
  - intros row Hrow. destruct (HP row Hrow) as [ds [A B]]. exists ds. split; [apply Hd, A | exact B].
Qed.

Definition safe_trace (tr : list event) : Prop :=
  forall pre x post, tr = pre ++ ERel x :: post ->
    exists ds, In (EDel x ds) pre /\ forall d, In d ds -> In (ERel d) pre.

Lemma dels_In tr x ds : In (x, ds) (dels tr) <-> In (EDel x ds) tr.
Proof.
  unfold dels. rewrite in_flat_map. split.
  - intros [[x' ds'|x'] [He Hin]]; [|destruct Hin]. destruct Hin as [[= -> ->]|[]]. exact He.
  - intros H. exists (EDel x ds). split; [exact H | left; reflexivity].
Qed.

Lemma rels_In tr x : In x (rels tr) <-> In (ERel x) tr.
Proof.
  unfold rels. rewrite in_flat_map. split.
  - intros [[x' ds'|x'] [He Hin]]; [destruct Hin|]. destruct Hin as [->|[]]. exact He.
  - intros H. exists (ERel x). split; [exact H | left; reflexivity].
Qed.

Lemma dels_app a b : dels (a ++ b) = dels a ++ dels b.
Proof. unfold dels. apply flat_map_app. Qed.
Lemma rels_app a b : rels (a ++ b) = rels a ++ rels b.
Proof. unfold rels. apply flat_map_app. Qed.

Lemma dels_snoc_del tr x ds : dels (tr ++ [EDel x ds]) = dels tr ++ [(x, ds)].
Proof. apply dels_app. Qed.
Lemma rels_snoc_del tr x ds : rels (tr ++ [EDel x ds]) = rels tr.
Proof. rewrite rels_app. apply app_nil_r. Qed.
Lemma dels_snoc_rel tr x : dels (tr ++ [ERel x]) = dels tr.
Proof. rewrite dels_app. apply app_nil_r. Qed.
Lemma rels_snoc_rel tr x : rels (tr ++ [ERel x]) = rels tr ++ [x].
Proof. apply rels_app. Qed.

Lemma safe_snoc tr e :
  safe_trace tr ->
  (forall x, e = ERel x -> exists ds, In (EDel x ds) tr /\ forall d, In d ds -> In (ERel d) tr) ->
  safe_trace (tr ++ [e]).
Proof.
  intros H He pre y post E. destruct post as [|a post _] using rev_ind.
  - apply app_inj_tail in E. destruct E as [<- ->]. apply He. reflexivity.
  - rewrite app_comm_cons, app_assoc in E. apply app_inj_tail in E. exact (H pre y post (proj1 E)).
Qed.

Lemma safe_snoc_del tr x ds : safe_trace tr -> safe_trace (tr ++ [EDel x ds]).
Proof. intros H. apply safe_snoc; [exact H | discriminate]. Qed.

Lemma safe_snoc_rel tr x :
  safe_trace tr -> (exists ds, In (EDel x ds) tr /\ forall d, In d ds -> In (ERel d) tr) ->
  safe_trace (tr ++ [ERel x]).
Proof. intros H Hx. apply safe_snoc; [exact H | intros y [= <-]; exact Hx]. Qed.

Lemma safe_nil : safe_trace [].
Proof. intros pre x post E. destruct pre; discriminate. Qed.

(** A property of (trace so far, store) holds along a run as soon as a delivery and a single
    successful [take_next_ready] keep it: [Next] and [Drain] are made of those. *)
Section RunInvariant.
Variables (perm : perm_t) (fuel : nat) (P : list event -> store -> Prop).
Hypothesis Hdel : forall tr s x ds, P tr s -> P (tr ++ [EDel x ds]) (process perm fuel s x ds).
Hypothesis Hrel : forall tr s s' x, P tr s -> take_next_ready s = (s', Some x) -> P (tr ++ [ERel x]) s'.

Lemma next_invariant tr s :
  P tr s -> P (tr ++ out_events (ONext (snd (take_next_ready s)))) (fst (take_next_ready s)).
Proof.
  intros H. destruct (take_next_ready s) as [s' [x|]] eqn:E; cbn [fst snd out_events].
  - exact (Hrel tr s s' x H E).
  - apply take_None in E. rewrite (proj1 E), app_nil_r. exact H.
Qed.

Lemma drain_invariant : forall n tr s,
  P tr s -> P (tr ++ map ERel (snd (drain n s))) (fst (drain n s)).
Proof.
  induction n as [|n IH]; intros tr s H; cbn [drain].
  - cbn [fst snd map]. rewrite app_nil_r. exact H.
  - pose proof (next_invariant tr s H) as Ht.
    destruct (take_next_ready s) as [s' [x|]]; cbn [fst snd out_events] in Ht; [|exact Ht].
    specialize (IH _ _ Ht). destruct (drain n s') as [s'' l]. cbn [fst snd map] in *.
    rewrite <- app_assoc in IH. exact IH.
Qed.

Lemma step_invariant tr s o :
  P tr s -> P (tr ++ events_of [o] (snd (step perm fuel s o))) (fst (step perm fuel s o)).
Proof.
  intros H. destruct o as [x ds| |]; cbn [step].
  - exact (Hdel tr s x ds H).
  - pose proof (next_invariant tr s H) as Ht. destruct (take_next_ready s) as [s' r].
    cbn [fst snd events_of] in *. rewrite app_nil_r. exact Ht.
  - pose proof (drain_invariant (S (length (ready_tbl s))) tr s H) as Ht.
    destruct (drain _ s) as [s' l]. cbn [fst snd events_of out_events] in *. rewrite app_nil_r. exact Ht.
Qed.

Lemma run_cons o ops s :
  fst (run perm fuel s (o :: ops)) = fst (run perm fuel (fst (step perm fuel s o)) ops) /\
  events_of (o :: ops) (snd (run perm fuel s (o :: ops))) =
  events_of [o] (snd (step perm fuel s o)) ++ events_of ops (snd (run perm fuel (fst (step perm fuel s o)) ops)).
Proof.
  cbn [run]. destruct o as [x ds| |]; cbn [step].
  - destruct (run perm fuel _ ops) as [s2 o2]. auto.
  - destruct (take_next_ready s) as [s' r]. cbn [fst snd]. destruct (run perm fuel s' ops) as [s2 o2].
    cbn [fst snd app events_of]. rewrite app_nil_r. auto.
  - destruct (drain _ s) as [s' l]. cbn [fst snd]. destruct (run perm fuel s' ops) as [s2 o2].
    cbn [fst snd app events_of]. rewrite app_nil_r. auto.
Qed.

Lemma run_invariant : forall ops tr s,
  P tr s -> P (tr ++ events_of ops (snd (run perm fuel s ops))) (fst (run perm fuel s ops)).
Proof.
  induction ops as [|o ops IH]; intros tr s H.
  - cbn [run events_of fst snd]. rewrite app_nil_r. exact H.
  - destruct (run_cons o ops s) as [-> ->]. rewrite app_assoc. apply IH, step_invariant, H.
Qed.

End RunInvariant.

Definition InvT (tr : list event) (s : store) : Prop :=
  InvR (dels tr) (rels tr) s /\ InvP (dels tr) s.

Lemma InvT_empty : InvT [] empty.
Proof.
  split.
  - split; [constructor|]. split; intros r [].
  - intros row [].
Qed.

Lemma InvT_deliver tr s x ds :
  InvT tr s -> let del' := dels tr ++ [(x, ds)] in In (x, ds) del' /\ Inv del' (rels tr) s.
Proof.
  intros H. split; [apply in_elt|].
  apply (Inv_mono (dels tr) (rels tr)); [apply incl_appl| |exact H]; apply incl_refl.
Qed.

Lemma take_InvT tr s s' x :
  InvT tr s -> take_next_ready s = (s', Some x) ->
  InvT (tr ++ [ERel x]) s' /\ exists ds, In (EDel x ds) tr /\ forall d, In d ds -> In (ERel d) tr.
Proof.
  intros [HR HP] E. unfold InvT. rewrite dels_snoc_rel, rels_snoc_rel.
  destruct (InvR_take _ _ s s' x HR E) as [HR' [ds [Hds Hall]]]. split.
  - split; [exact HR'|]. apply (InvP_ext _ s); [|exact HP].
    rewrite <- (take_pending s), E. reflexivity.
  - exists ds. split; [apply dels_In, Hds|]. intros d Hd. apply rels_In, Hall, Hd.
Qed.

Section Run.
Variable perm : perm_t.
Hypothesis perm_incl : forall n l e, In e (perm n l) -> In e l.
Variable fuel : nat.

Lemma process_InvT tr s x ds :
  InvT tr s -> InvT (tr ++ [EDel x ds]) (process perm fuel s x ds).
Proof.
  intros H. destruct (InvT_deliver tr s x ds H) as [Hin HI].
  unfold InvT. rewrite dels_snoc_del, rels_snoc_del. unfold process. destruct (ready s ds) eqn:Er.
  - exact (pp_Inv perm perm_incl _ _ fuel _ x (Inv_mark_good _ _ s (x, ds) HI (good_self _ x ds Hin) Er)).
  - destruct HI as [HR HP]. split; [exact (InvR_ext _ _ s _ eq_refl HR) | apply InvP_mark_pending; assumption].
Qed.

Lemma run_invariant_InvT (P : list event -> store -> Prop) :
  (forall tr s x ds, InvT tr s -> P tr s -> P (tr ++ [EDel x ds]) (process perm fuel s x ds)) ->
  (forall tr s s' x, InvT tr s -> P tr s -> take_next_ready s = (s', Some x) -> P (tr ++ [ERel x]) s') ->
  forall ops tr s, InvT tr s -> P tr s ->
    InvT (tr ++ events_of ops (snd (run perm fuel s ops))) (fst (run perm fuel s ops)) /\
    P (tr ++ events_of ops (snd (run perm fuel s ops))) (fst (run perm fuel s ops)).
Proof.
  intros Hdel Hrel ops tr s HT HP.
  apply (run_invariant perm fuel (fun tr s => InvT tr s /\ P tr s)); [| |auto].
  - intros tr' s' x ds [HT' HP']. split; [apply process_InvT, HT' | apply Hdel; assumption].
  - intros tr' s1 s2 x [HT' HP'] E. split; [exact (proj1 (take_InvT tr' s1 s2 x HT' E)) | exact (Hrel _ _ _ _ HT' HP' E)].
Qed.

Lemma run_InvT : forall ops tr s,
  InvT tr s -> safe_trace tr ->
  InvT (tr ++ events_of ops (snd (run perm fuel s ops))) (fst (run perm fuel s ops)) /\
  safe_trace (tr ++ events_of ops (snd (run perm fuel s ops))).
Proof.
  intros ops. apply (run_invariant_InvT (fun tr _ => safe_trace tr)).
  - intros tr s x ds _ Hs. apply safe_snoc_del, Hs.
  - intros tr s s' x HT Hs E. apply safe_snoc_rel; [exact Hs | exact (proj2 (take_InvT tr s s' x HT E))].
Qed.

Theorem release_after_deps : forall ops,
  safe_trace (events_of ops (snd (run perm fuel empty ops))).
Proof. intros ops. exact (proj2 (run_InvT ops [] empty InvT_empty safe_nil)). Qed.

Lemma run_InvT_empty ops :
  InvT (events_of ops (snd (run perm fuel empty ops))) (fst (run perm fuel empty ops)).
Proof. exact (proj1 (run_InvT ops [] empty InvT_empty safe_nil)). Qed.

End Run.
