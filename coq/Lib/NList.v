(** Lists indexed by binary naturals ([N]), so that models can carry u32/u64/usize indices
    without ever converting a large machine number to unary [nat] (which [vm_compute] cannot
    evaluate).  All functions are structurally recursive on the list. *)
From Coq Require Import List NArith Lia.
Import ListNotations.
Local Open Scope N_scope.

Fixpoint nthN {A} (l : list A) (n : N) : option A :=
  match l with
  | [] => None
  | x :: r => if n =? 0 then Some x else nthN r (N.pred n)
  end.

(** [VecDeque::truncate(n)]: keep the first [n] elements. *)
Fixpoint truncN {A} (n : N) (l : list A) : list A :=
  match l with
  | [] => []
  | x :: r => if n =? 0 then [] else x :: truncN (N.pred n) r
  end.

Fixpoint setN {A} (l : list A) (n : N) (v : A) : list A :=
  match l with
  | [] => []
  | x :: r => if n =? 0 then v :: r else x :: setN r (N.pred n) v
  end.

Definition lenN {A} (l : list A) : N := N.of_nat (length l).

Lemma lenN_cons {A} (x : A) l : lenN (x :: l) = N.succ (lenN l).
Proof. unfold lenN. cbn [length]. apply Nat2N.inj_succ. Qed.

Lemma nthN_cons_succ {A} (x : A) l n : nthN (x :: l) (N.succ n) = nthN l n.
Proof.
  cbn [nthN]. destruct (N.eqb_spec (N.succ n) 0) as [E|_]; [lia|].
  now rewrite N.pred_succ.
Qed.

Lemma nthN_cons_0 {A} (x : A) l : nthN (x :: l) 0 = Some x.
Proof. reflexivity. Qed.

Lemma nthN_cons_pos {A} (x : A) l n : 0 < n -> nthN (x :: l) n = nthN l (n - 1).
Proof.
  intros H. cbn [nthN]. destruct (N.eqb_spec n 0) as [E|_]; [lia|].
  now rewrite N.sub_1_r.
Qed.

Lemma nthN_none_iff {A} (l : list A) : forall n, nthN l n = None <-> lenN l <= n.
Proof.
  induction l as [|x l IH]; intros n.
  - split; [intros _; apply N.le_0_l|reflexivity].
  - rewrite lenN_cons. cbn [nthN]. destruct (N.eqb_spec n 0) as [->|E].
    + split; [discriminate|lia].
    + rewrite IH. lia.
Qed.

Lemma nthN_some_lt {A} (l : list A) n v : nthN l n = Some v -> n < lenN l.
Proof. intros H. apply N.lt_nge. intros L. apply nthN_none_iff in L. congruence. Qed.

Lemma nthN_lt_some {A} (l : list A) n : n < lenN l -> exists v, nthN l n = Some v.
Proof.
  intros H. destruct (nthN l n) as [v|] eqn:E; [eauto|]. apply nthN_none_iff in E. lia.
Qed.

Lemma nthN_none_ge {A} (l : list A) n : nthN l n = None -> lenN l <= n.
Proof. apply nthN_none_iff. Qed.

Lemma nthN_truncN_lt {A} (l : list A) : forall m n, n < m -> nthN (truncN m l) n = nthN l n.
Proof.
  induction l as [|x l IH]; intros m n H; [reflexivity|].
  cbn [truncN]. destruct (N.eqb_spec m 0) as [E|E]; [lia|].
  cbn [nthN]. destruct (N.eqb_spec n 0) as [E0|E0]; [reflexivity|].
  apply IH. lia.
Qed.

Lemma lenN_truncN {A} (l : list A) : forall m, lenN (truncN m l) = N.min m (lenN l).
Proof.
  induction l as [|x l IH]; intros m.
  - cbn [truncN]. unfold lenN. cbn. lia.
  - cbn [truncN]. destruct (N.eqb_spec m 0) as [E|E].
    + subst. unfold lenN at 1. cbn. lia.
    + rewrite !lenN_cons, IH. lia.
Qed.

Lemma nthN_truncN {A} (l : list A) m n v : nthN (truncN m l) n = Some v -> nthN l n = Some v.
Proof.
  intros H. pose proof (nthN_some_lt _ _ _ H) as L. rewrite lenN_truncN in L.
  now rewrite nthN_truncN_lt in H by lia.
Qed.

Lemma lenN_setN {A} (l : list A) : forall n v, lenN (setN l n v) = lenN l.
Proof.
  induction l as [|x l IH]; intros n v; [reflexivity|].
  cbn [setN]. destruct (n =? 0); rewrite !lenN_cons; [reflexivity|]. now rewrite IH.
Qed.

Lemma nthN_setN_same {A} (l : list A) : forall n v, n < lenN l -> nthN (setN l n v) n = Some v.
Proof.
  induction l as [|x l IH]; intros n v H.
  - unfold lenN in H. cbn in H. lia.
  - rewrite lenN_cons in H. cbn [setN].
    destruct (N.eqb_spec n 0) as [E|E].
    + subst. reflexivity.
    + cbn [nthN]. destruct (N.eqb_spec n 0) as [E'|_]; [lia|]. apply IH. lia.
Qed.

Lemma nthN_setN_other {A} (l : list A) : forall n m v, n <> m -> nthN (setN l n v) m = nthN l m.
Proof.
  induction l as [|x l IH]; intros n m v H; [reflexivity|].
  cbn [setN]. destruct (N.eqb_spec n 0) as [E|E].
  - subst. cbn [nthN]. destruct (N.eqb_spec m 0) as [E'|_]; [lia|]. reflexivity.
  - cbn [nthN]. destruct (N.eqb_spec m 0) as [E'|E']; [reflexivity|].
    apply IH. lia.
Qed.
