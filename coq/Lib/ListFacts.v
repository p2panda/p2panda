(** Facts about the standard library's lists that several of the proof files need and the library
    does not state: duplicate-freeness through [map], [filter] and [++], the last element of a
    prefix, folds (over permuted lists, along a preorder, through [map]).  Nothing here is specific to p2panda. *)
From Coq Require Import List Permutation.
Import ListNotations.

Lemma NoDup_snoc {A} (l : list A) x : NoDup l -> ~ In x l -> NoDup (l ++ [x]).
Proof. intros Hl Hx. apply (NoDup_Add (Add_app x l [])). rewrite app_nil_r. auto. Qed.

Lemma NoDup_app_iff {A} (l1 l2 : list A) :
  NoDup (l1 ++ l2) <-> NoDup l1 /\ NoDup l2 /\ (forall x, In x l1 -> In x l2 -> False).
Proof.
  induction l1 as [|y l1 IH]; cbn [app].
  - split; [intros H; repeat split; [constructor|exact H|intros x []]|intros [_ [H _]]; exact H].
  - rewrite !NoDup_cons_iff, IH, in_app_iff. split.
    + intros [Ny [N1 [N2 D]]]. repeat split; auto.
      intros x [<-|H1] H2; [apply Ny; right; exact H2|exact (D x H1 H2)].
    + intros [[Ny N1] [N2 D]]. repeat split; auto.
      * intros [H|H]; [exact (Ny H)|exact (D y (or_introl eq_refl) H)].
      * intros x H. apply D. right. exact H.
Qed.

Lemma NoDup_map_filter {A B} (f : A -> B) (p : A -> bool) l :
  NoDup (map f l) -> NoDup (map f (filter p l)).
Proof.
  induction l as [|x r IH]; cbn [filter map]; intros H; [constructor|].
  apply NoDup_cons_iff in H. destruct H as [Hn Hr].
  destruct (p x); cbn [map]; [|apply IH; exact Hr].
  constructor; [|apply IH; exact Hr].
  intros Hin. apply Hn. apply in_map_iff in Hin. destruct Hin as [y [E Hy]].
  apply filter_In in Hy. rewrite <- E. apply in_map. apply Hy.
Qed.

Lemma NoDup_map_inj_in {A B} (f : A -> B) l a b :
  NoDup (map f l) -> In a l -> In b l -> f a = f b -> a = b.
Proof.
  induction l as [|x l IH]; cbn [map]; intros Hnd Ha Hb Hf; [destruct Ha|].
  apply NoDup_cons_iff in Hnd. destruct Hnd as [Hnin Hnd].
  destruct Ha as [->|Ha], Hb as [->|Hb]; auto.
  - exfalso. apply Hnin. rewrite Hf. apply in_map. exact Hb.
  - exfalso. apply Hnin. rewrite <- Hf. apply in_map. exact Ha.
Qed.

Lemma firstn_snoc_nth {A} (l : list A) k w :
  nth_error l k = Some w -> firstn (S k) l = firstn k l ++ [w].
Proof.
  revert k. induction l as [|a l IH]; intros [|k] H; cbn in *; try discriminate.
  - injection H as ->. reflexivity.
  - rewrite (IH _ H). reflexivity.
Qed.

Lemma tl_skipn {A} (n : nat) (l : list A) : tl (skipn n l) = skipn (S n) l.
Proof.
  revert l; induction n as [|n IH]; intros [|a l]; try reflexivity.
  change (skipn (S n) (a :: l)) with (skipn n l).
  change (skipn (S (S n)) (a :: l)) with (skipn (S n) l).
  apply IH.
Qed.

Lemma fold_left_perm {A B} (f : A -> B -> A) (I : A -> Prop) (P : B -> Prop) :
  (forall a x, I a -> P x -> I (f a x)) ->
  (forall a x y, I a -> P x -> P y -> f (f a x) y = f (f a y) x) ->
  forall l l', Permutation l l' -> Forall P l -> forall a, I a -> fold_left f l a = fold_left f l' a.
Proof.
  intros Hstep Hswap.
  induction 1 as [|x l l' HP IH|x y l|l l' l'' HP1 IH1 HP2 IH2]; intros Hl a Ha; cbn [fold_left].
  - reflexivity.
  - apply Forall_cons_iff in Hl. destruct Hl as [Hx Hl]. apply IH; [exact Hl|]. apply Hstep; assumption.
  - apply Forall_cons_iff in Hl. destruct Hl as [Hy Hl]. apply Forall_cons_iff in Hl. destruct Hl as [Hx Hl].
    rewrite (Hswap a y x) by assumption. reflexivity.
  - rewrite (IH1 Hl a Ha). apply IH2; [|exact Ha]. exact (Permutation_Forall HP1 Hl).
Qed.

Lemma fold_left_perm_comm {A B} (f : A -> B -> A) :
  (forall a x y, f (f a x) y = f (f a y) x) ->
  forall l l', Permutation l l' -> forall a, fold_left f l a = fold_left f l' a.
Proof.
  intros Hc l l' Hp a.
  apply (fold_left_perm f (fun _ => True) (fun _ => True)); auto.
  apply Forall_forall. auto.
Qed.

Lemma in_snoc_other {A : Type} (l : list A) (x y : A) : x <> y -> (In y (l ++ [x]) <-> In y l).
Proof. intros H. rewrite in_app_iff. cbn [In]. tauto. Qed.

Lemma fold_left_map_ext {A B C : Type} (f : A -> B -> A) (g : A -> C -> A) (m : B -> C) (l : list B) :
  (forall a x, In x l -> f a x = g a (m x)) -> forall a, fold_left f l a = fold_left g (map m l) a.
Proof.
  induction l as [|x l IH]; intros H a; [reflexivity|]. cbn [fold_left map].
  rewrite (H a x (or_introl eq_refl)). apply IH. intros a' y Hy. apply H. right. exact Hy.
Qed.

Lemma fold_left_mono {A B : Type} (R : A -> A -> Prop) (f : A -> B -> A) :
  (forall a, R a a) -> (forall a b c, R a b -> R b c -> R a c) -> (forall a x, R a (f a x)) ->
  forall xs a, R a (fold_left f xs a).
Proof.
  intros Hr Ht Hf. induction xs as [|x r IH]; intros a; cbn [fold_left]; [apply Hr|].
  apply Ht with (f a x); [apply Hf|apply IH].
Qed.

Lemma fold_left_id {A B : Type} (f : A -> B -> A) (xs : list B) :
  (forall a x, In x xs -> f a x = a) -> forall a, fold_left f xs a = a.
Proof.
  induction xs as [|x r IH]; intros H a; cbn [fold_left]; [reflexivity|].
  rewrite (H a x (or_introl eq_refl)). apply IH. intros a' y Hy. apply H. right. exact Hy.
Qed.
