(** Association lists with first-match [lookup] and replace-or-append [set], used by the C31
    group CRDT model (Model/GroupCrdt.v) as the model of Rust's [HashMap]. *)
From Coq Require Import List Bool Permutation.
From PV Require Import Lib.ListFacts.
Import ListNotations.

Lemma perm_filter {A} (f : A -> bool) l l' : Permutation l l' -> Permutation (filter f l) (filter f l').
Proof.
  induction 1 as [|x l l' HP IH|x y l|l l' l'' HP1 IH1 HP2 IH2]; cbn [filter].
  - constructor.
  - destruct (f x); [constructor|]; exact IH.
  - destruct (f x), (f y); try apply Permutation_refl. constructor.
  - eapply Permutation_trans; eassumption.
Qed.

Lemma perm_flat_map_ext {A B} (F F' : A -> list B) l :
  (forall x, Permutation (F x) (F' x)) -> Permutation (flat_map F l) (flat_map F' l).
Proof.
  intros HF. induction l as [|x r IH]; cbn [flat_map]; [constructor|].
  apply Permutation_app; [apply HF|exact IH].
Qed.

Section AL.
  Context {K V : Type}.
  Variable eqb : K -> K -> bool.

  Fixpoint lookup (k : K) (m : list (K * V)) : option V :=
    match m with
    | [] => None
    | (k', v) :: r => if eqb k k' then Some v else lookup k r
    end.

  Fixpoint set (k : K) (v : V) (m : list (K * V)) : list (K * V) :=
    match m with
    | [] => [(k, v)]
    | (k', v') :: r => if eqb k k' then (k, v) :: r else (k', v') :: set k v r
    end.

  Definition wf (m : list (K * V)) : Prop := NoDup (map fst m).

  Hypothesis eqb_spec : forall a b, reflect (a = b) (eqb a b).

  Lemma eqb_refl k : eqb k k = true.
  Proof. destruct (eqb_spec k k); congruence. Qed.

  Lemma eqb_sym a b : eqb a b = eqb b a.
  Proof. destruct (eqb_spec a b), (eqb_spec b a); congruence. Qed.

  Lemma lookup_set k' k v m :
    lookup k' (set k v m) = if eqb k' k then Some v else lookup k' m.
  Proof.
    induction m as [|[k0 v0] r IH]; cbn [set lookup].
    - reflexivity.
    - destruct (eqb_spec k k0) as [->|Hne]; cbn [lookup].
      + destruct (eqb_spec k' k0); reflexivity.
      + rewrite IH. destruct (eqb_spec k' k0) as [->|Hne'].
        * destruct (eqb_spec k0 k); congruence.
        * reflexivity.
  Qed.

  Lemma set_keys_in k v m x : In x (map fst (set k v m)) <-> x = k \/ In x (map fst m).
  Proof.
    induction m as [|[k0 v0] r IH]; cbn [set map fst In].
    - split; intros [H|[]]; left; symmetry; exact H.
    - destruct (eqb_spec k k0) as [->|Hne]; cbn [map fst In].
      + split; [intros H; right; exact H|intros [H|H]; [left; symmetry; exact H|exact H]].
      + destruct IH as [I1 I2]. split.
        * intros [H|H]; [right; left; exact H|].
          destruct (I1 H) as [E|Hi]; [left; exact E|right; right; exact Hi].
        * intros [H|[H|H]]; [right; apply I2; left; exact H|left; exact H|right; apply I2; right; exact H].
  Qed.

  Lemma wf_nil : wf [].
  Proof. constructor. Qed.

  Lemma wf_set k v m : wf m -> wf (set k v m).
  Proof.
    unfold wf. induction m as [|[k0 v0] r IH]; cbn [set map fst]; intros H.
    - constructor; [intros []|constructor].
    - apply NoDup_cons_iff in H. destruct H as [Hn Hr].
      destruct (eqb_spec k k0) as [->|Hne]; cbn [map fst].
      + constructor; assumption.
      + constructor; [|apply IH; exact Hr].
        intros Hin. apply set_keys_in in Hin. destruct Hin as [E|Hin]; [exact (Hne (eq_sym E))|exact (Hn Hin)].
  Qed.

  Lemma lookup_in k v m : lookup k m = Some v -> In (k, v) m.
  Proof.
    induction m as [|[k0 v0] r IH]; cbn [lookup]; [discriminate|].
    destruct (eqb_spec k k0) as [->|Hne].
    - intros [= ->]. left; reflexivity.
    - intros H. right. exact (IH H).
  Qed.

  Lemma lookup_none_notin k m : lookup k m = None -> ~ In k (map fst m).
  Proof.
    induction m as [|[k0 v0] r IH]; cbn [lookup map fst In]; [tauto|].
    destruct (eqb_spec k k0) as [->|Hne]; [discriminate|].
    intros H [E|Hin]; [congruence|]. apply IH; assumption.
  Qed.

  Lemma notin_lookup_none k m : ~ In k (map fst m) -> lookup k m = None.
  Proof.
    induction m as [|[k0 v0] r IH]; cbn [lookup map fst In]; [reflexivity|].
    intros H. destruct (eqb_spec k k0) as [->|Hne]; [destruct H; left; reflexivity|].
    apply IH. intros Hin. apply H. right. exact Hin.
  Qed.

  Lemma in_lookup k v m : wf m -> In (k, v) m -> lookup k m = Some v.
  Proof.
    unfold wf. induction m as [|[k0 v0] r IH]; cbn [lookup map fst In]; [intros _ []|].
    intros Hwf [E|Hin].
    - injection E as -> ->. rewrite eqb_refl. reflexivity.
    - apply NoDup_cons_iff in Hwf. destruct Hwf as [Hn Hr].
      destruct (eqb_spec k k0) as [->|Hne].
      + destruct (Hn (in_map fst _ _ Hin)).
      + exact (IH Hr Hin).
  Qed.

  Lemma ext_perm m1 m2 :
    wf m1 -> wf m2 -> (forall k, lookup k m1 = lookup k m2) -> Permutation m1 m2.
  Proof.
    intros W1 W2 E. apply NoDup_Permutation.
    - unfold wf in W1. eapply NoDup_map_inv; exact W1.
    - unfold wf in W2. eapply NoDup_map_inv; exact W2.
    - intros [k v]. split; intros Hin.
      + apply lookup_in. rewrite <- E. apply in_lookup; assumption.
      + apply lookup_in. rewrite E. apply in_lookup; assumption.
  Qed.

  Lemma lookup_filter_key (p : K -> bool) k m :
    lookup k (filter (fun e => p (fst e)) m) = if p k then lookup k m else None.
  Proof.
    induction m as [|[k0 v0] r IH]; cbn [filter lookup fst].
    - destruct (p k); reflexivity.
    - destruct (p k0) eqn:P0; cbn [lookup].
      + destruct (eqb_spec k k0) as [->|Hne]; [rewrite P0; reflexivity|exact IH].
      + rewrite IH. destruct (eqb_spec k k0) as [->|Hne]; [rewrite P0; reflexivity|reflexivity].
  Qed.

  Lemma wf_filter (f : K * V -> bool) m : wf m -> wf (filter f m).
  Proof. apply NoDup_map_filter. Qed.

  Lemma perm_lookup m1 m2 k : wf m1 -> Permutation m1 m2 -> lookup k m1 = lookup k m2.
  Proof.
    intros W HP.
    assert (W2 : wf m2) by exact (Permutation_NoDup (Permutation_map fst HP) W).
    destruct (lookup k m2) as [v|] eqn:E.
    - apply in_lookup; [exact W|]. apply (Permutation_in _ (Permutation_sym HP)). apply lookup_in. exact E.
    - apply notin_lookup_none. intros Hin. apply (lookup_none_notin _ _ E).
      exact (Permutation_in _ (Permutation_map fst HP) Hin).
  Qed.

  Fixpoint nodupb (l : list K) : bool :=
    match l with
    | [] => true
    | x :: r => negb (existsb (eqb x) r) && nodupb r
    end.

  Lemma nodupb_sound l : nodupb l = true -> NoDup l.
  Proof.
    induction l as [|x r IH]; cbn [nodupb]; intros H; constructor.
    - intros Hin. apply andb_prop in H. destruct H as [H _].
      rewrite (proj2 (existsb_exists _ _)) in H; [discriminate|].
      exists x. split; [exact Hin|apply eqb_refl].
    - apply IH. apply andb_prop in H. apply H.
  Qed.
End AL.

Arguments lookup {K V} eqb k m.
Arguments set {K V} eqb k v m.
Arguments wf {K V} m.
Arguments nodupb {K} eqb l.
