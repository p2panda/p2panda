(** C32 — Group state merge is commutative, associative and idempotent.

    Only statements here; proofs live in Proofs/GroupState.v.  [merge ccmp] is the model of
    [state::merge] with the real [Access] order ([access_lt], a transcription of
    [impl PartialOrd for Access]); [merge_with lt] is the same code with an arbitrary access
    order.  States are association lists with one entry per key ([wf]); equality of states is
    stated on every [lookup]. *)
From Coq Require Import List Arith NArith.
From PV Require Import Model.GroupState Proofs.GroupState Oracle.C32 Proofs.C32Oracle.
Import ListNotations.

(** Idempotent: for every condition type and every condition order, no assumption. *)
Theorem C32_merge_idem :
  forall (C : Type) (ccmp : C -> C -> option comparison) (s : State C) (id : N),
    wf s -> lookup id (merge ccmp s s) = lookup id s.
Proof. exact (fun C ccmp => merge_idem (access_lt ccmp)). Qed.
Print Assumptions C32_merge_idem.

(** Without access conditions (in particular [C = ()], where conditions are never set): the
    real merge is commutative at every member none of whose entries carries conditions. *)
Theorem C32_merge_comm :
  forall (C : Type) (ccmp : C -> C -> option comparison) (s1 s2 : State C) (id : N),
    wf s1 -> wf s2 -> nocond_at id s1 -> nocond_at id s2 ->
    lookup id (merge ccmp s1 s2) = lookup id (merge ccmp s2 s1).
Proof. exact (fun C ccmp => merge_comm_at _ _ (real_lt_strict_total_nocond ccmp)). Qed.
Print Assumptions C32_merge_comm.

Theorem C32_merge_assoc :
  forall (C : Type) (ccmp : C -> C -> option comparison) (s1 s2 s3 : State C) (id : N),
    wf s1 -> wf s2 -> wf s3 -> nocond_at id s1 -> nocond_at id s2 -> nocond_at id s3 ->
    lookup id (merge ccmp (merge ccmp s1 s2) s3) = lookup id (merge ccmp s1 (merge ccmp s2 s3)).
Proof.
  exact (fun C ccmp s1 s2 s3 id W1 W2 _ =>
           merge_assoc_at _ _ (real_lt_strict_total_nocond ccmp) s1 s2 s3 id W1 W2).
Qed.
Print Assumptions C32_merge_assoc.

(** With conditions: for ANY access order that is a strict total order (hypothesis
    [TotalAccess], satisfiable: [lex_lt_total]) the same merge code is commutative and
    associative on all states. *)
Theorem C32_merge_comm_total_access :
  forall (C : Type) (lt : Access C -> Access C -> bool), TotalAccess lt ->
  forall (s1 s2 : State C) (id : N),
    wf s1 -> wf s2 -> lookup id (merge_with lt s1 s2) = lookup id (merge_with lt s2 s1).
Proof.
  exact (fun C lt H s1 s2 id W1 W2 =>
           merge_comm_at lt _ H s1 s2 id W1 W2 (fun _ _ => I) (fun _ _ => I)).
Qed.
Print Assumptions C32_merge_comm_total_access.

Theorem C32_merge_assoc_total_access :
  forall (C : Type) (lt : Access C -> Access C -> bool), TotalAccess lt ->
  forall (s1 s2 s3 : State C) (id : N),
    wf s1 -> wf s2 -> wf s3 ->
    lookup id (merge_with lt (merge_with lt s1 s2) s3)
    = lookup id (merge_with lt s1 (merge_with lt s2 s3)).
Proof.
  exact (fun C lt H s1 s2 s3 id W1 W2 _ =>
           merge_assoc_at lt _ H s1 s2 s3 id W1 W2 (fun _ _ => I) (fun _ _ => I) (fun _ _ => I)).
Qed.
Print Assumptions C32_merge_assoc_total_access.

(** More precisely, at one member: it is enough that the accesses recorded for that member in
    the merged states lie in a set [dom] on which the order is a strict total order. *)
Theorem C32_merge_comm_at :
  forall (C : Type) (lt : Access C -> Access C -> bool) (dom : Access C -> Prop),
    strict_total_on lt dom ->
  forall (s1 s2 : State C) (id : N),
    wf s1 -> wf s2 -> dom_at dom id s1 -> dom_at dom id s2 ->
    lookup id (merge_with lt s1 s2) = lookup id (merge_with lt s2 s1).
Proof. exact (fun C lt dom H => merge_comm_at lt dom H). Qed.
Print Assumptions C32_merge_comm_at.

(** Commutativity exactly outside the finding's class: it suffices that, for the member, the
    two entries do not tie on both counters, or carry the same access, or neither carries
    conditions ([unambiguous]); the negation of [unambiguous] is what [known] matches. *)
Theorem C32_merge_comm_outside_known :
  forall (C : Type) (ccmp : C -> C -> option comparison) (s1 s2 : State C) (id : N),
    wf s1 -> wf s2 ->
    (forall m1 m2, lookup id s1 = Some m1 -> lookup id s2 = Some m2 -> unambiguous m1 m2) ->
    lookup id (merge ccmp s1 s2) = lookup id (merge ccmp s2 s1).
Proof. exact (fun C ccmp => merge_comm_outside_known ccmp). Qed.
Print Assumptions C32_merge_comm_outside_known.

(** The real [Access] order with conditions (even totally ordered ones, [u64]) is NOT such an
    order, and the real merge is then neither commutative nor associative: known finding
    [merge_noncommutative_with_conditions].  Outside the finding's class (no conditions at the
    member) the laws hold: [C32_merge_comm], [C32_merge_assoc] above are the
    [..._outside_known] statements. *)
Theorem C32_real_order_not_total : ~ TotalAccess (access_lt ncmp).
Proof. exact real_lt_not_total. Qed.
Print Assumptions C32_real_order_not_total.

Theorem C32_refuted_conditions :
  exists (s1 s2 : State N) (id : N),
    wf s1 /\ wf s2 /\ lookup id (merge ncmp s1 s2) <> lookup id (merge ncmp s2 s1).
Proof. exact merge_refuted_conditions. Qed.
Print Assumptions C32_refuted_conditions.

Theorem C32_assoc_refuted_conditions :
  exists (s1 s2 s3 : State N) (id : N),
    wf s1 /\ wf s2 /\ wf s3 /\
    lookup id (merge ncmp (merge ncmp s1 s2) s3) <> lookup id (merge ncmp s1 (merge ncmp s2 s3)).
Proof. exact merge_assoc_refuted_conditions. Qed.
Print Assumptions C32_assoc_refuted_conditions.

(** The oracle evaluated on the implementation's five observed states is sound for the three
    laws (on those observations). *)
Theorem C32_oracle_sound :
  forall (s1 m12 m21 m12_3 m1_23 m11 : NState),
    check s1 m12 m21 m12_3 m1_23 m11 = true ->
    (forall id, lookup id m12 = lookup id m21) /\
    (forall id, lookup id m12_3 = lookup id m1_23) /\
    (forall id, lookup id m11 = lookup id s1).
Proof. exact check_sound. Qed.
Print Assumptions C32_oracle_sound.
