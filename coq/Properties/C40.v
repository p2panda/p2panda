(** C40 — Topic sync metrics count every session's bytes exactly once; running = started - ended.

    Only statements here; proofs live in Proofs/SyncMetrics.v (the oracle:
    Proofs/OracleTasksMetrics.v).  [run_state true] is the model of
    [Aggregator::process] (after the repair) folded over a history of (session id, event) pairs;
    [wf_history ns evs] says that the events of every single session, taken in order, follow the
    documented life cycle — the sessions are interleaved arbitrarily. *)
From Coq Require Import List NArith.
From PV Require Import Model.SyncMetrics Proofs.SyncMetrics.
Import ListNotations.
Local Open Scope N_scope.

(** Totals: sum over the sessions of the bytes each contributed (sync + live of a finished
    session, sync figure of a session past its sync phase), each byte once. *)
Theorem C40_totals_exact : forall ns evs a,
  wf_history ns evs = true -> run_state true agg_new evs = Some a ->
  total_sent a = spec_sent ns evs /\ total_recv a = spec_recv ns evs.
Proof. exact totals_exact. Qed.
Print Assumptions C40_totals_exact.

(** The run does not panic while the exact figures stay within u32. *)
Theorem C40_no_panic_within_u32 : forall ns evs,
  wf_history ns evs = true -> all_fit evs = true ->
  count is_start evs < u32_max_plus_1 ->
  spec_sent ns evs < u32_max_plus_1 -> spec_recv ns evs < u32_max_plus_1 ->
  exists a, run_state true agg_new evs = Some a.
Proof. exact no_panic_within_u32. Qed.
Print Assumptions C40_no_panic_within_u32.

(** running = started - ended (and never more ended than started) when every session opens with
    SessionStarted. *)
Theorem C40_running_is_started_minus_ended : forall fixed evs a,
  wf_history true evs = true -> run_state fixed agg_new evs = Some a ->
  count is_end evs <= count is_start evs /\
  running a = count is_start evs - count is_end evs.
Proof. exact running_is_started_minus_ended. Qed.
Print Assumptions C40_running_is_started_minus_ended.

(** ... and it is the number of sessions between their SessionStarted and their terminal event. *)
Theorem C40_running_is_open_sessions : forall fixed evs a,
  wf_history true evs = true -> run_state fixed agg_new evs = Some a ->
  running a = open_sessions evs.
Proof. exact running_is_open_sessions. Qed.
Print Assumptions C40_running_is_open_sessions.

(** Without SessionStarted in the input (what the sync layer emits today, finding of C22) the
    count stays 0. *)
Theorem C40_running_zero_without_session_started : forall fixed evs a a',
  count is_start evs = 0 -> running a = 0 -> run_state fixed a evs = Some a' -> running a' = 0.
Proof. exact running_zero_without_session_started. Qed.
Print Assumptions C40_running_zero_without_session_started.

(** Failed sessions, partial: counted with at most the last figure they reported (never twice),
    possibly less than was transferred — Failed carries no metrics. *)
Theorem C40_failed_session_not_overcounted_partial : forall ns l o,
  phase_run ns PInit l = Some (PFailed o) ->
  contrib_sent ns l <= last_reported sent_sync_bytes sent_live_bytes 0 l /\
  contrib_recv ns l <= last_reported received_sync_bytes received_live_bytes 0 l.
Proof. exact failed_session_not_overcounted_partial. Qed.
Print Assumptions C40_failed_session_not_overcounted_partial.

(** The code before the repair counted the sync bytes twice (regression witness). *)
Theorem C40_asis_double_counts :
  wf_history true double_count_witness = true /\
  exists a, run_state false agg_new double_count_witness = Some a /\
            total_sent a = 20 /\ spec_sent true double_count_witness = 10.
Proof. exact asis_double_counts. Qed.
Print Assumptions C40_asis_double_counts.

(** The boolean oracle evaluated on the implementation's counters means what it should. *)
From PV Require Oracle.C40 Proofs.OracleTasksMetrics.
Theorem C40_oracle_sound : forall ns evs observed,
  Oracle.C40.check ns evs observed false = true -> wf_history ns evs = true ->
  List.length observed = List.length evs /\
  forall k r s v, nth_error observed k = Some (r, s, v) ->
    let pre := firstn (S k) evs in
    s = spec_sent ns pre /\ v = spec_recv ns pre /\
    r = (if ns then count is_start pre - count is_end pre else 0).
Proof. exact Proofs.OracleTasksMetrics.c40_check_sound. Qed.
Print Assumptions C40_oracle_sound.
