(** C03 — Ingest keeps every stored log a hash-linked, gap-free chain; heights never decrease;
    operations that do not extend their log are rejected.

    Only statements here; proofs live in Proofs/Ingest.v, the model in Model/Ingest.v.
    [run ds] is the store after the delivery sequence [ds] went through ingest + log-prune;
    [wf_history ds] says: validated operations carry their header hash as id, the header hash is
    collision free, and authors do not equivocate (one validated operation per author/log/seq).
    The delivery order is arbitrary; duplicates, gaps, forged copies ([o_valid = false]) and
    operations with wrong backlinks are all allowed in [ds]. *)
From Coq Require Import List Arith NArith Bool.
From PV Require Import Model.Ingest Proofs.Ingest.
Import ListNotations.
Local Open Scope N_scope.

(** After any delivery sequence: sequence numbers are unique per (author, log) and every stored
    entry with seq > 0 and no prune flag has its direct predecessor stored and links to it. *)
Theorem C03_chain_invariant :
  forall ds : list op, wf_history ds = true ->
    NoDup (map (fun r => (r_author r, r_log r, r_seq r)) (run ds)) /\
    (forall r, In r (run ds) -> r_prune r = false -> 0 < r_seq r ->
       exists p, In p (run ds) /\ r_author p = r_author r /\ r_log p = r_log r /\
                 r_seq p + 1 = r_seq r /\ r_backlink r = Some (r_hh p)).
Proof. exact deliveries_Inv. Qed.
Print Assumptions C03_chain_invariant.

(** No delivery lowers the height of any log ([None] = empty log is below every height). *)
Theorem C03_height_never_decreases :
  forall (ds : list op) (o : op) (a l : N), wf_history (ds ++ [o]) = true ->
    opt_le (height (run ds) a l) (height (run (ds ++ [o])) a l) = true.
Proof. exact height_monotone. Qed.
Print Assumptions C03_height_never_decreases.

(** Open finding (findings/C03-foreign-hash-field-accepted.json): without the hypothesis "a
    validated operation's hash field is its header hash" -- which [validate_operation] does not
    enforce -- the height statement fails: concrete witness, everything else in [wf_history] holds. *)
Theorem C03_foreign_hash_field_refuted :
  pairs_ok (foreign_hash_witness ++ [foreign_hash_last]) = true /\
  height (run foreign_hash_witness) 1 1 = Some 2 /\
  height (run (foreign_hash_witness ++ [foreign_hash_last])) 1 1 = None.
Proof. exact foreign_hash_field_refuted. Qed.
Print Assumptions C03_foreign_hash_field_refuted.

Theorem C03_height_outside_known :
  forall (ds : list op) (o : op) (a l : N),
    pairs_ok (ds ++ [o]) = true -> ids_ok (ds ++ [o]) = true ->
    opt_le (height (run ds) a l) (height (run (ds ++ [o])) a l) = true.
Proof. exact height_monotone_ids_ok. Qed.
Print Assumptions C03_height_outside_known.

(** Specification of ingest: inserted exactly when validated, not yet stored, and extending the
    log (direct successor of the latest entry with the right backlink, or a prune point strictly
    above it, or the first entry at seq 0 / a prune point of an empty log). *)
Theorem C03_inserted_iff_extends :
  forall (s : store) (o : op),
    snd (ingest s o) = Inserted <->
    o_valid o = true /\ has_op s (o_id o) = false /\
    match latest s (o_author o) (o_log o) with
    | None => o_seq o = 0 \/ o_prune o = true
    | Some p =>
        (o_prune o = false /\ r_author p = o_author o /\ r_seq p <> U32MAX /\
         r_seq p + 1 = o_seq o /\ o_backlink o = Some (r_hh p))
        \/ (o_prune o = true /\ r_seq p < o_seq o)
    end.
Proof. exact ingest_inserted_iff. Qed.
Print Assumptions C03_inserted_iff_extends.

Theorem C03_not_inserted_store_unchanged :
  forall (s : store) (o : op), snd (ingest s o) <> Inserted -> fst (ingest s o) = s.
Proof. exact ingest_not_inserted_unchanged. Qed.
Print Assumptions C03_not_inserted_store_unchanged.

(** The named rejection reasons. *)
Theorem C03_rejected_forged :
  forall (s : store) (o : op), o_valid o = false -> ingest s o = (s, Rejected EInvalid).
Proof. exact rejected_invalid. Qed.
Print Assumptions C03_rejected_forged.

Theorem C03_rejected_wrong_author :
  forall (p : row) (o : op), r_author p <> o_author o -> validate_backlink p o = VErr ETooManyAuthors.
Proof. exact validate_backlink_wrong_author. Qed.
Print Assumptions C03_rejected_wrong_author.

Theorem C03_rejected_non_incremental :
  forall (s : store) (o : op) (p : row),
    o_valid o = true -> has_op s (o_id o) = false ->
    latest s (o_author o) (o_log o) = Some p -> r_seq p <> U32MAX ->
    o_prune o = false -> r_seq p + 1 <> o_seq o ->
    ingest s o = (s, Rejected ESeqNonIncremental).
Proof. exact rejected_non_incremental. Qed.
Print Assumptions C03_rejected_non_incremental.

Theorem C03_rejected_wrong_backlink :
  forall (s : store) (o : op) (p : row),
    o_valid o = true -> has_op s (o_id o) = false ->
    latest s (o_author o) (o_log o) = Some p -> r_seq p <> U32MAX ->
    o_prune o = false -> r_seq p + 1 = o_seq o -> o_backlink o <> Some (r_hh p) ->
    ingest s o = (s, Rejected (match o_backlink o with Some _ => EBacklinkMismatch | None => EBacklinkMissing end)).
Proof. exact rejected_wrong_backlink. Qed.
Print Assumptions C03_rejected_wrong_backlink.

Theorem C03_rejected_missing_prefix :
  forall (s : store) (o : op),
    o_valid o = true -> has_op s (o_id o) = false ->
    latest s (o_author o) (o_log o) = None -> 0 < o_seq o -> o_prune o = false ->
    ingest s o = (s, Rejected EBacklinkMissing).
Proof. exact rejected_missing_prefix. Qed.
Print Assumptions C03_rejected_missing_prefix.

(** The overflow of [past.seq_num + 1] is not hidden: it is a panic of the (debug) build. *)
Theorem C03_seq_max_panics :
  forall (s : store) (o : op) (p : row),
    o_valid o = true -> has_op s (o_id o) = false ->
    latest s (o_author o) (o_log o) = Some p -> r_seq p = U32MAX -> o_prune o = false ->
    ingest s o = (s, Panicked).
Proof. exact seq_max_panics. Qed.
Print Assumptions C03_seq_max_panics.
