(** C33 — Only authorized actors change group membership.

    Only statements here; proofs live in Proofs/GroupProcess.v.  [process] is the model of
    [GroupCrdt::process] (validate against the state at the declared dependencies, then store the
    new state) for the resolver-free fragment, see Model/GroupProcess.v (PARTIAL: StrongRemove
    rebuilds are not modelled). *)
From Coq Require Import List Arith NArith.
From PV Require Import Model.GroupState Proofs.GroupState Model.GroupProcess Proofs.GroupProcess Oracle.C33.
Import ListNotations.

(** An operation is accepted only if the state at its declared dependencies exists and, there,
    its author is an active manager of the group - or an active member removing itself - and the
    action is applicable (add: target not an active member; remove: target an active member;
    promote/demote: target known).  Creates carry no authority requirement. *)
Theorem C33_accept_requires_authority_partial :
  forall (y y' : Replica) (o : Op),
    process y o = (y', OOk) ->
    exists gs, state_at y (op_deps o) = Some gs /\ authorised_in gs o /\ valid_in gs o.
Proof. exact (fun y y' o => accept_requires_authority y o y'). Qed.
Print Assumptions C33_accept_requires_authority_partial.

(** A rejected operation (duplicate, membership error, missing state, panic) leaves the replica
    exactly as it was. *)
Theorem C33_reject_unchanged :
  forall (y y' : Replica) (o : Op) (out : Outcome),
    process y o = (y', out) -> out <> OOk -> y' = y.
Proof. exact (fun y y' o out => reject_unchanged y o y' out). Qed.
Print Assumptions C33_reject_unchanged.

(** An accepted operation is appended and only its own state is added. *)
Theorem C33_accept_extends :
  forall (y y' : Replica) (o : Op),
    process y o = (y', OOk) ->
    ops y' = o :: ops y /\ exists gs', states y' = (op_id o, gs') :: states y.
Proof. exact (fun y y' o => accept_extends y o y'). Qed.
Print Assumptions C33_accept_extends.

(** After any sequence of operations processed from the empty replica, whoever is known (a
    fortiori an active member) in group [g] of the state at any dependencies - e.g. the current
    state at the heads - was introduced by an operation of group [g] that the run accepted: an
    add of them or a create listing them. *)
Theorem C33_members_only_via_add_or_create_partial :
  forall (l : list Op) (deps : list N) (gs : GroupStates) (g : N) (my : MState) (m : N),
    state_at (fst (run init l)) deps = Some gs ->
    glookup g gs = Some my -> known my m ->
    exists o, In o (accepted init l) /\ op_group o = g /\
      ((exists lv, op_action o = Add m lv) \/
       (exists ini, op_action o = Create ini /\ In m (map fst ini))).
Proof. exact members_only_via_add_or_create. Qed.
Print Assumptions C33_members_only_via_add_or_create_partial.

(** State-function level (all of state.rs, any condition type): [promote]/[demote] succeed only
    for an active manager - including on their "nothing to do" path, which before the repair
    returned [Ok] for any actor. *)
Theorem C33_promote_requires_manager :
  forall (C : Type) (ceqb : C -> C -> bool) (s s' : State C) (a b : N) (x : Access C),
    promote ceqb s a b x = Ok s' ->
    is_active_manager s a = true /\ known s b /\ (forall id, known s' id -> known s id).
Proof. exact (fun C ceqb s s' a b x => promote_ok ceqb s a b x s'). Qed.
Print Assumptions C33_promote_requires_manager.

Theorem C33_demote_requires_manager :
  forall (C : Type) (ceqb : C -> C -> bool) (s s' : State C) (a b : N) (x : Access C),
    demote ceqb s a b x = Ok s' ->
    is_active_manager s a = true /\ known s b /\ (forall id, known s' id -> known s id).
Proof. exact (fun C ceqb s s' a b x => demote_ok ceqb s a b x s'). Qed.
Print Assumptions C33_demote_requires_manager.

(** Known finding [recreate_group_unchecked] (open): a create operation for a group that already
    exists at its dependencies is accepted from anybody - there is no authority or existence check
    for creates - and replaces the group's members: a non-member takes the group over. *)
Theorem C33_recreate_refuted :
  exists y o y' gs,
    process y o = (y', OOk) /\ state_at y (op_deps o) = Some gs /\
    recreates gs o /\ ~ authorised_strict gs o /\
    (exists my, glookup (op_group o) gs = Some my /\ ~ known my (op_author o)) /\
    (exists gs' my', state_at y' (heads y') = Some gs' /\ glookup (op_group o) gs' = Some my' /\
       is_active_manager my' (op_author o) = true /\ ~ known my' 0%N).
Proof. exact recreate_refuted. Qed.
Print Assumptions C33_recreate_refuted.

(** Outside that class the property holds at full strength for accepted operations: a create is
    accepted only for a group absent at the dependencies, anything else only from an active
    manager (or as a self-removal), and the action is applicable there. *)
Theorem C33_accept_requires_authority_outside_known :
  forall (y y' : Replica) (o : Op),
    process y o = (y', OOk) ->
    exists gs, state_at y (op_deps o) = Some gs /\
      (~ recreates gs o -> authorised_strict gs o /\ valid_in gs o).
Proof. exact (fun y y' o => accept_requires_authority_outside_known y o y'). Qed.
Print Assumptions C33_accept_requires_authority_outside_known.

(** The decision on an operation depends on the states of its *declared* dependencies only (and
    on whether its id is already known): two replicas that store the same states for those
    operations decide alike, whatever else they have accepted. *)
Theorem C33_decision_depends_only_on_dependencies_partial :
  forall (y1 y2 : Replica) (o : Op),
    (forall d, In d (op_deps o) -> alookup d (states y1) = alookup d (states y2)) ->
    memN (op_id o) (map op_id (ops y1)) = memN (op_id o) (map op_id (ops y2)) ->
    snd (process y1 o) = snd (process y2 o).
Proof. exact decision_depends_only_on_dependencies. Qed.
Print Assumptions C33_decision_depends_only_on_dependencies_partial.

(** Operations processed in between (concurrent branches: none of them a declared dependency of
    [o], none of them [o] itself) neither change the decision on [o] nor the state at its declared
    dependencies.  In particular authority gained only in a branch the operation does not declare
    (author added/promoted there) does not make it acceptable: by
    [C33_accept_requires_authority_partial] the author must be an active manager in
    [state_at y (op_deps o)], the state before those branches were merged in. *)
Theorem C33_concurrent_branches_irrelevant_partial :
  forall (l : list Op) (y : Replica) (o : Op),
    (forall o', In o' l -> ~ In (op_id o') (op_deps o) /\ op_id o <> op_id o') ->
    snd (process (fst (run y l)) o) = snd (process y o)
    /\ state_at (fst (run y l)) (op_deps o) = state_at y (op_deps o).
Proof. exact undeclared_run_irrelevant. Qed.
Print Assumptions C33_concurrent_branches_irrelevant_partial.
