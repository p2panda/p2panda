(** C01 — Only authentic, well-formed operations are ingested.

    Only statements here; proofs are in Proofs/Validate.v (and Proofs/Header.v for the encoding),
    the model in Model/Validate.v.

    Every theorem is "for every signature scheme / hash / HashSet iteration order / store
    satisfying the hypotheses":
      [ideal_signatures verify sign sk_of] : verify pk m s = true <-> s = sign (sk_of pk) m, a
                                             signature determines signer and message, distinct
                                             public keys have distinct secret keys;
      [injective_hash hash_body]           : no two bodies share a hash;
      [is_perm_fun order]                  : the iteration order is a permutation.
    [C01_hypotheses_satisfiable] shows they can be met (free-term instance).
    [canonical h] is the representation invariant of the model (a [HashSet] value is written as
    its strictly sorted list), not a restriction on operations. *)
From Coq Require Import List NArith.
From PV Require Import Model.Header Model.Validate Proofs.Header Proofs.Validate.
Import ListNotations.

(** validate_operation accepts exactly the operations that are authentic (the author's
    signature over the canonical unsigned header bytes), of version 1, with consistent payload
    size/hash and seq/backlink fields and, if a body is attached, with that body's hash and size:
    sound and complete. *)
Theorem C01_validate_sound_complete :
  forall verify_sig hash_body order sign sk_of,
    ideal_signatures verify_sig sign sk_of ->
    forall op : operation,
      validate_operation verify_sig hash_body order op = None <-> good hash_body order sign sk_of op.
Proof. intros * [V _]. exact (validate_iff _ _ _ _ _ V). Qed.
Print Assumptions C01_validate_sound_complete.

(** Any tampering with a valid operation — any change of header fields under the same
    signature, any other signature, any other attached body — is rejected by validation. *)
Theorem C01_tamper_rejected :
  forall verify_sig hash_body order sign sk_of,
    ideal_signatures verify_sig sign sk_of -> injective_hash hash_body -> is_perm_fun order ->
    forall op op' : operation,
      canonical (op_header op) -> canonical (op_header op') ->
      validate_operation verify_sig hash_body order op = None ->
      single_tamper op op' ->
      validate_operation verify_sig hash_body order op' <> None.
Proof.
  intros * (V & S & K) H P.
  exact (tamper_rejected _ _ _ _ _ V S K H P).
Qed.
Print Assumptions C01_tamper_rejected.

(** A signature accepted on one header is accepted on no other header (and for no other
    author). *)
Theorem C01_same_signature_same_header :
  forall verify_sig order sign sk_of,
    ideal_signatures verify_sig sign sk_of -> is_perm_fun order ->
    forall h h' : header,
      canonical h -> canonical h' ->
      validate_header verify_sig order h = None -> validate_header verify_sig order h' = None ->
      h_sig h' = h_sig h -> h' = h.
Proof.
  intros * (V & S & _) P.
  exact (same_signature_same_header _ _ _ _ V S P).
Qed.
Print Assumptions C01_same_signature_same_header.

(** ... and ingest then rejects it leaving the store exactly as it was, for every store. *)
Theorem C01_ingest_tamper_unchanged :
  forall verify_sig hash_body order sign sk_of,
    ideal_signatures verify_sig sign sk_of -> injective_hash hash_body -> is_perm_fun order ->
    forall (store : Type) (has_op : store -> bytes -> bool)
           (log_check : store -> operation -> option op_error) (insert : store -> operation -> store)
           (s : store) (op op' : operation),
      canonical (op_header op) -> canonical (op_header op') ->
      validate_operation verify_sig hash_body order op = None ->
      single_tamper op op' ->
      exists e, ingest verify_sig hash_body order store has_op log_check insert s op' = (s, Rejected e).
Proof.
  intros * (V & S & K) H P.
  exact (ingest_tamper_unchanged _ _ _ _ _ V S K H P).
Qed.
Print Assumptions C01_ingest_tamper_unchanged.

(** Every rejection by ingest (validation or log integrity) leaves the store unchanged. *)
Theorem C01_ingest_reject_unchanged :
  forall verify_sig hash_body order (store : Type) (has_op : store -> bytes -> bool)
         (log_check : store -> operation -> option op_error) (insert : store -> operation -> store)
         (s : store) (op : operation) (s' : store) (e : op_error),
    ingest verify_sig hash_body order store has_op log_check insert s op = (s', Rejected e) -> s' = s.
Proof. exact ingest_reject_unchanged. Qed.
Print Assumptions C01_ingest_reject_unchanged.

(** Whatever ingest accepts (newly inserted, or reported as already present) passed validation. *)
Theorem C01_ingest_ok_valid :
  forall verify_sig hash_body order (store : Type) (has_op : store -> bytes -> bool)
         (log_check : store -> operation -> option op_error) (insert : store -> operation -> store)
         (s : store) (op : operation) (s' : store) (r : ingest_result),
    ingest verify_sig hash_body order store has_op log_check insert s op = (s', r) ->
    r = Inserted \/ r = Existed ->
    validate_operation verify_sig hash_body order op = None.
Proof. exact ingest_ok_valid. Qed.
Print Assumptions C01_ingest_ok_valid.

(** An operation is inserted only if it is good, was not there, and passed the log check; the new
    store is the old one plus that operation. *)
Theorem C01_ingest_inserted_only_if_good :
  forall verify_sig hash_body order sign sk_of,
    ideal_signatures verify_sig sign sk_of ->
    forall (store : Type) (has_op : store -> bytes -> bool)
           (log_check : store -> operation -> option op_error) (insert : store -> operation -> store)
           (s : store) (op : operation) (s' : store),
      ingest verify_sig hash_body order store has_op log_check insert s op = (s', Inserted) ->
      good hash_body order sign sk_of op /\ has_op s (op_hash op) = false /\ log_check s op = None
      /\ s' = insert s op.
Proof.
  intros * [V _].
  exact (ingest_inserted_only_if_valid _ _ _ _ _ V).
Qed.
Print Assumptions C01_ingest_inserted_only_if_good.

(** Boundary made explicit: removing the body of a valid operation is accepted (by design, the
    payload is "off-chain" data) — it is not among the tamperings of [single_tamper]. *)
Theorem C01_body_removal_accepted :
  forall verify_sig hash_body order sign sk_of,
    ideal_signatures verify_sig sign sk_of ->
    forall op : operation,
      validate_operation verify_sig hash_body order op = None ->
      validate_operation verify_sig hash_body order (mkOp (op_hash op) (op_header op) None) = None.
Proof.
  intros * [V _].
  exact (body_removal_accepted _ _ _ _ _ V).
Qed.
Print Assumptions C01_body_removal_accepted.

(** Two facts about the code: an attached empty body is never accepted, and
    the [MissingPayloadHash] branch of validate_operation can never be taken. *)
Theorem C01_empty_attached_body_rejected :
  forall verify_sig hash_body order sign sk_of,
    ideal_signatures verify_sig sign sk_of ->
    forall op : operation,
      op_body op = Some [] -> validate_operation verify_sig hash_body order op <> None.
Proof.
  intros * [V _].
  exact (empty_attached_body_rejected _ _ _ _ _ V).
Qed.
Print Assumptions C01_empty_attached_body_rejected.

Theorem C01_missing_payload_hash_unreachable :
  forall verify_sig hash_body order sign sk_of,
    ideal_signatures verify_sig sign sk_of ->
    forall op : operation,
      validate_operation verify_sig hash_body order op <> Some MissingPayloadHash.
Proof.
  intros * [V _].
  exact (missing_payload_hash_unreachable _ _ _ _ _ V).
Qed.
Print Assumptions C01_missing_payload_hash_unreachable.

(** The hypotheses are not contradictory. *)
Theorem C01_hypotheses_satisfiable :
  ideal_signatures ideal_verify ideal_sign (fun x => x) /\ injective_hash ideal_hash
  /\ is_perm_fun (fun l : list bytes => l).
Proof.
  split; [exact ideal_instance_signatures | split; [exact ideal_instance_hash | intro l; apply Permutation.Permutation_refl]].
Qed.
Print Assumptions C01_hypotheses_satisfiable.
