(** C36 — Latest group secret is chosen deterministically and new secrets are newer.

    Only statements here; proofs live in Proofs/SecretBundle.v.  A secret is the pair
    (id, timestamp); [order] is the iteration order of the hash map, about which only
    [forall l e, In e (order l) <-> In e l] is assumed. *)
From Coq Require Import List NArith.
From PV Require Import Model.SecretBundle Proofs.SecretBundle Oracle.C36 Proofs.OracleC36.
Import ListNotations.
Local Open Scope N_scope.

(** [find_latest], run over the entries in any order, returns an entry that is the maximum by
    (timestamp, id). *)
Theorem C36_latest_is_lex_max :
  forall (l : list secret) (i : N),
    find_latest l = Some i ->
    exists t, In (i, t) l /\ forall e, In e l -> lex_le e (i, t).
Proof. exact latest_is_lex_max. Qed.
Print Assumptions C36_latest_is_lex_max.

(** It answers [None] only if every entry is the all-zero id with timestamp 0 (so: for the empty
    bundle, or for a SHA-256 preimage of 0^32 created at the epoch). *)
Theorem C36_latest_none_only_if_all_zero :
  forall (l : list secret), find_latest l = None -> forall e, In e l -> sid e = 0 /\ sts e = 0.
Proof. exact latest_none. Qed.
Print Assumptions C36_latest_none_only_if_all_zero.

(** It depends on the set of entries only: no iteration order, no permutation changes it. *)
Theorem C36_find_latest_iteration_order_free :
  forall l l' : list secret, (forall e, In e l <-> In e l') -> find_latest l = find_latest l'.
Proof. exact find_latest_set_ext. Qed.
Print Assumptions C36_find_latest_iteration_order_free.

(** Every state produced by init / from_secrets / insert / extend / remove is well formed, and
    in a well-formed state the recorded latest id is the (timestamp, id)-maximum of the content. *)
Theorem C36_operations_keep_wf :
  forall order, (forall l e, In e (order l) <-> In e l) ->
    wf order init /\
    (forall l, wf order (from_secrets order l)) /\
    (forall y s, wf order y -> wf order (insert order y s)) /\
    (forall y o, wf order y -> wf order (extend order y o)) /\
    (forall y i, wf order y -> wf order (fst (remove order y i))).
Proof. exact operations_keep_wf. Qed.
Print Assumptions C36_operations_keep_wf.

Theorem C36_state_latest_is_lex_max :
  forall order, (forall l e, In e (order l) <-> In e l) ->
  forall y i, wf order y -> latest y = Some i ->
    exists t, In (i, t) (secrets y) /\ forall e, In e (secrets y) -> lex_le e (i, t).
Proof. exact state_latest_is_lex_max. Qed.
Print Assumptions C36_state_latest_is_lex_max.

(** Order independence.  Known class: the inserted secrets contain the same id with two
    different timestamps ([~ consistent]).  Outside it, bundles built from the same secrets by
    insertions and merges in any order and shape, under any hash-map iteration orders, have the
    same latest secret. *)
Theorem C36_order_independent_outside_known :
  forall order1 order2 : list secret -> list secret,
    (forall l e, In e (order1 l) <-> In e l) -> (forall l e, In e (order2 l) <-> In e l) ->
    forall e1 e2,
      consistent (leaves e1 ++ leaves e2) ->
      (forall x, In x (leaves e1) <-> In x (leaves e2)) ->
      latest (eval order1 e1) = latest (eval order2 e2).
Proof. exact order_independent. Qed.
Print Assumptions C36_order_independent_outside_known.

(** Inside it the claim fails (HashMap::insert replaces: the last timestamp inserted for an id
    survives). *)
Theorem C36_order_independent_refuted :
  exists e1 e2,
    (forall x, In x (leaves e1) <-> In x (leaves e2)) /\
    latest (eval (fun l => l) e1) <> latest (eval (fun l => l) e2).
Proof. exact order_dependent_on_conflicting_duplicates. Qed.
Print Assumptions C36_order_independent_refuted.

(** Freshly generated secrets.  Known class: the bundle's latest timestamp is [u64::MAX].
    Outside it, for every clock reading [now] (before, at, after the latest timestamp),
    [generate] returns a timestamp strictly greater than the latest one ... *)
Theorem C36_generated_strictly_later_outside_known :
  forall (y : state) (now : N),
    latest_ts y < U64MAX ->
    exists t, generate_ts y now = Some t /\ latest_ts y < t /\ now <= t.
Proof. exact generated_strictly_later. Qed.
Print Assumptions C36_generated_strictly_later_outside_known.

(** ... which makes the new secret strictly later than every secret of the bundle and the
    latest one once inserted, whatever id its random bytes hash to. *)
Theorem C36_generated_becomes_latest :
  forall order, (forall l e, In e (order l) <-> In e l) ->
  forall y now t i,
    wf order y -> generate_ts y now = Some t -> ~ In i (map sid (secrets y)) ->
    (forall e, In e (secrets y) -> lex_lt e (i, t)) /\
    latest (insert order y (i, t)) = Some i.
Proof. exact generated_becomes_latest. Qed.
Print Assumptions C36_generated_becomes_latest.

(** Inside it [latest_timestamp + 1] overflows: no later secret is produced (panic in a debug
    build, timestamp 0 in a release build). *)
Theorem C36_generated_strictly_later_refuted :
  exists (y : state) (now : N),
    wf (fun l => l) y /\ now <= U64MAX /\ generate_ts y now = None.
Proof.
  exists (from_secrets (fun l => l) [(7, U64MAX)]), 1700000000. split; [apply wf_from|].
  split; [vm_compute; discriminate|exact (proj2 generate_overflow_example)].
Qed.
Print Assumptions C36_generated_strictly_later_refuted.

(** Soundness of the boolean oracle pieces evaluated on the implementation's observations. *)
Theorem C36_oracle_is_max_sound :
  forall lat content,
    is_max lat content = true ->
    match lat with
    | Some i => exists t, In (i, t) content /\ forall e, In e content -> lex_le e (i, t)
    | None => forall e, In e content -> sid e = 0 /\ sts e = 0
    end.
Proof. exact is_max_sound. Qed.
Print Assumptions C36_oracle_is_max_sound.

Theorem C36_oracle_gen_ok_sound :
  forall prev lat content,
    gen_ok prev lat content = true ->
    exists e, In e content /\ lat = Some (sid e) /\ forall p, In p prev -> lex_lt p e.
Proof. exact gen_ok_sound. Qed.
Print Assumptions C36_oracle_gen_ok_sound.
