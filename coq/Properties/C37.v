(** C37 — Two-party messaging (2SM) decrypts in any interleaving and rejects replays.

    Only statements here; proofs live in Proofs/TwoParty.v, the model in Model/TwoParty.v
    (symbolic cryptography: ideal PKE, X3DH as an ideal one-shot channel, fresh keys as names —
    PARTIAL in that sense).  [run (init_world ot sym) evs] executes an arbitrary interleaving
    [evs] of [Send]s of both parties, in-order [Recv]s and [Replay]s, for one-time ([ot = true])
    or long-term pre-key bundles, with one ([sym = false]) or both parties able to open the
    session. *)
From Coq Require Import List NArith Bool.
From PV Require Import Model.TwoParty Proofs.TwoParty Oracle.C37 Proofs.C37Oracle.
Import ListNotations.
Local Open Scope N_scope.

(** After ANY interleaving, the next pending message of either direction (send order) is
    accepted and decrypts to exactly its plaintext; it then counts as processed. *)
Theorem C37_decrypts_in_send_order :
  forall (ot sym : bool) (evs : list event),
    forallb in_order_event evs = true ->
    let w := fst (run (init_world ot sym) evs) in
    forall p m q, pending w p = m :: q ->
      exists w', step w (Recv p) = (w', ORecv (plain_of m)) /\ pending w' p = q /\
                 rcvd w' p = rcvd w p + 1.
Proof. exact decrypts_in_send_order. Qed.
Print Assumptions C37_decrypts_in_send_order.

(** The plaintext inside a message is the one handed to [send]. *)
Theorem C37_message_carries_sent_plaintext :
  forall me s x s' m, send me s x = Ok (s', m) -> plain_of m = x.
Proof. exact send_carries_plain. Qed.
Print Assumptions C37_message_carries_sent_plaintext.

(** [done p ++ pending p] is, in order, what the other party sent to [p] (bookkeeping of
    [step]: receives move the head of [pending] to the end of [done], sends append). *)
Theorem C37_queues_keep_send_order :
  forall w e p, in_order_event e = true ->
    let w' := fst (step w e) in
    done w' p ++ pending w' p =
    done w p ++ pending w p ++
      match e with
      | Send x v => if party_eqb p (other x)
                    then match send x (wst w x) v with Ok (_, m) => [m] | Err _ => [] end else []
      | _ => []
      end.
Proof. intros w e p _. apply step_sent. Qed.
Print Assumptions C37_queues_keep_send_order.

(** After ANY interleaving, processing an already processed message again is an error and
    changes nothing. *)
Theorem C37_replay_rejected :
  forall (ot sym : bool) (evs : list event),
    forallb in_order_event evs = true ->
    let w := fst (run (init_world ot sym) evs) in
    forall p i m, nth_error (done w p) i = Some m ->
      exists e, step w (Replay p i) = (w, ORecvErr e).
Proof. exact replay_rejected. Qed.
Print Assumptions C37_replay_rejected.

(** The property in oracle form: the boolean oracle that the check evaluates on the
    implementation's observations ([Oracle/C37.v: check]: every in-order receive yields the
    plaintext of the next message of its direction, every replay is rejected) is true on the
    model's own observations for ANY interleaving. *)
Theorem C37_model_passes_oracle :
  forall (ot sym : bool) (evs : list event),
    forallb in_order_event evs = true ->
    check evs (snd (run (init_world ot sym) evs)) = true.
Proof. exact model_passes_oracle. Qed.
Print Assumptions C37_model_passes_oracle.
