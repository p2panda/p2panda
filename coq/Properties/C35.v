(** C35 — Group data encryption: members agree / hold the latest secret, removed members are cut
    off.

    Only statements here; proofs in Proofs/Dcgka.v over the symbolic knowledge model
    Model/Dcgka.v (PARTIAL: DCGKA internals abstracted to "who is sent which secret", ideal 2SM
    channels and AEAD, plain set DGM, causal delivery, timestamps not modelled — statements about
    ALL secrets imply the one about the latest under any order). *)
From Coq Require Import List Arith Bool.
From PV Require Import Model.Dcgka Proofs.Dcgka Oracle.C35.
Import ListNotations.

(** In EVERY execution (any operations by anybody, any delivery order): a member holds a secret
    only if it generated it, was a recipient of its direct messages, or was added by a message
    whose welcome bundle contained it. *)
Theorem C35_knowledge_is_justified :
  forall n evs c s,
    let w := run (init_world n) evs in
    In s (knows (st w c)) -> justified (msgs w) c s.
Proof. exact knowledge_is_justified. Qed.
Print Assumptions C35_knowledge_is_justified.

(** Removed before generated => never learns: if [g] issues an operation generating secret [s]
    whose direct messages do not go to [c] — in particular when [g] had removed [c] from its
    view before ([C35_recipients_within_view]) — then, whatever happens afterwards, [c] never
    holds [s] unless some later add of [c] carries [s] in its welcome bundle. *)
Theorem C35_removed_never_learns_later :
  forall n evs1 g o evs2 c s1 m,
    let w1 := run (init_world n) evs1 in
    let s := length (msgs w1) in
    g < n -> issue g (st w1 g) s o = Some (s1, m) ->
    c <> g -> ~ In c (m_rcpt m) ->
    let w := run w1 (Issue g o :: evs2) in
    (forall a ma, nth_error (msgs w) a = Some ma -> m_op ma = Add c -> ~ In s (m_bundle ma)) ->
    ~ In s (knows (st w c)).
Proof. exact removed_never_learns_later. Qed.
Print Assumptions C35_removed_never_learns_later.

(** The recipients of an update / remove are inside the issuer's current view (and exclude the
    removed member): somebody already removed from the view is not sent the new secret. *)
Theorem C35_recipients_within_view :
  forall i s k o s1 m c,
    issue i s k o = Some (s1, m) -> (o = Update \/ exists x, o = Remove x) ->
    In c (m_rcpt m) -> In c (view s) /\ c <> i /\ (forall x, o = Remove x -> c <> x).
Proof. exact recipients_within_view. Qed.
Print Assumptions C35_recipients_within_view.

(** Decryption success follows from (and only from) knowledge of the secret. *)
Theorem C35_decrypt_iff_knows :
  forall w j s, can_decrypt w j s = true <-> In s (knows (st w j)).
Proof. exact decrypt_iff_knows. Qed.
Print Assumptions C35_decrypt_iff_knows.

(** Sequential histories (every operation issued by a current member once everything before was
    delivered to everyone, deliveries in any order): all current members agree on the
    membership, hold EVERY secret generated so far — hence the latest — and decrypt data
    encrypted with any of them. *)
Theorem C35_members_know_all_secrets_sequential :
  forall n w M, seq_exec n w M ->
    forall j, In j M ->
      welcomed (st w j) = true /\ (forall x, In x (view (st w j)) <-> In x M) /\
      forall s, generated (msgs w) s -> In s (knows (st w j)) /\ can_decrypt w j s = true.
Proof. exact seq_members_hold_and_decrypt. Qed.
Print Assumptions C35_members_know_all_secrets_sequential.

(** The unrestricted statement "after any history delivered in causal order all current members
    hold the latest secret" is FALSE for the code as it is: an add concurrent with an update. *)
Theorem C35_members_know_latest_refuted :
  exists n evs,
    let w := run (init_world n) evs in
    quiescent w /\
    (forall j, j < n -> welcomed (st w j) = true /\ view (st w j) = seq 0 n) /\
    exists s j, j < n /\ newest (msgs w) s /\ ~ In s (knows (st w j)) /\ can_decrypt w j s = false.
Proof. exact members_know_latest_refuted. Qed.
Print Assumptions C35_members_know_latest_refuted.

(** Outside the known class (Known = some operation is issued while an earlier one is not yet
    delivered to everyone, i.e. the history is not [seq_exec]): every current member holds the
    newest secret. *)
Theorem C35_members_know_latest_outside_known :
  forall n w M, seq_exec n w M ->
    forall s j, newest (msgs w) s -> In j M -> In s (knows (st w j)).
Proof. exact seq_members_know_newest. Qed.
Print Assumptions C35_members_know_latest_outside_known.
