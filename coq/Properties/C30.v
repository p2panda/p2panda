(** C30 — Confidential discovery yields exactly the common topics.

    Only statements here; proofs live in Proofs/Psi.v (model: Model/Psi.v).  Every theorem is
    for all topic lists, all address books, all salt halves, and every salted hash [H]; the
    hypotheses on [H] ([Hinj]: injective in the topic for a fixed salt; [Hraw]: never a raw
    topic) and on topic equality are the trusted assumptions about BLAKE3 / [Topic]. *)
From Coq Require Import List Arith NArith.
From PV Require Import Model.Psi Proofs.Psi Proofs.PsiOracle Oracle.C30.
Import ListNotations.

(** Two honest peers both finish and both obtain, as a set without repetitions, exactly the
    intersection of their topic sets. *)
Theorem C30_both_get_intersection :
  forall (topic half : Type) (teqb : topic -> topic -> bool),
    (forall a b, teqb a b = true <-> a = b) ->
  forall H : topic -> salt half -> topic,
    (forall s t1 t2, H t1 s = H t2 s -> t1 = t2) ->
  forall (pa pb : party topic) (sa sb : half),
  exists ra rb,
    alice_outcome topic half teqb H pa pb sa sb = Done ra /\
    bob_outcome topic half teqb H pa pb sa sb = Done rb /\
    (forall t, In t (res_topics topic ra) <-> In t (p_topics topic pa) /\ In t (p_topics topic pb)) /\
    (forall t, In t (res_topics topic rb) <-> In t (p_topics topic pa) /\ In t (p_topics topic pb)) /\
    NoDup (res_topics topic ra) /\ NoDup (res_topics topic rb).
Proof. exact both_get_intersection. Qed.
Print Assumptions C30_both_get_intersection.

(** No message of the session carries a topic of either side (nor any other raw value). *)
Theorem C30_no_raw_topic_in_messages :
  forall (topic half : Type) (teqb : topic -> topic -> bool),
    (forall a b, teqb a b = true <-> a = b) ->
  forall (H : topic -> salt half -> topic) (raw : topic -> Prop),
    (forall t s, ~ raw (H t s)) ->
  forall (pa pb : party topic) (sa sb : half),
    Forall raw (p_topics topic pa) -> Forall raw (p_topics topic pb) ->
  forall m, In m (transcript topic half teqb H pa pb sa sb) ->
  forall t, In t (p_topics topic pa) \/ In t (p_topics topic pb) -> ~ occurs topic half t m.
Proof. exact no_raw_topic_in_messages. Qed.
Print Assumptions C30_no_raw_topic_in_messages.

Theorem C30_no_raw_word_in_messages :
  forall (topic half : Type) (teqb : topic -> topic -> bool),
    (forall a b, teqb a b = true <-> a = b) ->
  forall (H : topic -> salt half -> topic) (raw : topic -> Prop),
    (forall t s, ~ raw (H t s)) ->
  forall (pa pb : party topic) (sa sb : half) m,
    In m (transcript topic half teqb H pa pb sa sb) -> forall t, raw t -> ~ occurs topic half t m.
Proof. intros topic half teqb _. exact (no_raw_word_in_messages topic half teqb). Qed.
Print Assumptions C30_no_raw_word_in_messages.

(** Under restricted sharing the node infos a peer sends are rows of its own address book that
    are the peer itself or a non-stale node subscribed to a common topic ([in_scope]). *)
Theorem C30_restricted_sharing_scope :
  forall (topic half : Type) (teqb : topic -> topic -> bool),
    (forall a b, teqb a b = true <-> a = b) ->
  forall H : topic -> salt half -> topic,
    (forall s t1 t2, H t1 s = H t2 s -> t1 = t2) ->
  forall (pa pb : party topic) (sa sb : half),
    (p_restricted topic pa = true ->
     forall m id tr, In m (alice_sent topic half teqb H pa pb sa sb) -> In (id, tr) (infos_of topic half m) ->
                     in_scope topic pa pb id tr) /\
    (p_restricted topic pb = true ->
     forall m id tr, In m (bob_sent topic half teqb H pa pb sa sb) -> In (id, tr) (infos_of topic half m) ->
                     in_scope topic pb pa id tr).
Proof. exact restricted_sharing_scope. Qed.
Print Assumptions C30_restricted_sharing_scope.

(** ... and it withholds nothing it should share. *)
Theorem C30_restricted_sharing_complete :
  forall (topic half : Type) (teqb : topic -> topic -> bool),
    (forall a b, teqb a b = true <-> a = b) ->
  forall H : topic -> salt half -> topic,
    (forall s t1 t2, H t1 s = H t2 s -> t1 = t2) ->
  forall (pa pb : party topic) (sa sb : half) (n : node topic) (tr : N),
    p_restricted topic pa = true ->
    In n (p_book topic pa) -> nstale topic n = false -> ntransport topic n = Some tr ->
    (exists t, In t (ntopics topic n) /\ In t (p_topics topic pa) /\ In t (p_topics topic pb)) ->
    exists m v, In m (alice_sent topic half teqb H pa pb sa sb) /\ In (nid topic n, v) (infos_of topic half m).
Proof. intros topic half teqb Hs H _. exact (restricted_sharing_complete topic half teqb Hs H). Qed.
Print Assumptions C30_restricted_sharing_complete.

Theorem C30_unrestricted_sharing_scope :
  forall (topic half : Type) (teqb : topic -> topic -> bool) (H : topic -> salt half -> topic)
         (pa pb : party topic) (sa sb : half),
    p_restricted topic pa = false ->
    forall m id tr, In m (alice_sent topic half teqb H pa pb sa sb) -> In (id, tr) (infos_of topic half m) ->
    exists n, In n (p_book topic pa) /\ nid topic n = id /\ ntransport topic n = Some tr /\ nstale topic n = false.
Proof. exact unrestricted_sharing_scope. Qed.
Print Assumptions C30_unrestricted_sharing_scope.

(** Each side's result carries exactly the node infos the other side sent. *)
Theorem C30_results_carry_peer_infos :
  forall (topic half : Type) (teqb : topic -> topic -> bool) (H : topic -> salt half -> topic)
         (pa pb : party topic) (sa sb : half),
  exists ra rb,
    alice_outcome topic half teqb H pa pb sa sb = Done ra /\
    bob_outcome topic half teqb H pa pb sa sb = Done rb /\
    In (Nodes (res_infos topic ra)) (bob_sent topic half teqb H pa pb sa sb) /\
    In (Nodes (res_infos topic rb)) (alice_sent topic half teqb H pa pb sa sb) /\
    res_remote topic ra = p_remote topic pa /\ res_remote topic rb = p_remote topic pb.
Proof. exact results_carry_peer_infos. Qed.
Print Assumptions C30_results_carry_peer_infos.

(** The protocol state machine, against any peer: a side succeeds iff the expected messages
    arrive in order; the first deviation decides the error ([UnexpectedMessage] for a message of
    another kind, [Stream] for a closed or failing stream); the number of messages it has sent is
    determined by how many it accepted. *)
Theorem C30_alice_message_order :
  forall (topic half : Type) (teqb : topic -> topic -> bool) (H : topic -> salt half -> topic)
         (p : party topic) (sa : half) (inc : list (rx topic half)),
    outcome_err topic (snd (alice_run topic half teqb H p sa inc)) = fst (expect topic half alice_expects inc 0) /\
    length (fst (alice_run topic half teqb H p sa inc)) = S (snd (expect topic half alice_expects inc 0)).
Proof. exact alice_message_order. Qed.
Print Assumptions C30_alice_message_order.

Theorem C30_bob_message_order :
  forall (topic half : Type) (teqb : topic -> topic -> bool) (H : topic -> salt half -> topic)
         (p : party topic) (sb : half) (inc : list (rx topic half)),
    outcome_err topic (snd (bob_run topic half teqb H p sb inc)) = fst (expect topic half bob_expects inc 0) /\
    length (fst (bob_run topic half teqb H p sb inc)) = Nat.min 2 (snd (expect topic half bob_expects inc 0)).
Proof. exact bob_message_order. Qed.
Print Assumptions C30_bob_message_order.

(** A sink that takes only [k] messages: same behaviour up to the first refused send, which is
    reported as [Sink] ([with_sink] cuts the unlimited run there). *)
Theorem C30_sink_failure :
  forall (topic half : Type) (teqb : topic -> topic -> bool) (H : topic -> salt half -> topic)
         (k : nat) (p : party topic) (s : half) (inc : list (rx topic half)),
    alice_run_k topic half teqb H k p s inc = with_sink topic half k (alice_run topic half teqb H p s inc) /\
    bob_run_k topic half teqb H k p s inc = with_sink topic half k (bob_run topic half teqb H p s inc).
Proof. intros; split; [apply alice_sink_failure|apply bob_sink_failure]. Qed.
Print Assumptions C30_sink_failure.

(** Causality of both sides and closure of the session: [session] is the unique run of the two
    deterministic sides over reliable ordered channels. *)
Theorem C30_sent_monotone :
  forall (topic half : Type) (teqb : topic -> topic -> bool) (H : topic -> salt half -> topic)
         (p : party topic) (s : half) (inc more : list (rx topic half)),
    (exists later, fst (alice_run topic half teqb H p s (inc ++ more)) = fst (alice_run topic half teqb H p s inc) ++ later) /\
    (exists later, fst (bob_run topic half teqb H p s (inc ++ more)) = fst (bob_run topic half teqb H p s inc) ++ later).
Proof. intros; split; [apply alice_sent_monotone|apply bob_sent_monotone]. Qed.
Print Assumptions C30_sent_monotone.

Theorem C30_session_closed :
  forall (topic half : Type) (teqb : topic -> topic -> bool) (H : topic -> salt half -> topic)
         (pa pb : party topic) (sa sb : half),
    alice_run topic half teqb H pa sa (rxs topic half (bob_sent topic half teqb H pa pb sa sb)) =
      (alice_sent topic half teqb H pa pb sa sb, alice_outcome topic half teqb H pa pb sa sb) /\
    bob_run topic half teqb H pb sb (rxs topic half (alice_sent topic half teqb H pa pb sa sb)) =
      (bob_sent topic half teqb H pa pb sa sb, bob_outcome topic half teqb H pa pb sa sb).
Proof. exact session_closed. Qed.
Print Assumptions C30_session_closed.

(** Against any peer: never a raw topic on the wire, never a topic in the result that is not the
    side's own, restricted sharing limited to the reported topics. *)
Theorem C30_never_sends_raw_any_peer :
  forall (topic half : Type) (teqb : topic -> topic -> bool),
    (forall a b, teqb a b = true <-> a = b) ->
  forall (H : topic -> salt half -> topic) (raw : topic -> Prop),
    (forall t s, ~ raw (H t s)) ->
  forall (p : party topic) (s : half) (inc : list (rx topic half)) m,
    In m (fst (alice_run topic half teqb H p s inc)) \/ In m (fst (bob_run topic half teqb H p s inc)) ->
    forall t, raw t -> ~ occurs topic half t m.
Proof.
  intros topic half teqb _ H raw Hr p s inc m [Hm|Hm].
  - exact (alice_never_sends_raw topic half teqb H raw Hr p s inc m Hm).
  - exact (bob_never_sends_raw topic half teqb H raw Hr p s inc m Hm).
Qed.
Print Assumptions C30_never_sends_raw_any_peer.

Theorem C30_result_within_own_topics_any_peer :
  forall (topic half : Type) (teqb : topic -> topic -> bool),
    (forall a b, teqb a b = true <-> a = b) ->
  forall (H : topic -> salt half -> topic) (p : party topic) (s : half) (inc : list (rx topic half)) r,
    snd (alice_run topic half teqb H p s inc) = Done r \/ snd (bob_run topic half teqb H p s inc) = Done r ->
    forall t, In t (res_topics topic r) -> In t (p_topics topic p).
Proof.
  intros topic half teqb _ H p s inc r [E|E].
  - exact (alice_result_within_own_topics topic half teqb H p s inc r E).
  - exact (bob_result_within_own_topics topic half teqb H p s inc r E).
Qed.
Print Assumptions C30_result_within_own_topics_any_peer.

Theorem C30_alice_restricted_scope_any_peer :
  forall (topic half : Type) (teqb : topic -> topic -> bool),
    (forall a b, teqb a b = true <-> a = b) ->
  forall (H : topic -> salt half -> topic) (p : party topic) (sa : half) (inc : list (rx topic half)) r,
    p_restricted topic p = true -> snd (alice_run topic half teqb H p sa inc) = Done r ->
    forall m id tr, In m (fst (alice_run topic half teqb H p sa inc)) -> In (id, tr) (infos_of topic half m) ->
    in_scope_of topic p (res_topics topic r) id tr.
Proof. exact alice_restricted_scope_any_peer. Qed.
Print Assumptions C30_alice_restricted_scope_any_peer.

Theorem C30_bob_restricted_scope_any_peer :
  forall (topic half : Type) (teqb : topic -> topic -> bool),
    (forall a b, teqb a b = true <-> a = b) ->
  forall (H : topic -> salt half -> topic) (p : party topic) (sb : half) (inc : list (rx topic half)),
    p_restricted topic p = true ->
    forall m id tr, In m (fst (bob_run topic half teqb H p sb inc)) -> In (id, tr) (infos_of topic half m) ->
    exists common, (forall t, In t common -> In t (p_topics topic p)) /\ in_scope_of topic p common id tr.
Proof. exact bob_restricted_scope_any_peer. Qed.
Print Assumptions C30_bob_restricted_scope_any_peer.

(** The hypotheses are satisfiable: the term-algebra instance used for evaluation. *)
Theorem C30_hypotheses_satisfiable :
  (forall a b, cw_eqb a b = true <-> a = b) /\
  (forall (s : salt N) t1 t2, cH t1 s = cH t2 s -> t1 = t2) /\
  (forall t (s : salt N), ~ cw_raw (cH t s)).
Proof. split; [exact cw_eqb_spec|split; [exact cH_inj|exact cH_not_raw]]. Qed.
Print Assumptions C30_hypotheses_satisfiable.

(** Soundness of the oracles evaluated on the implementation's observations. *)
Theorem C30_check_honest_sound :
  forall ra rb ta tb bookA bookB oa ob sa sb leaks,
  check_honest ra rb ta tb bookA bookB oa ob sa sb leaks = true ->
  exists rA rB,
    oa = Done rA /\ ob = Done rB /\
    (forall t, In t (res_topics cw rA) <-> In t (map Raw ta) /\ In t (map Raw tb)) /\
    (forall t, In t (res_topics cw rB) <-> In t (map Raw ta) /\ In t (map Raw tb)) /\
    leaks = 0 /\
    (forall m, In m (sa ++ sb) -> forall t, cw_raw t -> ~ occurs cw N t m) /\
    (ra = true -> forall m id tr, In m sa -> In (id, tr) (infos_of cw N m) ->
       in_scope cw (alice_party ra ta bookA) (bob_party rb tb bookB) id tr) /\
    (rb = true -> forall m id tr, In m sb -> In (id, tr) (infos_of cw N m) ->
       in_scope cw (bob_party rb tb bookB) (alice_party ra ta bookA) id tr).
Proof. exact check_honest_sound. Qed.
Print Assumptions C30_check_honest_sound.

Theorem C30_check_script_sound :
  forall alice r ts book script sink o sent leaks,
  check_script alice r ts book script sink o sent leaks = true ->
  let spec := expect cw N (if alice then alice_expects else bob_expects)
                     (map (to_rx (if alice then 1 else 0)%N) script) 0 in
  let want := if alice then S (snd spec) else Nat.min 2 (snd spec) in
  let k := match sink with Some k => k | None => 3 end in
  (want <= k -> outcome_err cw o = fst spec /\ List.length sent = want) /\
  (k < want -> outcome_err cw o = Some SinkErr /\ List.length sent = k) /\
  leaks = 0 /\
  (forall m, In m sent -> forall t, cw_raw t -> ~ occurs cw N t m).
Proof. exact check_script_sound. Qed.
Print Assumptions C30_check_script_sound.
