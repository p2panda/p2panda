(** C04 — Pruning is authenticated and scoped to the prune operation's own log.

    Only statements here; proofs live in Proofs/Ingest.v, the model in Model/Ingest.v
    ([deliver] = one event through the node pipeline: ingest, then log-prune) and Model/Node.v
    (how the entry points sync / import / publish / replay reach [deliver]).  The theorems hold
    for every store and every operation: no hypothesis on the history. *)
From Coq Require Import List Arith NArith Bool.
From PV Require Import Model.Ingest Model.Node Proofs.Ingest Proofs.Node.
Import ListNotations.
Local Open Scope N_scope.

(** An entry disappears only as the effect of a validated, prune-flagged, successfully processed
    operation, and only if it belongs to that operation's own (author, log) below its seq. *)
Theorem C04_deleted_only_by_authentic_prune_in_scope :
  forall (s : store) (o : op) (r : row),
    In r s -> ~ In r (fst (deliver s o)) ->
    o_valid o = true /\ o_prune o = true /\ res_ok (snd (deliver s o)) = true /\
    r_author r = o_author o /\ r_log r = o_log o /\ r_seq r < o_seq o.
Proof. exact deleted_only_by_authentic_prune_in_scope. Qed.
Print Assumptions C04_deleted_only_by_authentic_prune_in_scope.

(** ... and such an operation deletes exactly those entries. *)
Theorem C04_prune_deletes_exactly_the_prefix :
  forall (s : store) (o : op) (r : row),
    o_prune o = true -> res_ok (snd (deliver s o)) = true -> In r s ->
    (In r (fst (deliver s o)) <->
     ~ (r_author r = o_author o /\ r_log r = o_log o /\ r_seq r < o_seq o)).
Proof. exact prune_deletes_exactly_the_prefix. Qed.
Print Assumptions C04_prune_deletes_exactly_the_prefix.

(** An operation that fails validation (forged signature, claims another author, ...) changes
    nothing, with or without prune flag. *)
Theorem C04_invalid_event_changes_nothing :
  forall (s : store) (o : op), o_valid o = false -> deliver s o = (s, Rejected EInvalid).
Proof. exact invalid_event_changes_nothing. Qed.
Print Assumptions C04_invalid_event_changes_nothing.

(** More generally: any event whose ingest failed leaves the store as it was. *)
Theorem C04_failed_event_changes_nothing :
  forall (s : store) (o : op), res_ok (snd (deliver s o)) = false -> fst (deliver s o) = s.
Proof. exact failed_event_changes_nothing. Qed.
Print Assumptions C04_failed_event_changes_nothing.

(** In particular, without any forged signature: a validly signed prune-flagged operation that is
    not yet stored and lies at or below the latest stored entry of its log (a fork of the log, or
    an older prune point arriving after a newer one) is rejected and deletes nothing. *)
Theorem C04_outdated_prune_point_changes_nothing :
  forall (s : store) (o : op) (p : row),
    o_valid o = true -> o_prune o = true -> has_op s (o_id o) = false ->
    latest s (o_author o) (o_log o) = Some p -> o_seq o <= r_seq p ->
    fst (deliver s o) = s /\ res_ok (snd (deliver s o)) = false.
Proof. intros s o p _ _. apply not_above_tip_changes_nothing. Qed.
Print Assumptions C04_outdated_prune_point_changes_nothing.

Theorem C04_no_prune_flag_no_deletion :
  forall (s : store) (o : op) (r : row), o_prune o = false -> In r s -> In r (fst (deliver s o)).
Proof. exact no_prune_flag_no_deletion. Qed.
Print Assumptions C04_no_prune_flag_no_deletion.

(** Whichever entry point.  Import and the sync stream (both [process_operation]): *)
Theorem C04_import_deletes_only_in_scope :
  forall (me : N) (s : store) (o : op) (r : row),
    In r s -> ~ In r (fst (node_step me s (NImport o))) ->
    o_valid o = true /\ o_prune o = true /\ snd (node_step me s (NImport o)) = true /\
    r_author r = o_author o /\ r_log r = o_log o /\ r_seq r < o_seq o.
Proof. exact import_deletes_only_in_scope. Qed.
Print Assumptions C04_import_deletes_only_in_scope.

Theorem C04_import_of_invalid_changes_nothing :
  forall (me : N) (s : store) (o : op), o_valid o = false -> node_step me s (NImport o) = (s, false).
Proof. exact import_of_invalid_changes_nothing. Qed.
Print Assumptions C04_import_of_invalid_changes_nothing.

(** Whatever the reason of the failure (signature, encoding, payload, log integrity): an import
    that is reported as failed left the store as it was. *)
Theorem C04_failed_import_changes_nothing :
  forall (me : N) (s : store) (o : op),
    snd (node_step me s (NImport o)) = false -> fst (node_step me s (NImport o)) = s.
Proof. exact failed_import_changes_nothing. Qed.
Print Assumptions C04_failed_import_changes_nothing.

Theorem C04_import_of_outdated_prune_point_changes_nothing :
  forall (me : N) (s : store) (o : op) (p : row),
    o_valid o = true -> o_prune o = true -> has_op s (o_id o) = false ->
    latest s (o_author o) (o_log o) = Some p -> o_seq o <= r_seq p ->
    node_step me s (NImport o) = (s, false).
Proof. intros me s o p _ _. apply import_not_above_tip_changes_nothing. Qed.
Print Assumptions C04_import_of_outdated_prune_point_changes_nothing.

(** Publish / prune by the node itself: only the node's own log of that topic, and only with
    the prune flag. *)
Theorem C04_publish_deletes_only_own_prefix :
  forall (me : N) (s : store) (l : N) (prune body : bool) (id : N) (r : row),
    In r s -> ~ In r (fst (node_step me s (NPublish l prune body id))) ->
    prune = true /\ r_author r = me /\ r_log r = l /\
    r_seq r < o_seq (forge_op me s l prune body id).
Proof. exact publish_deletes_only_own_prefix. Qed.
Print Assumptions C04_publish_deletes_only_own_prefix.

(** Replay of the stored operations of a topic: an entry can only go if a prune-flagged entry of
    the same (author, log) above it is itself stored. *)
Theorem C04_replay_deletes_only_below_stored_prune_points :
  forall (me : N) (s : store) (l : N) (r : row),
    In r s -> ~ In r (fst (node_step me s (NReplay l))) ->
    exists x, In x s /\ r_prune x = true /\ r_author x = r_author r /\ r_log x = r_log r /\
              r_log x = l /\ r_seq r < r_seq x.
Proof. exact replay_deletes_only_below_stored_prune_points. Qed.
Print Assumptions C04_replay_deletes_only_below_stored_prune_points.

(** Regression witness: the pipeline as it was before the repair (failed events still reach
    LogPrune) lets a forged prune-flagged operation wipe the victim's three-entry log. *)
Theorem C04_unrepaired_pipeline_refuted :
  snd (deliver_asis_pipeline (run c04_victim_log) c04_forged) = Rejected EInvalid /\
  List.length (run c04_victim_log) = 3%nat /\
  fst (deliver_asis_pipeline (run c04_victim_log) c04_forged) = [].
Proof. exact deliver_asis_pipeline_refuted. Qed.
Print Assumptions C04_unrepaired_pipeline_refuted.

(** Second regression witness (seeded change C04-1): a pipeline that drops the prune request only
    for operations that could not be authenticated lets a validly signed but rejected prune point
    (fork at seq 3 of a six-entry log) delete the entries 0, 1, 2. *)
Theorem C04_prune_unless_invalid_pipeline_refuted :
  snd (deliver_prune_unless_invalid (run c04_six_log) c04_outdated_prune) = Rejected ESeqNonIncremental /\
  map r_seq (run c04_six_log) = [0; 1; 2; 3; 4; 5] /\
  map r_seq (fst (deliver_prune_unless_invalid (run c04_six_log) c04_outdated_prune)) = [3; 4; 5].
Proof. exact deliver_prune_unless_invalid_refuted. Qed.
Print Assumptions C04_prune_unless_invalid_pipeline_refuted.
