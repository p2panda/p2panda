(** C20 -- Each sync side sends exactly one Done, even under concurrent pruning.

    Only statements here; proofs live in Proofs/LogSyncC20.v.  [run true] is the model of
    [LogSync::run] after the repair (Model/LogSync.v); an input sequence is any interleaving of
    [Tick r] (the code advances to its next store call / send, the store holding [r] at that
    moment -- an arbitrary, possibly different replica at every tick), [Recv m] (any message,
    honest or not) and [Closed]. *)
From Coq Require Import List Arith NArith.
From PV Require Import Model.Dedup Model.LogSync Proofs.LogSyncC20.
Import ListNotations.

(** For every input sequence the messages sent so far never leave the grammar
    Have . (Done | PreSync . Operation* . Done) ([gram] is its recogniser, [GBad] its sink). *)
Theorem C20_message_grammar :
  forall (logs : list (N * list N)) (cap : nat) (ins : list input),
    gram (sent (snd (run true (init logs cap) ins))) <> GBad.
Proof. exact message_grammar. Qed.
Print Assumptions C20_message_grammar.

(** When the session reaches its end the sent messages are a complete word:
    [Have; Done] or [Have; PreSync; Operation...; Done]. *)
Theorem C20_message_grammar_complete :
  forall (logs : list (N * list N)) (cap : nat) (ins : list input),
    ph (fst (run true (init logs cap) ins)) = PEnd ->
    (exists h, sent (snd (run true (init logs cap) ins)) = [Have h; Done]) \/
    (exists h o b ops, sent (snd (run true (init logs cap) ins)) = Have h :: PreSync o b :: ops ++ [Done]
                       /\ Forall (fun m => exists a l w, m = Operation a l w) ops).
Proof. exact message_grammar_complete. Qed.
Print Assumptions C20_message_grammar_complete.

(** Nothing is ever sent after a Done (in particular no second Done). *)
Theorem C20_nothing_after_done :
  forall (logs : list (N * list N)) (cap : nat) (ins : list input) (ms1 ms2 : list msg),
    sent (snd (run true (init logs cap) ins)) = ms1 ++ Done :: ms2 -> ms2 = [].
Proof. exact nothing_after_done. Qed.
Print Assumptions C20_nothing_after_done.

(** The code as found ([run false], no precondition on the send arm) sends Have . Done . Done
    when the log is pruned between the heights and the sizes query. *)
Theorem C20_unrepaired_refuted :
  exists logs cap ins,
    sent (snd (run false (init logs cap) ins)) = [Have [(0, [(0, 1)])]; Done; Done]%N /\
    gram (sent (snd (run false (init logs cap) ins))) = GBad.
Proof. exact unrepaired_refuted. Qed.
Print Assumptions C20_unrepaired_refuted.
