(** C17 — An ephemeral subscription never stalls on invalid messages.

    Only statements here; proofs live in Proofs/EphemeralSub.v and Proofs/C17Oracle.v.  The
    model (Model/EphemeralSub.v) stands for [EphemeralStreamSubscription::poll_next] *after*
    "fix: ephemeral subscription keeps polling after an invalid or lagged item"; [poll_asis] is
    the code before it, kept for the regression theorems at the end. *)
From Coq Require Import List NArith Bool Arith.
From PV Require Import Model.EphemeralSub Proofs.EphemeralSub Oracle.C17 Proofs.C17Oracle.
Import ListNotations.

(** A valid message behind any finite prefix of invalid / lagged items is yielded by the very
    next poll. *)
Theorem C17_valid_eventually_yielded :
  forall (c : bool) (pre : list item) (v : N) (rest : list item),
    Forall (fun i => is_valid i = false) pre ->
    poll_fixed c (pre ++ Valid v :: rest) = (Yield v, rest, false).
Proof. exact valid_eventually_yielded. Qed.
Print Assumptions C17_valid_eventually_yielded.

(** Waker contract: [Pending] is only returned with nothing left unread and the waker
    registered with the channel (so the next send or the close wakes the consumer). *)
Theorem C17_pending_is_live :
  forall (c : bool) (q q' : list item) (reg : bool),
    poll_fixed c q = (Pending, q', reg) ->
    q' = [] /\ reg = true /\ c = false /\ valids q = [].
Proof. exact pending_is_live. Qed.
Print Assumptions C17_pending_is_live.

(** All interleavings: for every capacity, every grouping of sends into phases (the consumer
    runs between phases under an executor that polls it only when woken), every mix of valid
    and invalid messages and every overflow (lag): the consumer is handed, phase by phase,
    exactly the valid messages the channel retained; it ends when the channel is closed and is
    otherwise parked with its waker registered. *)
Theorem C17_never_stalls :
  forall (cap : nat) (phs : list (list item)) (do_close : bool),
    1 <= cap -> Forall (Forall (fun i => i <> Lagged)) phs ->
    let '(s, ys) := scenario poll_fixed cap phs do_close in
    ys = expected cap phs /\
    out s = concat (expected cap phs) /\
    finished s = do_close /\
    (do_close = false -> Parked s).
Proof. exact never_stalls. Qed.
Print Assumptions C17_never_stalls.

(** The oracle run on the implementation's observations is sound for that statement. *)
Theorem C17_oracle_sound :
  forall (cap : nat) (phs : list (list item)) (c : bool) (ys : list (list N)) (fin stall : bool),
    check cap phs c ys fin stall = true ->
    ys = expected cap phs /\ fin = c /\ stall = false.
Proof. exact check_sound. Qed.
Print Assumptions C17_oracle_sound.

(** Regression (code before the repair): one invalid message in front of a valid one and the
    valid one is never yielded ... *)
Theorem C17_asis_refuted :
  exists cap phs,
    1 <= cap /\ Forall (Forall (fun i => i <> Lagged)) phs /\
    snd (scenario poll_asis cap phs false) <> expected cap phs.
Proof. exact asis_refuted. Qed.
Print Assumptions C17_asis_refuted.

(** ... nor is anything sent afterwards: a consumer in [Pending] without a registered wake-up
    is never polled again by an executor honouring the waker contract. *)
Theorem C17_asis_stalled_forever :
  forall (poll : bool -> list item -> pollres) (cap : nat) (phs : list (list item)) (s : task),
    woken s = false /\ registered s = false ->
    snd (phases poll cap s phs) = map (fun _ => []) phs.
Proof. exact stalled_forever. Qed.
Print Assumptions C17_asis_stalled_forever.
