(** C28 — Discovery backoff stays within its configured bounds.

    Only statements here; proofs live in Proofs/Backoff.v.  [R], [sample] stand for the random
    number generator ([sample lo hi r] = [rng.random_range(lo..hi)]); durations are whole
    milliseconds; the clock ([elapsed] = [last_reset_at.elapsed()]) moves by arbitrary [Adv] /
    [Deadline] operations. *)
From Coq Require Import List Arith NArith ZArith.
From PV Require Import Model.Backoff Proofs.Backoff Oracle.C28.
Import ListNotations.
Local Open Scope N_scope.

(** For every generator (no assumption on what it answers — any seed, any algorithm), every
    configuration with [initial_value <= max_value], and every sequence of increments, resets and
    elapsed time: after construction and after every operation the delay is never below the
    initial value and never above the maximum. *)
Theorem C28_bounds :
  forall (R : Type) (sample : N -> N -> R -> N * R) (cfg : config) (r : R) (ops : list op),
    initial_value cfg <= max_value cfg ->
    Forall (fun s => initial_value cfg <= value s <= max_value cfg)
           (trace R sample cfg (new R sample cfg r) ops).
Proof. exact bounds. Qed.
Print Assumptions C28_bounds.

(** Once the reset interval has elapsed the next [increment] returns to the initial value and
    restarts the interval; the explicit [reset] does so at any time. *)
Theorem C28_resets_after_interval :
  forall (R : Type) (sample : N -> N -> R -> N * R) (cfg : config) (s : state R),
    (reset_after s <= elapsed s ->
       value (increment R sample cfg s) = initial_value cfg /\ elapsed (increment R sample cfg s) = 0) /\
    (value (reset R sample cfg s) = initial_value cfg /\ elapsed (reset R sample cfg s) = 0).
Proof. intros. split; [apply resets_after_interval|apply reset_value]. Qed.
Print Assumptions C28_resets_after_interval.

(** Not before: while the interval has not elapsed, [increment] keeps interval and clock and never
    lowers a delay that is within the maximum. *)
Theorem C28_no_reset_before_interval :
  forall (R : Type) (sample : N -> N -> R -> N * R) (cfg : config) (s : state R),
    elapsed s < reset_after s -> value s <= max_value cfg ->
    reset_after (increment R sample cfg s) = reset_after s /\
    elapsed (increment R sample cfg s) = elapsed s /\
    value s <= value (increment R sample cfg s).
Proof. exact no_reset_before_interval. Qed.
Print Assumptions C28_no_reset_before_interval.

(** With a generator that answers within the requested range: the new interval lies in
    [min_reset, max_reset) and an increment below the maximum adds a step from
    [min_increment, max_increment), cut off at the maximum. *)
Theorem C28_draws_in_configured_ranges :
  forall (R : Type) (sample : N -> N -> R -> N * R) (cfg : config),
    (forall lo hi r, lo < hi -> lo <= fst (sample lo hi r) /\ fst (sample lo hi r) < hi) ->
    forall s : state R,
      (min_reset cfg < max_reset cfg ->
         min_reset cfg <= reset_after (reset R sample cfg s) /\ reset_after (reset R sample cfg s) < max_reset cfg) /\
      (min_increment cfg < max_increment cfg -> elapsed s < reset_after s -> value s < max_value cfg ->
         exists k, min_increment cfg <= k /\ k < max_increment cfg /\
                   value (increment R sample cfg s) = N.min (value s + k) (max_value cfg)).
Proof.
  intros R sample cfg H s. split.
  - apply reset_interval_in_range; exact H.
  - apply increment_size; exact H.
Qed.
Print Assumptions C28_draws_in_configured_ranges.

(** The model of rand's sampler (Canon's method on any word stream, i.e. any seed) is such a
    generator. *)
Theorem C28_rand_sampler_in_range :
  forall (lo hi : N) (words : list N),
    lo < hi -> lo <= fst (canon_sample lo hi words) /\ fst (canon_sample lo hi words) < hi.
Proof. exact canon_in_range. Qed.
Print Assumptions C28_rand_sampler_in_range.

(** For the record — the code before the repair ([increment] clamped only on the next call):
    default configuration, draws within their ranges, seven increments, delay 33 994 > 30 000. *)
Theorem C28_asis_late_clamp_refuted :
  exists (script : list N) (ops : list op),
    valid default_config = true /\
    ~ Forall (fun s => value s <= max_value default_config)
        (trace_asis (list N) script_sample default_config
           (new (list N) script_sample default_config script) ops).
Proof. exact late_clamp_refuted. Qed.
Print Assumptions C28_asis_late_clamp_refuted.
