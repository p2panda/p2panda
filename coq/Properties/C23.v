(** C23 — Live mode forwards every new operation once to every other session.

    Only statements here; proofs live in Proofs/Live.v.  Every theorem holds for EVERY label
    sequence [tr] (any interleaving of arrivals — with duplicates from several sessions —, manager
    steps, session pumps and local publications) "within the de-duplication window": the
    operations of the flow and of the sync-phase seeds come from a finite universe [U] that fits
    into the session buffers ([capS]) and the manager's buffer ([capM]). *)
From Coq Require Import List Arith NArith Bool.
From PV Require Import Model.Dedup Model.Live Proofs.Live Oracle.C23 Proofs.LiveOracle.
Import ListNotations.

(** A manager step appends the operation to the live channel of every other session of the
    topic and to no other channel ... *)
Theorem C23_forward_step :
  forall (c : config) (st : state) (s op : N) (r : list N),
    evq st s = op :: r ->
    forall x, inq (step c st (Mgr s)) x = if fwd c s x then inq st x ++ [op] else inq st x.
Proof. exact forward_step. Qed.
Print Assumptions C23_forward_step.

(** ... in particular never to the session it came from. *)
Theorem C23_forward_not_to_origin : forall (c : config) (s : N), fwd c s s = false.
Proof. exact forward_not_to_origin. Qed.
Print Assumptions C23_forward_not_to_origin.

(** Once nothing is in flight, an operation that arrived on one session is known on every
    session of the topic: sent to its remote, or arrived from it, or already synced to it. *)
Theorem C23_forwarded_to_all_others :
  forall (c : config) (seed : N -> list N) (capS capM : nat) (U : list N),
    length U <= capS -> length U <= capM ->
    (forall s op, In op (seed s) -> In op U) -> (forall s, NoDup (seed s)) ->
    (forall a b, same_topic c a b = true -> incl (seed a) (seed b)) ->
    forall (tr : list label) (s op s' : N),
      Forall (label_ok U) tr -> quiescent c (reach c seed capS capM tr) = true ->
      In (EArr s op) (log (reach c seed capS capM tr)) -> same_topic c s s' = true ->
      In (ESent s' op) (log (reach c seed capS capM tr)) \/
      In (EArr s' op) (log (reach c seed capS capM tr)) \/ In op (seed s').
Proof. exact forwarded_to_all_others. Qed.
Print Assumptions C23_forwarded_to_all_others.

(** Each session sends a given operation at most once, and never one it already synced. *)
Theorem C23_at_most_once_per_session_within_window :
  forall (c : config) (seed : N -> list N) (capS capM : nat) (U : list N),
    length U <= capS -> length U <= capM ->
    (forall s op, In op (seed s) -> In op U) -> (forall s, NoDup (seed s)) ->
    (forall a b, same_topic c a b = true -> incl (seed a) (seed b)) ->
    forall (tr : list label) (s op : N) (l1 l2 : list entry),
      Forall (label_ok U) tr -> log (reach c seed capS capM tr) = l1 ++ ESent s op :: l2 ->
      ~ In (ESent s op) l1 /\ ~ In (ESent s op) l2 /\ ~ In op (seed s).
Proof. exact at_most_once_per_session. Qed.
Print Assumptions C23_at_most_once_per_session_within_window.

(** After an operation arrived on a session, that session never sends it. *)
Theorem C23_never_back_to_origin :
  forall (c : config) (seed : N -> list N) (capS capM : nat) (U : list N),
    length U <= capS -> length U <= capM ->
    (forall s op, In op (seed s) -> In op U) -> (forall s, NoDup (seed s)) ->
    (forall a b, same_topic c a b = true -> incl (seed a) (seed b)) ->
    forall (tr : list label) (s op : N) (l1 l2 : list entry),
      Forall (label_ok U) tr -> log (reach c seed capS capM tr) = l1 ++ EArr s op :: l2 ->
      ~ In (ESent s op) l2.
Proof. exact never_back_to_origin. Qed.
Print Assumptions C23_never_back_to_origin.

(** Per peer, outside the known finding (sessions of a topic have pairwise different remotes):
    an operation that came from a peer is never afterwards sent to that peer. *)
Theorem C23_never_back_to_peer_outside_known :
  forall (c : config) (seed : N -> list N) (capS capM : nat) (U : list N),
    length U <= capS -> length U <= capM ->
    (forall s op, In op (seed s) -> In op U) -> (forall s, NoDup (seed s)) ->
    (forall a b, same_topic c a b = true -> incl (seed a) (seed b)) ->
    forall (tr : list label) (s op : N) (l1 l2 : list entry) (s' : N),
      distinct_peers c -> Forall (label_ok U) tr ->
      log (reach c seed capS capM tr) = l1 ++ EArr s op :: l2 ->
      same_topic c s s' = true -> peer_of c s = peer_of c s' -> ~ In (ESent s' op) l2.
Proof. exact never_back_to_origin_peer. Qed.
Print Assumptions C23_never_back_to_peer_outside_known.

(** Refuted for two sessions with the same remote peer on one topic: what arrives from the peer
    on one session is sent back to it on the other. *)
Theorem C23_never_back_to_peer_refuted :
  exists c tr s op l1 l2 s',
    log (run c (init (fun _ => []) 1024 1024) tr) = l1 ++ EArr s op :: l2 /\
    same_topic c s s' = true /\ peer_of c s = peer_of c s' /\ In (ESent s' op) l2.
Proof. exact (same_peer_refuted 1024 1024). Qed.
Print Assumptions C23_never_back_to_peer_refuted.

(** The consumer of the manager's event stream sees an operation at most once. *)
Theorem C23_consumer_at_most_once :
  forall (c : config) (seed : N -> list N) (capS capM : nat) (U : list N),
    length U <= capS -> length U <= capM ->
    (forall s op, In op (seed s) -> In op U) -> (forall s, NoDup (seed s)) ->
    (forall a b, same_topic c a b = true -> incl (seed a) (seed b)) ->
    forall (tr : list label) (s op : N) (l1 l2 : list entry),
      Forall (label_ok U) tr -> log (reach c seed capS capM tr) = l1 ++ ECons s op :: l2 ->
      forall s', ~ In (ECons s' op) l1 /\ ~ In (ECons s' op) l2.
Proof. exact consumer_at_most_once. Qed.
Print Assumptions C23_consumer_at_most_once.

(** Soundness of the oracle that judges the implementation's log (Oracle/C23.v): what it accepts
    satisfies the ordering clauses, the per-peer clause and completeness. *)
Theorem C23_oracle_order_sound :
  forall l, Oracle.C23.check_seq l = true ->
    forall l1 e l2, l = l1 ++ e :: l2 ->
      match e with
      | ESent s op => ~ In (ESent s op) l2
      | EArr s op => ~ In (ESent s op) l2
      | ECons _ op => forall s', ~ In (ECons s' op) l2
      end.
Proof. exact LiveOracle.check_seq_sound. Qed.
Print Assumptions C23_oracle_order_sound.

Theorem C23_oracle_peer_sound :
  forall c l, Oracle.C23.check_peer c l = true ->
    forall l1 s op l2 s', l = l1 ++ EArr s op :: l2 ->
      same_topic c s s' = true -> peer_of c s = peer_of c s' -> ~ In (ESent s' op) l2.
Proof. exact LiveOracle.check_peer_sound. Qed.
Print Assumptions C23_oracle_peer_sound.

Theorem C23_oracle_complete_sound :
  forall c seed l, Oracle.C23.check_complete c seed l = true ->
    forall s op s', In (EArr s op) l -> In s' (map sid c) -> same_topic c s s' = true ->
      In (ESent s' op) l \/ In (EArr s' op) l \/ In op (seed s').
Proof. exact LiveOracle.check_complete_sound. Qed.
Print Assumptions C23_oracle_complete_sound.
