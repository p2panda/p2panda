(** C14 — Every pipeline submission completes with its own result, under every interleaving.

    Only statements here; proofs live in Proofs/Tasks.v (the result lock: Proofs/TaskLock.v, the
    oracle: Proofs/OracleTasksMetrics.v).  [exec rep ids init tr s]: the labelled
    transition system of Model/Tasks.v ([rep = true]: the code after the repair "create and enable
    the Notified before checking the result"; [rep = false]: the code before it) reaches [s] from
    the initial state by the schedule [tr]; [ids] lists the operation id each submitter submits
    (equal entries = concurrent submissions of the same operation).  Liveness is relative to the
    modelled tokio semantics (header of Model/Tasks.v). *)
From Coq Require Import List Arith.
From PV Require Import Model.Tasks Proofs.Tasks.
Import ListNotations.

(** Safety, both orders, every schedule: a submitter only returns the result of an event with
    its own id. *)
Theorem C14_result_is_own : forall rep ids tr s i r,
  exec rep ids init tr s -> i < List.length ids -> subs s i = SDone r ->
  r < List.length ids /\ idof ids r = idof ids i.
Proof. exact result_is_own. Qed.
Print Assumptions C14_result_is_own.

(** Every schedule is finite: at most 10 steps per submitter (a strictly decreasing measure). *)
Theorem C14_traces_bounded : forall rep ids tr s,
  exec rep ids init tr s -> List.length tr <= 10 * List.length ids.
Proof. exact traces_bounded. Qed.
Print Assumptions C14_traces_bounded.

(** Repaired order: while some submitter has not returned, some step is enabled. *)
Theorem C14_deadlock_free : forall ids tr s,
  exec true ids init tr s -> all_doneb ids s = false -> exists l s', stepb true ids s l = Some s'.
Proof. exact deadlock_free. Qed.
Print Assumptions C14_deadlock_free.

(** Repaired order: every maximal schedule (finite by [C14_traces_bounded]; no fairness needed)
    ends with every submitter having returned, each with a result of its own id. *)
Theorem C14_every_maximal_trace_returns : forall ids tr s,
  exec true ids init tr s -> (forall l, stepb true ids s l = None) ->
  forall i, i < List.length ids ->
    exists r, subs s i = SDone r /\ r < List.length ids /\ idof ids r = idof ids i.
Proof. exact every_maximal_trace_returns. Qed.
Print Assumptions C14_every_maximal_trace_returns.

(** Repaired order: from every reachable state the run can be completed. *)
Theorem C14_can_always_complete : forall ids tr s,
  exec true ids init tr s -> exists tr' s', exec true ids s tr' s' /\ all_doneb ids s' = true.
Proof. exact can_always_complete. Qed.
Print Assumptions C14_can_always_complete.

(** The order before the repair: the submitter checks, the pipeline completes the task and
    notifies, the submitter registers its wait afterwards — and waits forever. *)
Theorem C14_asis_order_deadlocks : exists s,
  exec false [0] init asis_schedule s /\ all_doneb [0] s = false /\ forall l, stepb false [0] s l = None.
Proof. exact asis_order_deadlocks. Qed.
Print Assumptions C14_asis_order_deadlocks.

(** * The result lock held across steps (Model/TaskLock.v)

    [lexec tl k v linit tr s]: [k] waiters inside [Task::ready] of one task instance and the
    writer ([Task::mark_as_done] storing [v]) reach [s] by the schedule [tr]; a waiter that has
    acquired the result mutex keeps it over several steps (look, clone, release), so another
    waiter's check can find the mutex held.  [tl = false]: the code (`lock().await`: the check
    waits for the mutex); [tl = true]: a `try_lock()` check (not the code). *)
From PV Require Import Model.TaskLock Proofs.TaskLock.

(** Both variants: every schedule is finite. *)
Theorem C14_contended_traces_bounded : forall tl k v tr s,
  lexec tl k v linit tr s -> List.length tr <= 7 * k + 3.
Proof. exact ltraces_bounded. Qed.
Print Assumptions C14_contended_traces_bounded.

(** The code's protocol: while a waiter has not returned, some step is enabled (whoever holds
    the mutex can go on; with the mutex free a waiter or the writer can). *)
Theorem C14_contended_deadlock_free : forall k v tr s,
  lexec false k v linit tr s -> all_returnedb k s = false -> exists l s', lstep false k v s l = Some s'.
Proof. exact ldeadlock_free. Qed.
Print Assumptions C14_contended_deadlock_free.

(** The code's protocol: every maximal interleaving of the readers and the writer ends
    with every waiter having returned the stored result (nobody waits forever, nobody panics). *)
Theorem C14_contended_readers_return : forall k v tr s,
  lexec false k v linit tr s -> (forall l, lstep false k v s l = None) ->
  forall i, i < k -> l_r s i = RDone v.
Proof. exact contended_readers_return. Qed.
Print Assumptions C14_contended_readers_return.

(** A `try_lock()` check is refuted in the model: waiter 0 holds the mutex of a finished task
    (cloning) while waiter 1 checks, concludes "no result yet" and waits for a signal that has
    already fired.  Regression witness for the model's discriminating power, not a finding. *)
Theorem C14_try_lock_check_strands_a_waiter : exists s,
  lexec true 2 7 linit trylock_schedule s /\ l_r s 0 = RDone 7 /\ l_r s 1 = R4 1 /\ l_epoch s = 1 /\
  all_returnedb 2 s = false /\ forall l, lstep true 2 7 s l = None.
Proof. exact trylock_strands_a_waiter. Qed.
Print Assumptions C14_try_lock_check_strands_a_waiter.

(** The boolean oracle evaluated on the implementation's runs means what it should. *)
From PV Require Oracle.C14 Proofs.OracleTasksMetrics.
Theorem C14_oracle_sound : forall ids results,
  Oracle.C14.check ids results = true ->
  List.length results = List.length ids /\
  forall i o, nth_error results i = Some o ->
    exists r, o = Some r /\ r < List.length ids /\ idof ids r = idof ids i.
Proof. exact Proofs.OracleTasksMetrics.c14_check_sound. Qed.
Print Assumptions C14_oracle_sound.
