(** C18 — Hybrid timestamps strictly increase on every increment.

    Only statements here; proofs live in Proofs/Timestamp.v and Proofs/C18Oracle.v.  The model
    ([increment], [run], [increment_timestamp], [update_transports], [republish]) is in
    Model/Timestamp.v and stands for the code *after* "fix: HybridTimestamp::increment stays
    monotonic when the wall clock goes backwards". *)
From Coq Require Import List NArith Bool Sorted.
From PV Require Import Model.Timestamp Proofs.Timestamp Oracle.C18 Proofs.C18Oracle.
Import ListNotations.
Local Open Scope N_scope.

(** For every input timestamp and every clock reading (earlier, equal, later) the increment
    returns a strictly greater value.  Guard: the logical counter is below u64::MAX, and that
    only matters when the clock is not ahead of the input. *)
Theorem C18_increment_gt :
  forall (h : hts) (now : N),
    (now <= fst h -> snd h < u64max) ->
    exists h', increment h now = Some h' /\ hlt h h'.
Proof. exact increment_gt. Qed.
Print Assumptions C18_increment_gt.

(** The increment fails (overflow panic of the debug build) exactly at that boundary ... *)
Theorem C18_increment_none_iff :
  forall (h : hts) (now : N),
    increment h now = None <-> (now <= fst h /\ u64max <= snd h).
Proof. exact increment_none_iff. Qed.
Print Assumptions C18_increment_none_iff.

(** ... where the release build wraps the counter and returns a value that is not greater. *)
Theorem C18_increment_overflow_boundary :
  forall (t now : N),
    now <= t ->
    increment (t, u64max) now = None /\
    increment_wrap (t, u64max) now = (t, 0) /\
    ~ hlt (t, u64max) (increment_wrap (t, u64max) now).
Proof. exact increment_overflow_boundary. Qed.
Print Assumptions C18_increment_overflow_boundary.

(** Any sequence of increments under any clock script is strictly sorted (hence pairwise
    distinct), as long as the logical counter cannot reach the boundary within the sequence. *)
Theorem C18_increments_strictly_sorted :
  forall (h : hts) (nows : list N),
    snd h + N.of_nat (length nows) <= u64max ->
    snd (run h nows) = true /\
    length (fst (run h nows)) = length nows /\
    StronglySorted hlt (h :: fst (run h nows)).
Proof. exact increments_strictly_sorted. Qed.
Print Assumptions C18_increments_strictly_sorted.

Theorem C18_increments_pairwise_distinct :
  forall (h : hts) (nows : list N),
    snd h + N.of_nat (length nows) <= u64max ->
    NoDup (h :: fst (run h nows)).
Proof. exact (fun h nows _ => increments_pairwise_distinct h nows). Qed.
Print Assumptions C18_increments_pairwise_distinct.

(** Second sentence of the property: the record a node derives from its previous one with
    [increment_timestamp] and signs itself is accepted as newer by [update_transports],
    whatever the clock reads when it is created and when it is incremented. *)
Theorem C18_transport_info_newer :
  forall (cur : tinfo) (created now a : N),
    (now <= fst (ts cur) -> snd (ts cur) < u64max) ->
    exists t,
      increment_timestamp (hnow created) (Some cur) now = Some t /\
      hlt (ts cur) t /\
      update_transports (Some cur) {| ts := t; sig_ok := true; addrs := a |}
      = (UOk true, Some {| ts := t; sig_ok := true; addrs := a |}).
Proof. exact transport_info_newer. Qed.
Print Assumptions C18_transport_info_newer.

(** ... and so is every one of any number of successive republications. *)
Theorem C18_republish_always_accepted :
  forall (cur : tinfo) (rounds : list (N * N)),
    snd (ts cur) + N.of_nat (length rounds) <= u64max ->
    snd (republish cur rounds) = true /\
    length (fst (republish cur rounds)) = length rounds /\
    Forall (fun p => snd p = true) (fst (republish cur rounds)).
Proof. exact republish_always_accepted. Qed.
Print Assumptions C18_republish_always_accepted.

(** The oracle evaluated on the implementation's observations is sound for the statement. *)
Theorem C18_oracle_sound :
  forall (nows : list N) (h : hts) (outs : list hts),
    check_seq h nows outs false = true ->
    length outs = length nows /\ StronglySorted hlt (h :: outs).
Proof. exact check_seq_sound. Qed.
Print Assumptions C18_oracle_sound.
