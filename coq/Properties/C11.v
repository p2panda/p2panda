(** C11 -- Causal orderer releases items only after, and always after, their dependencies;
    a dependency list is a set.

    Only statements here; proofs live in Proofs/Orderer*.v.  The model (Model/Orderer.v) is the
    SQL of [OrdererStore] for SqliteStore plus [CausalOrderer::process/process_pending/next], after
    the repair "fix: de-duplicate dependencies in OrdererStore::ready".

    Vocabulary: [ops] is any list of [Deliver x deps] / [Next] / [Drain] operations (any order,
    repeated deliveries, repeated or missing dependencies, the same id with different lists);
    [trace_of perm fuel ops] is the sequence of deliveries and releases of the run;
    [perm] is the iteration order of the HashSet returned by [get_next_pending] (one permutation
    per call); [fuel] bounds the recursion depth of [process_pending], [no_oof] = it was enough;
    [grounded del x] = x was delivered with a dependency list all of whose members are grounded. *)
From Coq Require Import List Arith NArith Permutation.
From PV Require Import Model.Orderer Proofs.OrdererBase Proofs.OrdererSafety Proofs.Orderer Oracle.C11.
Import ListNotations.

(** Safety: every release of [x] is preceded by a delivery of [x] with a dependency list all of
    whose members were released before.  Any run, any iteration order, any fuel. *)
Theorem C11_release_after_deps :
  forall (perm : perm_t) (fuel : nat) (ops : list op), good_perm perm ->
    forall pre x post, trace_of perm fuel ops = pre ++ ERel x :: post ->
      exists ds, In (EDel x ds) pre /\ forall d, In d ds -> In (ERel d) pre.
Proof. intros perm fuel ops H. exact (release_after_deps perm (OrdererLive.perm_In perm H) fuel ops). Qed.
Print Assumptions C11_release_after_deps.

(** Liveness: an item whose dependencies have all been delivered (transitively) is released once
    the queue is drained. *)
Theorem C11_eventual_release :
  forall (perm : perm_t) (fuel : nat) (ops : list op) (x : id), good_perm perm ->
    no_oof perm fuel (ops ++ [Drain]) ->
    grounded (delivered_of ops) x -> In (ERel x) (trace_of perm fuel (ops ++ [Drain])).
Proof. intros perm fuel ops x H. exact (eventual_release perm H fuel ops x). Qed.
Print Assumptions C11_eventual_release.

(** Items with a missing (transitive) dependency are never released. *)
Theorem C11_blocked_stay_blocked :
  forall (perm : perm_t) (fuel : nat) (ops : list op) (x : id), good_perm perm ->
    ~ grounded (delivered_of ops) x -> ~ In (ERel x) (trace_of perm fuel ops).
Proof. intros perm fuel ops x H. exact (blocked_stay_blocked perm H fuel ops x). Qed.
Print Assumptions C11_blocked_stay_blocked.

(** The recursion of [process_pending] never exceeds the height of the delivered graph: for a
    DAG (any rank function decreasing along dependencies) [fuel] above the ranks is enough. *)
Theorem C11_fuel_sufficient :
  forall (perm : perm_t) (fuel : nat) (ops : list op) (rk : id -> nat), good_perm perm ->
    (forall x ds, In (x, ds) (delivered_of ops) -> rk x < fuel /\ forall d, In d ds -> rk d < rk x) ->
    no_oof perm fuel ops.
Proof. exact fuel_sufficient. Qed.
Print Assumptions C11_fuel_sufficient.

(** The released set depends only on the delivered set with dependency lists read as sets: not on
    the delivery order, repeated deliveries, interleaved [next] calls or the HashSet order. *)
Theorem C11_released_set_independent :
  forall perm1 perm2 fuel1 fuel2 ops1 ops2 x, good_perm perm1 -> good_perm perm2 ->
    no_oof perm1 fuel1 (ops1 ++ [Drain]) -> no_oof perm2 fuel2 (ops2 ++ [Drain]) ->
    same_deliveries (delivered_of ops1) (delivered_of ops2) ->
    (In (ERel x) (trace_of perm1 fuel1 (ops1 ++ [Drain])) <->
     In (ERel x) (trace_of perm2 fuel2 (ops2 ++ [Drain]))).
Proof. exact released_set_independent. Qed.
Print Assumptions C11_released_set_independent.

(** A dependency list is a set: removing repeated entries from every delivered list does not
    change what is released; and [ready] itself only looks at the set. *)
Theorem C11_deps_as_set :
  forall perm1 perm2 fuel1 fuel2 ops x, good_perm perm1 -> good_perm perm2 ->
    no_oof perm1 fuel1 (ops ++ [Drain]) -> no_oof perm2 fuel2 (map dedup_op ops ++ [Drain]) ->
    (In (ERel x) (trace_of perm1 fuel1 (ops ++ [Drain])) <->
     In (ERel x) (trace_of perm2 fuel2 (map dedup_op ops ++ [Drain]))).
Proof. exact deps_as_set. Qed.
Print Assumptions C11_deps_as_set.

Theorem C11_ready_is_set_test :
  forall s ds ds', PK s -> (forall d, In d ds <-> In d ds') -> ready s ds = ready s ds'.
Proof. intros s ds ds' _. apply ready_set. Qed.
Print Assumptions C11_ready_is_set_test.

(** For the record: the code before the repair compared COUNT(matching rows) with the *length* of
    the list, which is not a set test. *)
Theorem C11_count_refuted :
  exists s ds, PK s /\ (forall d, In d ds -> is_ready s d = true) /\ ready_asis s ds = false.
Proof. exact ready_asis_counterexample. Qed.
Print Assumptions C11_count_refuted.

(** The oracle evaluated on the implementation's observations is sound for the safety half: an
    accepted observation is a trace in which every release comes after its dependencies. *)
Theorem C11_oracle_sound :
  forall ops outs, check ops outs = true ->
    forall pre x post, events_of ops outs = pre ++ ERel x :: post ->
      exists ds, In (EDel x ds) pre /\ forall d, In d ds -> In (ERel d) pre.
Proof. exact check_sound. Qed.
Print Assumptions C11_oracle_sound.
